(* Property C20 -- parallel pivoting gives the sequential result and is race-free.
   Only statements: each theorem is a corollary (a line or two) of the lemmas in proofs/ and is followed by Print Assumptions;
   finite facts (examples, the generated tables) are closed by evaluation or by a lemma that evaluates.
   Model: smt/Pivot.v -- the row-update tasks of ONE pivot (the lambda of lra_theory::pivot under PARALLELIZE) as sequences
   of atomic steps on the shared objects (own row r->l, watch sets t_watches[v], mutexes t_mtxs[v]), a scheduler that
   interleaves them arbitrarily (a Lock step is enabled only when the mutex is free), and the counter protocol of
   smt::thread_pool. Tie: gen/Gen_pivot_footprint.v is regenerated from the source text on every run
   (tools/lra_footprint.py) and must satisfy table_ok; the PARALLELIZE build of the harness is compared with the
   sequential build on the C09 histories for pool sizes 1, 2, 16.
   PARTIAL by nature: the C++ memory model, std::mutex / condition_variable, and the set semantics of
   std::unordered_set (a watch set is modelled by its membership function) are trusted, not modelled. *)
From Coq Require Import QArith List Bool Arith.
From ORatio Require Import smt.Lra smt.Pivot proofs.LraBase_Proofs proofs.Pivot_Proofs.
From ORatio Require gen.Gen_pivot_footprint.
Import ListNotations.

(* every two complete interleavings (any schedules that respect program order and mutual exclusion) end with the same
   rows and the same watch sets, for any family of well-locked programs that own distinct rows *)
Theorem C20_all_interleavings_agree_partial :
  forall (progs : list (list action)) (owner : nat -> rowid),
  (forall t u, (t < length progs)%nat -> (u < length progs)%nat -> owner t = owner u -> t = u) ->
  (forall t, (t < length progs)%nat -> well_locked (owner t) [] (nth t progs []) = true) ->
  forall s0 sched1 sched2 c1 c2,
  run_sched sched1 (s0, progs) = Some c1 -> finished c1 -> run_sched sched2 (s0, progs) = Some c2 -> finished c2 ->
  (forall r, prow (fst c1) r = prow (fst c2) r) /\ (forall v r, pwatch (fst c1) v r = pwatch (fst c2) v r).
Proof. exact interleavings_agree. Qed.
Print Assumptions C20_all_interleavings_agree_partial.

(* the tasks of lra_theory::pivot are such programs ... *)
Theorem C20_pivot_tasks_well_locked : forall x_j expr r row0, well_locked r [] (task_actions x_j expr r row0) = true.
Proof. exact task_actions_well_locked. Qed.
Print Assumptions C20_pivot_tasks_well_locked.

(* ... and after ANY complete interleaving every updated row is exactly what the sequential code computes
   (Lra.lin_add_scaled (lin_remove x_j row) expr cc is the row update of the sequential branch, i.e. of the C09 model) *)
Theorem C20_parallel_rows_equal_sequential_partial : forall x_j expr rows s0 sched c,
  NoDup (map fst rows) -> (forall r row0, In (r, row0) rows -> prow s0 r = row0) -> (forall v, pheld s0 v = None) ->
  run_sched sched (s0, pivot_progs x_j expr rows) = Some c -> finished c ->
  forall r row0 cc, In (r, row0) rows -> coef x_j (lterms row0) = Some cc ->
    prow (fst c) r = lin_add_scaled (lin_remove x_j row0) expr cc.
Proof. exact (fun x_j expr rows s0 sched c ND H0 _ => parallel_pivot_rows x_j expr rows s0 sched c ND H0). Qed.
Print Assumptions C20_parallel_rows_equal_sequential_partial.

(* the watch bits a task writes are the derived watch sets of the C09 model: r watches v afterwards iff v occurs in the new row *)
Theorem C20_watch_sets_match_new_rows : forall v r x_j expr row0 cc b0,
  ksorted (keys (lterms row0)) -> coef x_j (lterms row0) = Some cc -> v <> x_j ->
  (b0 = true <-> coef v (lterms row0) <> None) ->
  (watchproj v r (task_actions x_j expr r row0) b0 = true <-> coef v (lterms (lin_add_scaled (lin_remove x_j row0) expr cc)) <> None).
Proof. exact task_watch_bits_match_new_row. Qed.
Print Assumptions C20_watch_sets_match_new_rows.

(* race freedom at the level of the footprint table: in every reachable configuration two different tasks never both
   have a next step on the same row or the same watch set, and a step on t_watches[v] is made holding t_mtxs[v] *)
Theorem C20_no_two_tasks_touch_the_same_object_partial :
  forall (progs : list (list action)) (owner : nat -> rowid),
  (forall t u, (t < length progs)%nat -> (u < length progs)%nat -> owner t = owner u -> t = u) ->
  (forall t, (t < length progs)%nat -> well_locked (owner t) [] (nth t progs []) = true) ->
  forall s0, (forall v, pheld s0 v = None) ->
  forall sched c t u a b ra rb,
  run_sched sched (s0, progs) = Some c -> t <> u ->
  nth t (snd c) [] = a :: ra -> nth u (snd c) [] = b :: rb -> conflict a b = false.
Proof. exact no_race. Qed.
Print Assumptions C20_no_two_tasks_touch_the_same_object_partial.
Theorem C20_watch_access_holds_the_mutex_partial :
  forall (progs : list (list action)) (owner : nat -> rowid),
  (forall t, (t < length progs)%nat -> well_locked (owner t) [] (nth t progs []) = true) ->
  forall s0, (forall v, pheld s0 v = None) ->
  forall sched c t a ra, run_sched sched (s0, progs) = Some c -> nth t (snd c) [] = a :: ra ->
  forall v, In (LWatch v) (footprint a) -> pheld (fst c) v = Some t.
Proof. exact watch_access_is_locked. Qed.
Print Assumptions C20_watch_access_holds_the_mutex_partial.

(* thread_pool: whenever join's wait predicate holds, every submitted task has completed *)
Theorem C20_join_returns_only_when_all_tasks_done_partial : forall p, pool_reach p -> join_may_return p -> completed p = submitted p.
Proof. exact join_returns_only_when_all_done. Qed.
Print Assumptions C20_join_returns_only_when_all_tasks_done_partial.

(* tie: the footprint regenerated from the source text obeys the discipline the model assumes *)
Theorem C20_source_footprint_obeys_lock_discipline : table_ok Gen_pivot_footprint.table = true.
Proof. vm_compute. reflexivity. Qed.
Print Assumptions C20_source_footprint_obeys_lock_discipline.
Theorem C20_source_pool_has_the_modelled_shape :
  Gen_pivot_footprint.join_follows_the_enqueue_loop && Gen_pivot_footprint.pool_take_atomic && Gen_pivot_footprint.pool_finish_locked &&
  Gen_pivot_footprint.pool_join_predicate && Gen_pivot_footprint.pool_enqueue_locked = true.
Proof. vm_compute. reflexivity. Qed.
Print Assumptions C20_source_pool_has_the_modelled_shape.
(* every read or write of tasks / active / stop in the worker loop, enqueue, join and the destructor is lexically inside a scope
   holding a lock on queue_mutex constructed before it (in join: before the predicate is first evaluated): this is what makes
   the steps of the pool model atomic and what orders the workers' writes before the caller's reads after join() *)
Theorem C20_source_pool_accesses_all_under_the_lock : pool_table_ok Gen_pivot_footprint.pool_table = true.
Proof. vm_compute. reflexivity. Qed.
Print Assumptions C20_source_pool_accesses_all_under_the_lock.
Theorem C20_pool_table_ok_means : forall t, pool_table_ok t = true -> forall e, In e t -> pa_locked e = true /\ pa_fn e <> POtherFn.
Proof. exact pool_table_ok_spec. Qed.
Print Assumptions C20_pool_table_ok_means.
Theorem C20_table_ok_means : forall t, table_ok t = true ->
  forall e, In e t -> match f_obj e with FWatch => f_index_is_v e = true /\ f_guard_on_v e = true | FOtherShared => False | _ => True end.
Proof. exact table_ok_spec. Qed.
Print Assumptions C20_table_ok_means.

(* non-vacuity: a complete interleaving of two tasks that contend for the mutexes of x2 and x3 *)
Example C20_example_interleaving :
  match run_sched ex_sched (ex_s0, pivot_progs 1%nat ex_expr ex_rows) with
  | Some c => snd c = [[]; []] /\ pwatch (fst c) 3%nat 5%nat = true /\ pwatch (fst c) 2%nat 5%nat = false /\ pwatch (fst c) 3%nat 7%nat = true
  | None => False
  end.
Proof. vm_compute. auto. Qed.
