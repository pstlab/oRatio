(* Property C13 -- reified boolean constructs are equivalent to the formula they stand for.

   Model: coq/smt/SatEnc.v (sat_core::new_var/new_clause/new_eq/new_conj/new_disj/new_at_most_one/new_exct_one and
   root-level propagation), tied to /repo's smt/sat_core.cpp on every run by tools/checks/c13.py.
   This file contains only the property theorems, each an instance, a projection or a conjunction of lemmas of
   proofs/SatEnc_Proofs.v (the last three: of proofs/SatKeys_Proofs.v), and each followed by Print Assumptions.

   Reading guide
     externals sortv sortl csqrt   the contract assumed of std::sort (by variable: a permutation; by lit::operator<: a sorted
                                   permutation) and of ceil(sqrt((double) n)) (in [2, n) for n >= 4); every theorem holds for
                                   EVERY such triple, C13_externals_instance shows the triple of the extracted model is one.
     wf s                          invariant of reachable states (C13_reachable): variable 0 is false, everything mentions
                                   existing variables only, every cached expression literal means its formula (at-most-one / exactly-one: implies it).
     models a s                    a satisfies every stored clause of s and agrees with its root-level values.
     exact a s                     models a s and every cached literal EQUALS its formula (the one-sided at-most-one /
                                   exactly-one literals are not needlessly false). Exact models are what "an assignment
                                   that satisfies the constraint" extends to: C13_reachable, C13_request_conservative.
     amo_sem / exct_sem            cardinality over the set of DISTINCT argument literals (C13_amo_semantics, C13_exct_semantics).
   Arguments are arbitrary lists (any length, repetitions, complementary literals, constants, literals decided at root);
   the cache may be hit or missed: both are inside the quantifiers.
   Cache keys: the model keys the expression cache structurally; the C++ key strings are modelled by smt/SatKeys.v (to_string(lit),
   the prefixes "b" "=" "&" "|" "amo" "^") and proved injective (proofs/SatKeys_Proofs.v, restated below), so the string lookup of the C++ IS the model's lookup.
   Non-vacuity: ex_key_text, ex_resplit_differ (proofs/SatKeys_Proofs.v), ex_state5_wf, ex_amo5, ex_exct5_history, ex_root_true, init_wf, init_exact in proofs/SatEnc_Proofs.v. *)
From Coq Require Import List Arith.
From ORatio Require Import smt.SatEnc smt.SatKeys proofs.SatEnc_Proofs proofs.SatKeys_Proofs.
Import ListNotations.

(* equality, conjunction, disjunction: equivalent to the formula in every model *)
Theorem C13_eq_equivalent : forall sortv sortl csqrt, externals sortv sortl csqrt ->
  forall s l r s' x, wf s -> lit_below (nvars s) l -> lit_below (nvars s) r -> new_eq sortv s l r = (s', x) ->
  lit_below (nvars s') x /\ forall a, models a s' -> eval a x = eq_sem a l r.
Proof. intros sortv sortl csqrt X s l r s' x W Bl Br H. exact (proj2 (new_eq_spec sortv sortl csqrt X s l r s' x W Bl Br H)). Qed.
Print Assumptions C13_eq_equivalent.

Theorem C13_conj_equivalent : forall sortv sortl csqrt, externals sortv sortl csqrt ->
  forall s ls s' x, wf s -> Forall (lit_below (nvars s)) ls -> new_conj sortv s ls = (s', x) ->
  lit_below (nvars s') x /\ forall a, models a s' -> eval a x = conj_sem a ls.
Proof. intros sortv sortl csqrt X s ls s' x W B H. exact (proj2 (new_conj_spec sortv sortl csqrt X s ls s' x W B H)). Qed.
Print Assumptions C13_conj_equivalent.

Theorem C13_disj_equivalent : forall sortv sortl csqrt, externals sortv sortl csqrt ->
  forall s ls s' x, wf s -> Forall (lit_below (nvars s)) ls -> new_disj sortv s ls = (s', x) ->
  lit_below (nvars s') x /\ forall a, models a s' -> eval a x = disj_sem a ls.
Proof. intros sortv sortl csqrt X s ls s' x W B H. exact (proj2 (new_disj_spec sortv sortl csqrt X s ls s' x W B H)). Qed.
Print Assumptions C13_disj_equivalent.

(* at-most-one / exactly-one: when true the constraint is forced; no assignment satisfying it is excluded *)
Theorem C13_at_most_one : forall sortv sortl csqrt, externals sortv sortl csqrt ->
  forall fuel s ls s' x, wf s -> Forall (lit_below (nvars s)) ls -> new_amo sortv sortl csqrt fuel s ls = Ok (s', x) ->
  lit_below (nvars s') x /\
  (forall a, models a s' -> eval a x = true -> amo_sem a ls = true) /\
  (forall a, exact a s -> amo_sem a ls = true -> exists a', agree_below (nvars s) a a' /\ exact a' s' /\ eval a' x = true).
Proof. exact P_amo. Qed.
Print Assumptions C13_at_most_one.

Theorem C13_exactly_one : forall sortv sortl csqrt, externals sortv sortl csqrt ->
  forall fuel s ls s' x, wf s -> Forall (lit_below (nvars s)) ls -> new_exct sortv sortl csqrt fuel s ls = Ok (s', x) ->
  lit_below (nvars s') x /\
  (forall a, models a s' -> eval a x = true -> exct_sem a ls = true) /\
  (forall a, exact a s -> exct_sem a ls = true -> exists a', agree_below (nvars s) a a' /\ exact a' s' /\ eval a' x = true).
Proof. exact P_exct. Qed.
Print Assumptions C13_exactly_one.

(* the recursion of the product encoding terminates: fuel = number of arguments + 1 is enough, for any n *)
Theorem C13_no_out_of_fuel : forall sortv sortl csqrt, externals sortv sortl csqrt ->
  forall s ls, new_amo sortv sortl csqrt (S (length ls)) s ls <> OutOfFuel /\ new_exct sortv sortl csqrt (S (length ls)) s ls <> OutOfFuel.
Proof.
  intros sortv sortl csqrt X s ls.
  split; [apply (new_amo_fuel sortv sortl csqrt X) | apply (new_exct_fuel sortv sortl csqrt X)]; apply Nat.lt_succ_diag_r.
Qed.
Print Assumptions C13_no_out_of_fuel.

Theorem C13_amo_semantics : forall a ls, amo_sem a ls = true <->
  (forall p q, In p ls -> In q ls -> eval a p = true -> eval a q = true -> p = q).
Proof. exact amo_sem_AMO. Qed.
Print Assumptions C13_amo_semantics.

Theorem C13_exct_semantics : forall a ls, exct_sem a ls = true <->
  (exists p, In p ls /\ eval a p = true) /\ (forall p q, In p ls -> In q ls -> eval a p = true -> eval a q = true -> p = q).
Proof. exact P_exct_sem. Qed.
Print Assumptions C13_exct_semantics.

(* strong form (additional): every request is a conservative extension by definitions *)
(* new_var / eq / conj / disj / at-most-one / exactly-one: never out of fuel, no root assignment, no model added, the answer
   means its formula in every model and EQUALS it in every exact model, and every exact model of the state before extends,
   changing fresh variables only, to an exact model of the state after (requesting a literal removes no solution). *)
Theorem C13_request_conservative : forall sortv sortl csqrt, externals sortv sortl csqrt ->
  forall s o s' r, wf s -> op_below (nvars s) o -> is_request o -> step sortv sortl csqrt s o = (s', r) ->
  wf s' /\ nvars s <= nvars s' /\ root s' = root s /\ r <> RFuel /\
  (forall a, models a s' -> models a s) /\
  (forall a, models a s' -> op_meaning o r a) /\
  (forall a, exact a s' -> exact a s /\ op_exact o r a) /\
  (forall a, exact a s -> exists a', agree_below (nvars s) a a' /\ exact a' s').
Proof. exact P_request. Qed.
Print Assumptions C13_request_conservative.

(* histories: all orders of construction *)
(* every state reached from the initial sat_core by ANY history (new_var, user clauses, requests, root propagation) is
   well-formed; after a history of requests it has an exact model *)
Theorem C13_reachable : forall sortv sortl csqrt, externals sortv sortl csqrt ->
  forall ops, scoped sortv sortl csqrt init_state ops ->
  wf (run sortv sortl csqrt init_state ops) /\
  (Forall is_request ops -> exists a, exact a (run sortv sortl csqrt init_state ops)).
Proof. exact P_reachable. Qed.
Print Assumptions C13_reachable.

(* the meaning of an answer survives every later operation (later requests, cache hits, user clauses, propagation) *)
Theorem C13_history_meaning : forall sortv sortl csqrt, externals sortv sortl csqrt ->
  forall pre o post, let s := run sortv sortl csqrt init_state pre in
  scoped sortv sortl csqrt init_state pre -> op_below (nvars s) o -> is_request o ->
  let s' := fst (step sortv sortl csqrt s o) in let r := snd (step sortv sortl csqrt s o) in
  scoped sortv sortl csqrt s' post ->
  forall a, models a (run sortv sortl csqrt s' post) -> op_meaning o r a.
Proof. exact P_history_meaning. Qed.
Print Assumptions C13_history_meaning.

(* no later request spoils an earlier answer: exact models keep extending, with the earlier literal equal to its formula *)
Theorem C13_history_conservative : forall sortv sortl csqrt, externals sortv sortl csqrt ->
  forall pre o post, let s := run sortv sortl csqrt init_state pre in
  scoped sortv sortl csqrt init_state pre -> op_below (nvars s) o -> is_request o ->
  let s' := fst (step sortv sortl csqrt s o) in let r := snd (step sortv sortl csqrt s o) in
  scoped sortv sortl csqrt s' post -> Forall is_request post ->
  forall a, exact a s -> exists a', agree_below (nvars s) a a' /\ exact a' (run sortv sortl csqrt s' post) /\ op_exact o r a'.
Proof. exact P_history_conservative. Qed.
Print Assumptions C13_history_conservative.

(* the user-level operations of the histories *)
Theorem C13_new_clause : forall sortv sortl csqrt, externals sortv sortl csqrt ->
  forall s ls s' b, wf s -> Forall (lit_below (nvars s)) ls -> new_clause sortv s ls = (s', b) ->
  wf s' /\ (b = true -> forall a, models a s' <-> models a s /\ sat_clause a ls = true) /\
  (b = false -> s' = s /\ forall a, models a s -> sat_clause a ls = false).
Proof.
  intros sortv sortl csqrt X s ls s' b W B H.
  destruct (new_clause_spec sortv sortl csqrt X s ls s' b W B H) as [W' [_ [_ TF]]]. exact (conj W' TF).
Qed.
Print Assumptions C13_new_clause.

Theorem C13_propagate_root : forall fuel s s' b, wf s -> propagate_root fuel s = Ok (s', b) ->
  wf s' /\ (forall a, models a s' <-> models a s) /\ (b = false -> forall a, ~ models a s).
Proof. intros fuel s s' b W H. destruct (propagate_root_spec fuel s s' b W H) as [W' [_ [_ [_ MF]]]]. exact (conj W' MF). Qed.
Print Assumptions C13_propagate_root.

(* the external contract is satisfiable: the instances of the extracted model *)
Theorem C13_externals_instance : externals isort_var isort_lit ceil_sqrt.
Proof. exact externals_instance. Qed.
Print Assumptions C13_externals_instance.

Theorem C13_ceiling_root : forall n, 0 < n -> (ceil_sqrt n - 1) * (ceil_sqrt n - 1) < n <= ceil_sqrt n * ceil_sqrt n.
Proof. exact ceil_sqrt_spec. Qed.
Print Assumptions C13_ceiling_root.

(* the printed cache keys: "an expression requested twice is shared" never confuses two different constructs *)
(* equal printed keys => same kind of construct and the same argument list (for ALL lists, in particular the sorted, filtered ones
   the constructs print); digit-wise re-splittings (b5 b7 b9 / b5 b79), signs and kinds cannot collide *)
Theorem C13_key_injective : forall k k', str_key k = str_key k' -> k = k'.
Proof. exact str_key_inj. Qed.
Print Assumptions C13_key_injective.

Theorem C13_literal_list_text_injective : forall ls ls', str_lits ls = str_lits ls' -> ls = ls'.
Proof. exact str_lits_inj. Qed.
Print Assumptions C13_literal_list_text_injective.

(* looking the printed key up in the printed cache by string equality (sat_core: exprs.find(s_expr)) is the model's lookup *)
Theorem C13_lookup_by_printed_key : forall k m, lookup_str (str_key k) m = lookup k m.
Proof. exact lookup_str_spec. Qed.
Print Assumptions C13_lookup_by_printed_key.
