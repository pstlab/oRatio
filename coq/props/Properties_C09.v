(* Property C09 -- linear arithmetic: reported values are a model, conflicts mean infeasibility.
   Only statements: each theorem is a corollary (a line or two) of the lemmas in proofs/ and is followed by Print Assumptions;
   finite facts (examples, the generated tables) are closed by evaluation or by a lemma that evaluates.
   The model (smt/Lra.v) is a hand-written Gallina re-statement of smt/arith/lra/lra_theory.{h,cpp} and lra_constraint.cpp,
   tied to /repo's sources by the trace differential of tools/checks/c09.py. Semantics: smt/LraSem.v.
   `reach s`: s is reached from init_state by any sequence of interface events (new_var, new_var(lin), new_lt..new_gt,
   new_eq, propagate(p), check(), push, pop) whose environment inputs respect `ok_event` (proofs/LraInv_Proofs.v):
   relations are requested at root level with canonical arguments over existing variables and a fresh propositional
   variable; propagate(p) is called with a literal that is true in the assignment passed; the public new_var(lin) is
   called at root level with a canonical expression over existing variables (lin_ok; known terms and basic variables are
   allowed since fix 8c419ea, which the model follows); set_lb / set_ub are called at root level with the TRUE literal.
   `all_atoms s` are the bound atoms currently asserted (delivered by propagate or set_lb / set_ub and not yet popped,
   those that the current bound already implied included). *)
From Coq Require Import QArith List Bool Arith.
From ORatio Require Import smt.Lra smt.LraSem smt.LraCheck proofs.LraCheck_Proofs proofs.LraBase_Proofs proofs.LraTab_Proofs proofs.LraInv_Proofs proofs.LraThm_Proofs proofs.LraRel_Proofs proofs.LraTop_Proofs.
Import ListNotations.
Local Open Scope Q_scope.

(* tableau invariant: the rows are equivalent to the slack definitions *)
Theorem C09_tableau_equivalent_to_definitions : forall s, reach s ->
  forall rho, sat_rows (tableau s) rho <-> sat_defs (exprs s) rho.
Proof. exact (fun s R => wf_defs s (wf_reach s R)). Qed.
Print Assumptions C09_tableau_equivalent_to_definitions.

(* pivot preserves the solution set (any well-formed tableau, any pivot element with non-zero coefficient) *)
Theorem C09_pivot_preserves_solutions : forall n T expr x_i x_j cf rho,
  wf_tab n T -> trow T x_i = Some expr -> coef x_j (lterms expr) = Some cf -> ~ cf == 0 ->
  (sat_rows (pivot_tab T expr x_i x_j cf) rho <-> sat_rows T rho).
Proof. exact pivot_tab_equiv. Qed.
Print Assumptions C09_pivot_preserves_solutions.
Theorem C09_pivot_computes_pivot_tab : forall s x_i x_j expr cf,
  trow (tableau s) x_i = Some expr -> coef x_j (lterms expr) = Some cf ->
  tableau (pivot s x_i x_j) = pivot_tab (tableau s) expr x_i x_j cf.
Proof. intros s x_i x_j expr cf H1 H2. rewrite (pivot_unfold s x_i x_j expr cf H1 H2). reflexivity. Qed.
Print Assumptions C09_pivot_computes_pivot_tab.
Theorem C09_reachable_tableau_well_formed : forall s, reach s -> wf_tab (nvars s) (tableau s).
Proof. exact (fun s R => wf_tabl s (wf_reach s R)). Qed.
Print Assumptions C09_reachable_tableau_well_formed.

(* the values satisfy every row, always (as Q_delta numbers: for every value of delta, equivalently componentwise) *)
Theorem C09_values_satisfy_rows : forall s, reach s -> forall d, sat_rows (tableau s) (valq d (vals s)).
Proof. exact (fun s R => wf_vals s (wf_reach s R)). Qed.
Print Assumptions C09_values_satisfy_rows.
Theorem C09_values_satisfy_rows_componentwise : forall s x l, reach s -> In (x, l) (tableau s) ->
  fst (vals s x) == evalq (fun v => fst (vals s v)) l /\ snd (vals s x) == sumq (fun v => snd (vals s v)) (lterms l).
Proof. exact (fun s x l R => vals_ok_components s x l (wf_vals s (wf_reach s R))). Qed.
Print Assumptions C09_values_satisfy_rows_componentwise.

(* ... and every bound of every non-basic variable, always *)
Theorem C09_nonbasic_within_bounds : forall s x, reach s -> (x < nvars s)%nat -> trow (tableau s) x = None ->
  within (cb s) x (vals s x).
Proof. exact (fun s x R => wf_nonbasic s (wf_reach s R) x). Qed.
Print Assumptions C09_nonbasic_within_bounds.

(* check = Sat: bounds / asserted atoms / definitions untouched; every variable within lb/ub; and there is a rational
   delta0 > 0 such that for every delta in (0, delta0] the rational valuation x |-> rat(x) + inf(x) * delta satisfies the
   definitions, the rows and every asserted atom in the reading over Q (strict constraints strictly: sat_lower_strict,
   sat_upper_strict).
   PARTIAL: termination of Bland's rule is not proved. The full statement would add
     `exists fuel, snd (check fuel s) <> COutOfFuel`;
   here OutOfFuel is excluded by the hypothesis and every run of the check reports if the fuel (10^4 pivots) runs out. *)
Theorem C09_check_sat_values_are_model_partial : forall fuel s s', reach s -> check fuel s = (s', CSat) ->
  (forall i, cb s' i = cb s i) /\ all_atoms s' = all_atoms s /\ exprs s' = exprs s /\
  (forall x, (x < nvars s')%nat -> within (cb s') x (vals s' x)) /\
  exists d0, 0 < d0 /\ forall d, 0 < d -> d <= d0 ->
    sat_defs (exprs s') (valq d (vals s')) /\ sat_rows (tableau s') (valq d (vals s')) /\
    forall a, In a (all_atoms s') -> sat_atom (valq d (vals s')) a.
Proof. exact (fun fuel s s' R => check_sat_model fuel s s' (wf_reach s R)). Qed.
Print Assumptions C09_check_sat_values_are_model_partial.

(* the reading of a Q_delta bound over Q *)
Theorem C09_strict_lower_is_strict : forall y c k, 0 < k -> (sat_lower y (c, k) <-> c < y).
Proof. exact sat_lower_strict. Qed.
Print Assumptions C09_strict_lower_is_strict.
Theorem C09_weak_lower_is_weak : forall y c k, k <= 0 -> (sat_lower y (c, k) <-> c <= y).
Proof. exact sat_lower_weak. Qed.
Print Assumptions C09_weak_lower_is_weak.
Theorem C09_strict_upper_is_strict : forall y c k, k < 0 -> (sat_upper y (c, k) <-> y < c).
Proof. exact sat_upper_strict. Qed.
Print Assumptions C09_strict_upper_is_strict.
Theorem C09_weak_upper_is_weak : forall y c k, 0 <= k -> (sat_upper y (c, k) <-> y <= c).
Proof. exact sat_upper_weak. Qed.
Print Assumptions C09_weak_upper_is_weak.

(* check = Conflict E: E is valid in every model (Farkas along the violated row), and the asserted atoms have no
   rational solution at all *)
Theorem C09_check_conflict_means_infeasible : forall fuel s s' c, reach s -> check fuel s = (s', CConflict c) ->
  clause_valid s' c /\
  (forall rho, sat_defs (exprs s') rho -> ~ (forall a, In a (all_atoms s') -> sat_atom rho a)) /\
  (forall i, cb s' i = cb s i) /\ all_atoms s' = all_atoms s /\ exprs s' = exprs s /\ asrts s' = asrts s.
Proof. exact (fun fuel s s' c R => check_conflict fuel s s' c (wf_reach s R)). Qed.
Print Assumptions C09_check_conflict_means_infeasible.

(* given termination: conflict <-> the asserted atoms are infeasible over the rationals *)
Theorem C09_check_verdict_exact_partial : forall fuel s s' r, reach s -> check fuel s = (s', r) -> r <> COutOfFuel ->
  ((exists c, r = CConflict c) <-> ~ exists rho, sat_defs (exprs s) rho /\ forall a, In a (all_atoms s) -> sat_atom rho a).
Proof. exact (fun fuel s s' r R => check_complete fuel s s' r (wf_reach s R)). Qed.
Print Assumptions C09_check_verdict_exact_partial.

(* every lemma recorded by propagate (unate and row propagation, all eight cases) and every conflict it reports is valid
   in the state it returns: true in every (alpha, rho) that satisfies the slack definitions, gives each theory literal
   the truth value of its atom and satisfies the atoms asserted at root level *)
Theorem C09_propagate_lemmas_and_conflicts_valid : forall s al p, reach s -> lvalue al p = Some true ->
  (forall c, In c (r_lemmas (snd (propagate s al p))) -> clause_valid (fst (propagate s al p)) c) /\
  (r_ok (snd (propagate s al p)) = false -> clause_valid (fst (propagate s al p)) (r_cnfl (snd (propagate s al p)))).
Proof. exact (fun s al p R => propagate_sound s al p (wf_reach s R)). Qed.
Print Assumptions C09_propagate_lemmas_and_conflicts_valid.

(* lb/ub contain every solution of the asserted atoms, are at least as tight as every asserted atom, and never cross *)
Theorem C09_bounds_contain_every_solution : forall s rho, reach s ->
  sat_defs (exprs s) rho -> (forall a, In a (all_atoms s) -> sat_atom rho a) ->
  forall x d v, bval (cb s (idx x d)) = Some v -> sat_atom rho (x, d, v).
Proof. exact (fun s rho R => bounds_contain_solutions s rho (wf_reach s R)). Qed.
Print Assumptions C09_bounds_contain_every_solution.
Theorem C09_bounds_tightest_asserted : forall s x d b, reach s -> In (x, d, b) (all_atoms s) ->
  exists v, bval (cb s (idx x d)) = Some v /\ match d with Lower => qd_le b v | Upper => qd_le v b end.
Proof. exact (fun s x d b R => bounds_tightest s x d b (wf_reach s R)). Qed.
Print Assumptions C09_bounds_tightest_asserted.
Theorem C09_bounds_never_cross : forall s x l u, reach s -> lbv s x = Some l -> ubv s x = Some u -> qd_le l u.
Proof. exact (fun s x l u R => bounds_consistent s x l u (wf_reach s R)). Qed.
Print Assumptions C09_bounds_never_cross.

(* pop restores the bounds (values and reasons) of the matching push, whatever happened in between (any balanced
   history); the values and the tableau are NOT restored - they stay a solution of the rows *)
Theorem C09_pop_restores_bounds : forall es s, reach s -> balanced es -> ok_run (EPush :: es ++ [EPop]) s ->
  forall i, cb (run (EPush :: es ++ [EPop]) s) i = cb s i.
Proof. exact (fun es s R => push_pop_restores es s (wf_reach s R)). Qed.
Print Assumptions C09_pop_restores_bounds.
Theorem C09_pop_keeps_values_on_rows : forall s, reach s -> forall d, sat_rows (tableau (pop s)) (valq d (vals (pop s))).
Proof. exact (fun s R => wf_vals _ (wf_pop s (wf_reach s R))). Qed.
Print Assumptions C09_pop_keeps_values_on_rows.

(* the calls new_lt .. new_gt make on new_var(const lin&) satisfy its precondition *)
Theorem C09_internal_new_var_calls_ok : forall s a b, reach s -> rel_args_ok s a b -> lin_ok s (rel_expr s a b).
Proof. exact (fun s a b R => rel_expr_ok s a b (wf_reach s R)). Qed.
Print Assumptions C09_internal_new_var_calls_ok.
Example C09_new_var_lin_over_basic_variable_with_known_term :
  let s := run nvl_events init_state in
  In (mkLin [(2%nat, 2)] 1, 3%nat) (exprs s) /\ valq 0 (vals s) 3%nat == evalq (valq 0 (vals s)) (mkLin [(2%nat, 2)] 1) /\
  trow (tableau s) 3%nat = Some (mkLin [(0%nat, 2); (1%nat, 2)] 1).
Proof. vm_compute. split; [auto | split; reflexivity]. Qed.

(* the public set_lb / set_ub (reason = the TRUE literal, root level; what executor.cpp calls): every lemma recorded is valid
   and a reported conflict is valid in every model of the requested bound *)
Theorem C09_set_bound_lemmas_and_conflicts_valid : forall s al d x v,
  reach s -> layers s = [] -> (x < nvars s)%nat -> sign_ok (x, d, v) ->
  let res := match d with Lower => assert_lower s al x v TRUE_lit | Upper => assert_upper s al x v TRUE_lit end in
  (forall c, In c (r_lemmas (snd res)) -> clause_valid (fst res) c) /\
  (r_ok (snd res) = false -> forall al' rho, model (fst res) al' rho -> (lit_holds al' TRUE_lit = true -> sat_atom rho (x, d, v)) ->
                             existsb (lit_holds al') (r_cnfl (snd res)) = true).
Proof. exact (fun s al d x v R => set_bound_sound s al d x v (wf_reach s R)). Qed.
Print Assumptions C09_set_bound_lemmas_and_conflicts_valid.

(* K2: the executable checkers run on the REAL lra_theory's dumped state, lemmas and conflicts (smt/LraCheck.v) are sound *)
Theorem C09_K2_rows_hold_on_dumped_values : forall dmp, chk_rows_vals dmp = true -> forall d, sat_rows (d_rows dmp) (valq d (d_vals dmp)).
Proof. exact chk_rows_vals_sound. Qed.
Print Assumptions C09_K2_rows_hold_on_dumped_values.
Theorem C09_K2_definitions_hold_on_dumped_values : forall dmp, chk_defs_vals dmp = true -> forall d, sat_defs (d_defs dmp) (valq d (d_vals dmp)).
Proof. exact chk_defs_vals_sound. Qed.
Print Assumptions C09_K2_definitions_hold_on_dumped_values.
Theorem C09_K2_dumped_values_within_bounds : forall all dmp, chk_within all dmp = true ->
  forall x, (x < d_n dmp)%nat -> (all = true \/ trow (d_rows dmp) x = None) ->
    (forall l, d_lb dmp x = Some l -> qd_le l (d_vals dmp x)) /\ (forall u, d_ub dmp x = Some u -> qd_le (d_vals dmp x) u).
Proof. exact chk_within_sound. Qed.
Print Assumptions C09_K2_dumped_values_within_bounds.
Theorem C09_K2_dumped_rows_follow_from_definitions : forall dmp rho, chk_rows_consequence dmp = true -> sat_defs (d_defs dmp) rho -> sat_rows (d_rows dmp) rho.
Proof. exact chk_rows_consequence_sound. Qed.
Print Assumptions C09_K2_dumped_rows_follow_from_definitions.
(* a recorded clause is accepted when the atoms that hold if all its literals are false are refuted (crossing bounds on one
   variable, or Farkas along a dumped row that follows from the definitions): then no rational point satisfies them *)
Theorem C09_K2_refuted_atoms_have_no_solution : forall dmp A rho,
  refute_check dmp A = true -> sat_defs (d_defs dmp) rho -> (forall a, In a A -> sat_atom rho a) -> False.
Proof. exact refute_check_sound. Qed.
Print Assumptions C09_K2_refuted_atoms_have_no_solution.

(* non-vacuity *)
Example C09_example_reachable_state : reach (run ex_events init_state).
Proof. exact ex_reach. Qed.
Example C09_example_state_is_nontrivial :
  let s := run ex_events init_state in
  map fst (tableau s) = [0%nat] /\ layers s <> [] /\ length (all_atoms s) = 2%nat /\ snd (check 100%nat s) = CSat.
Proof. vm_compute. repeat split; try reflexivity. intro H; discriminate. Qed.
Example C09_example_conflict : exists c, r_ok (snd (propagate (run ex_conflict_events init_state) ex_alpha2 (2%nat, true))) = false /\
                              r_cnfl (snd (propagate (run ex_conflict_events init_state) ex_alpha2 (2%nat, true))) = c /\ c <> [].
Proof. eexists. vm_compute. repeat split; congruence. Qed.
