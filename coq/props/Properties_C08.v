(* Property C08 -- undoing decisions restores the network exactly (SAT side + the assembly over an abstract theory).
   Model: smt/SatCore.v.  What is asked of the attached theory is a NAMED hypothesis on an observation [th_obs] of its state,
   in two forms:
   (pointwise, C08_pop_after_assume_restores_partial)
     th_pop_push      : th_obs (th_pop (th_push ts)) = th_obs ts
     th_pop_propagate : th_obs (th_pop (fst (fst (th_propagate ts a dl p)))) = th_obs (th_pop ts)
     th_pop_check     : th_obs (th_pop (fst (fst (th_check ts a dl)))) = th_obs (th_pop ts)
   (trace form under an invariant, C08_pop_after_assume_restores_trace_form_partial - implied by the pointwise form)
     th_undo : th_inv ts0 -> th_reach thp thc (th_push ts0) ts -> th_obs (th_pop ts) = th_obs ts0
     where th_reach = any sequence of propagate(p) / check() calls that record no lemma and report no conflict, and th_inv only
     has to hold initially and be preserved by propagate / check / push / pop (proofs/SatCoreTh_Proofs.v: the theory state of
     the model only ever changes through these four functions).
   The trace form is literally the shape of the undo theorems proved for the theory models:
     IDL / RDL  th_obs = the WHOLE theory state (distance matrix, predecessors, enforcing constraints, layers):
                C10_idl_pop_restores / C10_rdl_pop_restores: do_pop (run (do_push s) os) = s (os = enqueue / propagate-one / observers,
                under hinv s, no conflict pending, empty queue, wf_run, fault = 0);
     LRA        th_obs = the bound vector c_bounds (values AND reasons; hence lb / ub / bounds(lin)); NOT the simplex point `vals` nor
                the tableau, which a pop does not restore (they remain a solution of the rows: C09_pop_keeps_values_on_rows):
                C09_pop_restores_bounds: cb (run (EPush :: es ++ [EPop]) s) i = cb s i (reach s, balanced es, ok_run);
     OV         th_obs = the whole object-variable state (C14_assume_pop: ov_pop h' = h); the domains value(v) are a function of
                the literal values, which [restored] already gives back (r_assigns).
   DISCHARGED for the OBJECT-VARIABLE theory (smt/SatCoreOv.v, proofs/SatCoreOv_Proofs.v): ov_theory::propagate / check never
   fail and never record a lemma, push / pop only move the number of layers, value(v) is a function of sat_core's assignment
   and of the domain table: C08_pop_after_assume_restores_sat_ov below is NOT partial (no theory hypothesis, no `ub` side
   condition), with a concrete network as Example.  Tie of that instance to the code: tools/checks/c08.py (harness/h_net.cpp,
   the real ov_theory inside the real sat_core) checks after EVERY history command that ov_theory::layers.size() is the
   decision level, that no variable is stored in a layer and no conflict is pending, that no hook kind 2 / 3 clause consists of
   object-variable / plain literals only (ov_theory reports nothing), and compares the domains before / after pops and against
   a fresh network (evidence key ov_instance_tie); the domain function itself is C14's ov_value (tools/checks/c14.py, h_ov.cpp:
   C08_ov_domain_is_the_domain_of_the_ov_model).  Listeners are outside the model.
   IDL / RDL (smt/DlAdapter.v, proofs/DlAdapter_Proofs.v; generic in the distance domain): the adapter is
     TS = Dl.state, th_push = do_push, th_pop = do_pop, th_check = no lemma / no conflict,
     th_propagate ts a dl p = propagate_lit on ts with the embedded assignment REPLACED by the `a` sat_core passes and an empty
     embedded queue (idl_theory reads sat->value of constraint literals that are assigned but still queued); lemmas (hook kind 2)
     and the conflict are handed back; the embedded trail only counts levels; th_obs = th_part = what idl_theory.h declares
     (time points, _dists, _preds, dist_constr, var_dists, dist_constrs, layers).
   Two lemmas are proved for arbitrary assignments supplied from outside:
     (L1) UP' = the theory projection of DlUndo_Proofs.UP ("a pop would give the theory part N"): UP'_push, UP'_embed (replacing
          assignment and queue), UP'_propagate_lit, UP'_pop; hence the trace law
          C08_dl_theory_undo : dl_th_inv ts0 -> th_reach dl_thp dl_thc (th_push ts0) ts -> th_part (th_pop ts) = th_part ts0
          (it does not even need the quiet side conditions of th_reach: lemmas and conflicts do not disturb the layers);
     (L2) dl_th_inv = the structural half of `good` (square matrices of the capacity, sorted in-range undo layers, dist_constr
          sorted, time points / constraint end points inside the capacity, one trail level per layer plus root) is preserved by
          th_propagate (any assignment, any level, with or without lemma / conflict), th_check, th_push, th_pop:
          C08_dl_theory_invariant_preserved; it holds in every state of the model reached by a history (good -> dl_th_inv:
          C08_dl_model_states_are_legal_theory_states), so any network built by new_var / new_distance / relations qualifies.
   With them C08_pop_after_assume_restores_trace_form_partial instantiates to C08_pop_after_assume_restores_sat_idl_partial /
   _sat_rdl_partial: all FIVE undo-related hypotheses (four preservations + the trace law) are discharged.  They remain
   _partial for ONE reason, which is not about undo: the hypothesis `theory_contract T thp thc` of the SAT-side theorems
   (proofs/SatCoreThm_Proofs.v) asks that the lemmas / conflicts of th_propagate (thst s) (assigns s) ... be T-valid, over
   existing variables, false under s apart from the head, FOR EVERY sat state s with Inv T s - whatever theory state thst s is.
   ov_theory meets it because it never says anything; a theory with a real state cannot: a Dl.state that is not `good` for the
   assignment of s may emit anything.  What is needed is a contract RELATIVE to a joint invariant (thst s is `good` for the
   assignment embedded from s: Dl's sat_ok / queue_ok / prop_ok with assigns := assigns s), carried along run like Inv; under it
   C10_idl_clauses_valid / C10_rdl_clauses_valid (lemmas and conflicts are DL-valid, tail false, head undefined) are exactly the
   lemma_ok / cnfl_ok obligations.  Such a relation between SAT state and theory state would be one more joint invariant in the
   sense of SatCoreRun_Proofs (records jprop / joint) and asks nothing new of the DL development; it has not been stated.
   `ub = false` stays as in the generic theorem (C07's no-UB theorem needs the same contract).
   GUARDED IDL NETWORK (proofs/SatCoreGuard_Proofs.v construction; smt/DlGuard.v, proofs/DlGuardChk_Proofs.v, proofs/SatCoreDl_Proofs.v):
   C08_pop_after_assume_restores_sat_idl_guarded below has NO theory hypothesis.  It is a theorem about the network
   sat_core + GUARDED idl_theory: the theory state carries K = dl_th_inv + "the constraint table is VD0" by typing, and an
   answer of propagate(p) is passed on only when the decidable test idl_gp succeeds - one layer per level, and every lemma /
   the conflict carries its certificate (the constraints of the negated literals, read backwards, are a closed chain of
   negative weight - the explanation walk of idl_theory produces exactly that), ranges over existing variables, is false in
   the passed assignment apart from a lemma's head, a conflict contains !p.  T = the assignments realised by an integer
   valuation of the time points.  (V1) therefore is the SOUNDNESS OF THE CERTIFICATE CHECK (valid_chk_sound), not
   C10_idl_clauses_valid.  K is not the semantic invariant `good` (with the test "the embedded assignment is the told part of the
   passed one") for a precise reason: `good` / hinv is preserved by push / pop / propagate only under the protocol side
   conditions of wf_op (push with empty queue and no pending conflict, pop with empty queue), while (P1-P4) quantify over ALL
   K-states; that choice would need (i) the passed assignment synchronised by model enqueues and a lemma "good is invariant
   under queue reordering" (ngood_transfer gives it), (ii) a skipped-push counter so that th_push / th_pop stay K-preserving
   when sat_core would push with a non-empty theory queue, (iii) the translation clause_valid -> entails T (clause_valid_sem)
   and "an explanation has >= 2 literals" (from walk_total).  What C10
   contributes here instead: on `good` states C10_idl_clauses_valid proves that the negative cycle EXISTS and that the tail is
   false, i.e. that the validity / falsity parts of the test cannot fail; that the test ALWAYS succeeds on reachable states
   (faithfulness: the guarded theory is the raw one) is the run-time obligation of the tie: tools/checks/c10.py evaluates the
   extracted idl_gp on every theory propagation of every differential IDL history and reports `dl:guard-failed` (evidence key
   guard_evaluations).  `ub = false` stays a premise: (W) lemmas_wl_ok speaks about the levels of the tail literals, which a
   propagate call does not receive.  LRA (smt/LraAdapter.v, proofs/LraAdapter_Proofs.v): C08_lra_theory_undo and
   C08_pop_after_assume_restores_sat_lra_partial below, _partial for the same reason as idl / rdl.  The propositional and the
   object-variable instances are complete, and the history-independence of the real mixed
   network (sat_core + lra + idl + rdl + ov) is checked on the implementation by tools/checks/c08.py. *)
From Coq Require Import List Arith Bool ZArith Permutation Sorted.
From ORatio Require Import smt.SatCoreBase smt.SatCoreSpec smt.SatCore
  proofs.SatCoreInv_Proofs proofs.SatCoreRun_Proofs proofs.SatCoreThm_Proofs proofs.SatCoreTh_Proofs proofs.SatCoreUndo_Proofs proofs.SatCoreWlThm_Proofs smt.SatCoreOv proofs.SatCoreOv_Proofs.
From ORatio Require smt.DlDom smt.Dl smt.DlInst smt.DlAdapter proofs.DlOrd_Proofs proofs.DlSpec_Proofs proofs.DlAdapter_Proofs
  proofs.DlHist_Proofs proofs.DlIdl_Proofs proofs.DlRdl_Proofs.
From ORatio Require smt.Lra smt.LraAdapter proofs.LraAdapter_Proofs.
From ORatio Require Import proofs.SatCoreGuard_Proofs.
From ORatio Require smt.DlGuard proofs.DlGuardChk_Proofs proofs.SatCoreDl_Proofs.
Import ListNotations.

(* the assignment vector is a function of the trail alone, after ANY history *)
Theorem C08_assigns_determined_by_trail :
  forall (TS : Type) (T : asg -> Prop) sort thp thc (thpush thpop : TS -> TS) FUEL,
  sort_contract sort -> theory_contract T thp thc ->
  forall ops ts, run_ok sort thp thc thpush thpop FUEL ops (init ts) = true ->
  ub (run sort thp thc thpush thpop FUEL ops (init ts)) = false ->
  forall v, value_var (run sort thp thc thpush thpop FUEL ops (init ts)) v =
            val_of_trail (trail (run sort thp thc thpush thpop FUEL ops (init ts))) v.
Proof. exact @c08_assigns_by_trail. Qed.
Print Assumptions C08_assigns_determined_by_trail.

(* ... and so is the level vector (trail + level boundaries) *)
Theorem C08_levels_determined_by_trail :
  forall (TS : Type) (T : asg -> Prop) sort thp thc (thpush thpop : TS -> TS) FUEL,
  sort_contract sort -> theory_contract T thp thc ->
  forall ops ts, run_ok sort thp thc thpush thpop FUEL ops (init ts) = true ->
  ub (run sort thp thc thpush thpop FUEL ops (init ts)) = false ->
  forall v, nth v (level (run sort thp thc thpush thpop FUEL ops (init ts))) 0 =
            level_of_trail (trail (run sort thp thc thpush thpop FUEL ops (init ts)))
                           (trail_lim (run sort thp thc thpush thpop FUEL ops (init ts))) v.
Proof. exact @c08_level_by_trail. Qed.
Print Assumptions C08_levels_determined_by_trail.

(* direct form: after any history, assume p (no conflict, no lemma: nothing logged) followed by pop gives back
   assigns, level, reason, trail, level boundaries, decisions, queue, the clause list, every clause up to the order of
   its literals (watch moves are not undone - they are not observable), the log, and the observable theory state.
   FULL statement; _partial because the three theory hypotheses are not yet discharged for lra / idl / rdl / ov. *)
Theorem C08_pop_after_assume_restores_partial :
  forall (TS : Type) (T : asg -> Prop) sort thp thc (thpush thpop : TS -> TS) FUEL,
  sort_contract sort -> theory_contract T thp thc ->
  forall (O : Type) (th_obs : TS -> O),
  (forall ts, th_obs (thpop (thpush ts)) = th_obs ts) ->
  (forall ts a dl p, th_obs (thpop (fst (fst (thp ts a dl p)))) = th_obs (thpop ts)) ->
  (forall ts a dl, th_obs (thpop (fst (fst (thc ts a dl)))) = th_obs (thpop ts)) ->
  forall ops ts, run_ok sort thp thc thpush thpop FUEL ops (init ts) = true ->
  ub (run sort thp thc thpush thpop FUEL ops (init ts)) = false ->
  forall p s', pre (run sort thp thc thpush thpop FUEL ops (init ts)) (OAssume p) = true ->
  assume sort thp thc thpush thpop FUEL (run sort thp thc thpush thpop FUEL ops (init ts)) p = (s', RTrue) ->
  log s' = log (run sort thp thc thpush thpop FUEL ops (init ts)) ->
  restored O th_obs (run sort thp thc thpush thpop FUEL ops (init ts)) (pop thpop s').
Proof. exact @c08_pop_assume. Qed.
Print Assumptions C08_pop_after_assume_restores_partial.

(* trace form: one law, relative to an invariant of the theory state that is carried along the history *)
Theorem C08_pop_after_assume_restores_trace_form_partial :
  forall (TS : Type) (T : asg -> Prop) sort thp thc (thpush thpop : TS -> TS) FUEL,
  sort_contract sort -> theory_contract T thp thc ->
  forall (O : Type) (th_obs : TS -> O) (th_inv : TS -> Prop),
  (forall ts a dl p, th_inv ts -> th_inv (fst (fst (thp ts a dl p)))) ->
  (forall ts a dl, th_inv ts -> th_inv (fst (fst (thc ts a dl)))) ->
  (forall ts, th_inv ts -> th_inv (thpush ts)) -> (forall ts, th_inv ts -> th_inv (thpop ts)) ->
  (forall ts0 ts, th_inv ts0 -> th_reach thp thc (thpush ts0) ts -> th_obs (thpop ts) = th_obs ts0) ->
  forall ops ts, th_inv ts -> run_ok sort thp thc thpush thpop FUEL ops (init ts) = true ->
  ub (run sort thp thc thpush thpop FUEL ops (init ts)) = false ->
  forall p s', pre (run sort thp thc thpush thpop FUEL ops (init ts)) (OAssume p) = true ->
  assume sort thp thc thpush thpop FUEL (run sort thp thc thpush thpop FUEL ops (init ts)) p = (s', RTrue) ->
  log s' = log (run sort thp thc thpush thpop FUEL ops (init ts)) ->
  restored O th_obs (run sort thp thc thpush thpop FUEL ops (init ts)) (pop thpop s').
Proof. exact @c08_pop_assume_inv. Qed.
Print Assumptions C08_pop_after_assume_restores_trace_form_partial.

(* the theory state after any history is reachable from the initial one through the four theory functions only *)
Theorem C08_theory_state_changes_only_through_the_theory :
  forall (TS : Type) sort thp thc (thpush thpop : TS -> TS) FUEL ops (s : @state TS),
  th_full thp thc thpush thpop (thst s) (thst (run sort thp thc thpush thpop FUEL ops s)).
Proof. exact @run_th. Qed.
Print Assumptions C08_theory_state_changes_only_through_the_theory.

(* the propositional instance (what is extracted and compared with the C++) needs no hypothesis, not even `ub = false`
   (discharged by C07_no_undefined_behaviour_propositional) *)
Theorem C08_pop_after_assume_restores_propositional :
  forall FUEL ops, run_ok (@isort lit) nt_propagate nt_check nt_id nt_id FUEL ops p_init = true ->
  forall p s', pre (run (@isort lit) nt_propagate nt_check nt_id nt_id FUEL ops p_init) (OAssume p) = true ->
  assume (@isort lit) nt_propagate nt_check nt_id nt_id FUEL (run (@isort lit) nt_propagate nt_check nt_id nt_id FUEL ops p_init) p = (s', RTrue) ->
  log s' = log (run (@isort lit) nt_propagate nt_check nt_id nt_id FUEL ops p_init) ->
  restored unit (fun ts => ts) (run (@isort lit) nt_propagate nt_check nt_id nt_id FUEL ops p_init) (pop nt_id s').
Proof. exact c08_pop_assume_prop_no_ub. Qed.
Print Assumptions C08_pop_after_assume_restores_propositional.

(* ---------------------------------------------------------------------------------------------- *)
(* The network sat_core + OBJECT-VARIABLE theory: the hypotheses are discharged, the theorem is not partial.
   Instance (smt/SatCoreOv.v, read off smt/ov/ov_theory.cpp): propagate / check return "no lemma, no conflict" and leave the
   theory state alone; push / pop only move the number of layers; the state is (domain table, number of layers); the reported
   domain value(v) = the values of the table whose literal is not False under sat_core's assignment. *)
Theorem C08_ov_instance_meets_the_contract_and_the_undo_laws :
  theory_contract no_theory ov_thp ov_thc /\
  (forall ts, ov_thpop (ov_thpush ts) = ts) /\
  (forall ts a dl p, ov_thpop (fst (fst (ov_thp ts a dl p))) = ov_thpop ts) /\
  (forall ts a dl, ov_thpop (fst (fst (ov_thc ts a dl))) = ov_thpop ts).
Proof. exact (conj ov_contract (conj ov_pop_push (conj ov_pop_propagate ov_pop_check))). Qed.
Print Assumptions C08_ov_instance_meets_the_contract_and_the_undo_laws.

(* after ANY history of the network (documented preconditions only; no `ub` side condition: C07's no-UB theorem applies, the
   theory records no lemma), a decision taken without a conflict and then undone gives back values, levels, reasons, trail,
   level boundaries, decisions, queue, clause list, every clause up to literal order, the log, the theory state - and every
   object variable reports the domain it reported before; the domain table is the one the network was built with *)
Theorem C08_pop_after_assume_restores_sat_ov :
  forall fuel doms ops,
  ovn_run_ok fuel ops (ovn_init doms) = true ->
  forall p s', pre (ovn_run fuel ops (ovn_init doms)) (OAssume p) = true ->
  ovn_assume fuel (ovn_run fuel ops (ovn_init doms)) p = (s', RTrue) ->
  log s' = log (ovn_run fuel ops (ovn_init doms)) ->
  restored ovt (fun ts => ts) (ovn_run fuel ops (ovn_init doms)) (ovn_pop s') /\
  (forall v, ovs_value (ovn_pop s') v = ovs_value (ovn_run fuel ops (ovn_init doms)) v) /\
  ov_doms (thst (ovn_pop s')) = doms.
Proof. exact c08_sat_ov. Qed.
Print Assumptions C08_pop_after_assume_restores_sat_ov.

(* ovs_value is C14's ov_value (smt/Ov.v, tied to ov_theory.cpp by tools/checks/c14.py) when the domain tables and the two
   assignments correspond *)
Theorem C08_ov_domain_is_the_domain_of_the_ov_model :
  forall (o : Ov.ov_state) (s : ovstate) v,
  ov_doms (thst s) = map (map (fun p => (fst p, conv (snd p)))) (Ov.doms o) ->
  (forall l, is_false s (conv l) = SatEnc.lbool_eqb (SatEnc.value (Ov.sat o) l) SatEnc.LFalse) ->
  ovs_value s v = Ov.ov_value o v.
Proof. exact ovs_value_is_ov_value. Qed.
Print Assumptions C08_ov_domain_is_the_domain_of_the_ov_model.

(* the hypotheses are met by a concrete network: e0 over {0,1} (literals x1, x2), e1 over {1,2} (x3, x4), the equality literal
   x5 = (e0 == e1) with new_eq's clauses; deciding x5 narrows both domains to {1}, the pop gives {0,1} and {1,2} back *)
Example C08_sat_ov_example :
  let s := ovn_run 100 ex_ops (ovn_init ex_doms) in
  let s' := fst (ovn_assume 100 s (5, true)) in
  ovn_run_ok 100 ex_ops (ovn_init ex_doms) = true /\ pre s (OAssume (5, true)) = true /\
  ovn_assume 100 s (5, true) = (s', RTrue) /\ log s' = log s /\
  ovs_value s 0 = [0; 1] /\ ovs_value s 1 = [1; 2] /\
  ovs_value s' 0 = [1] /\ ovs_value s' 1 = [1] /\
  ovs_value (ovn_pop s') 0 = [0; 1] /\ ovs_value (ovn_pop s') 1 = [1; 2].
Proof. exact ex_sat_ov. Qed.
Print Assumptions C08_sat_ov_example.

(* ---------------------------------------------------------------------------------------------- *)
(* The networks sat_core + IDL / RDL (adapter smt/DlAdapter.v): the undo-related hypotheses are discharged, for arbitrary
   assignments supplied by sat_core; generic in the distance domain D / dm. *)

(* (L2) the structural invariant of the theory state is preserved by the four theory functions *)
Theorem C08_dl_theory_invariant_preserved : forall (D : Type) (dm : DlDom.dom D),
  (forall ts a dl p, DlAdapter_Proofs.dl_th_inv D ts -> DlAdapter_Proofs.dl_th_inv D (fst (fst (DlAdapter.dl_thp D dm ts a dl p)))) /\
  (forall ts a dl, DlAdapter_Proofs.dl_th_inv D ts -> DlAdapter_Proofs.dl_th_inv D (fst (fst (DlAdapter.dl_thc D ts a dl)))) /\
  (forall ts, DlAdapter_Proofs.dl_th_inv D ts -> DlAdapter_Proofs.dl_th_inv D (DlAdapter.dl_thpush D ts)) /\
  (forall ts, DlAdapter_Proofs.dl_th_inv D ts -> DlAdapter_Proofs.dl_th_inv D (DlAdapter.dl_thpop D ts)).
Proof.
  exact (fun D dm => conj (DlAdapter_Proofs.dl_inv_thp D dm) (conj (DlAdapter_Proofs.dl_inv_thc D)
                     (conj (DlAdapter_Proofs.dl_inv_push D) (DlAdapter_Proofs.dl_inv_pop D dm)))).
Qed.
Print Assumptions C08_dl_theory_invariant_preserved.

(* (L1) the trace law: whatever propagate(p) / check() calls sat_core makes inside a level, with whatever assignments, the pop
   gives back the theory part of the state of the push *)
Theorem C08_dl_theory_undo : forall (D : Type) (dm : DlDom.dom D) ts0 ts,
  DlAdapter_Proofs.dl_th_inv D ts0 ->
  th_reach (DlAdapter.dl_thp D dm) (DlAdapter.dl_thc D) (DlAdapter.dl_thpush D ts0) ts ->
  DlAdapter.th_part D (DlAdapter.dl_thpop D ts) = DlAdapter.th_part D ts0.
Proof. exact DlAdapter_Proofs.dl_th_undo. Qed.
Print Assumptions C08_dl_theory_undo.

(* every state of the difference-logic model that satisfies its invariant `good` (C10_idl_invariant / C10_rdl_invariant: every
   state reached by a history) is a legal initial theory state *)
Theorem C08_dl_model_states_are_legal_theory_states :
  forall (O : DlOrd_Proofs.ogroup) (D : Type) (dm : DlDom.dom D) (DS : DlSpec_Proofs.domspec O D dm) (s : Dl.state D),
  DlSpec_Proofs.good O D dm DS s -> DlAdapter_Proofs.dl_th_inv D s.
Proof. exact DlAdapter_Proofs.good_th_inv. Qed.
Print Assumptions C08_dl_model_states_are_legal_theory_states.

(* in particular every state the model reaches by a history (DlHist_Proofs.history_good).  Stated over variables: for a closed
   history the kernel would otherwise compare `DlHist_Proofs.run` with `Dl.run` by evaluating both. *)
Lemma dl_history_states_are_legal_theory_states :
  forall (O : DlOrd_Proofs.ogroup) (D : Type) (dm : DlDom.dom D) (DS : DlSpec_Proofs.domspec O D dm) size os,
  0 < size -> DlHist_Proofs.wf_run D dm (Dl.init D dm size) os ->
  Dl.fault (Dl.run D dm (Dl.init D dm size) os) = 0 -> Dl.confl (Dl.run D dm (Dl.init D dm size) os) = false ->
  DlAdapter_Proofs.dl_th_inv D (Dl.run D dm (Dl.init D dm size) os).
Proof.
  intros O D dm DS size os Hs W F C.
  exact (C08_dl_model_states_are_legal_theory_states O D dm DS _ (DlHist_Proofs.history_good O D dm DS size os Hs W F C)).
Qed.

(* the assembled theorem for sat_core + idl_theory: no undo hypothesis is left; _partial only because of the contract of
   sat_core towards the theory's lemmas / conflicts (see the header) *)
Theorem C08_pop_after_assume_restores_sat_idl_partial :
  forall (sat : bool) (T : asg -> Prop) sort FUEL,
  sort_contract sort -> theory_contract T (DlAdapter.dl_thp Z (DlDom.idl_dom sat)) (DlAdapter.dl_thc Z) ->
  forall ops ts, DlAdapter_Proofs.dl_th_inv Z ts ->
  run_ok sort (DlAdapter.dl_thp Z (DlDom.idl_dom sat)) (DlAdapter.dl_thc Z) (DlAdapter.dl_thpush Z) (DlAdapter.dl_thpop Z) FUEL ops (init ts) = true ->
  ub (run sort (DlAdapter.dl_thp Z (DlDom.idl_dom sat)) (DlAdapter.dl_thc Z) (DlAdapter.dl_thpush Z) (DlAdapter.dl_thpop Z) FUEL ops (init ts)) = false ->
  forall p s', pre (run sort (DlAdapter.dl_thp Z (DlDom.idl_dom sat)) (DlAdapter.dl_thc Z) (DlAdapter.dl_thpush Z) (DlAdapter.dl_thpop Z) FUEL ops (init ts)) (OAssume p) = true ->
  assume sort (DlAdapter.dl_thp Z (DlDom.idl_dom sat)) (DlAdapter.dl_thc Z) (DlAdapter.dl_thpush Z) (DlAdapter.dl_thpop Z) FUEL
    (run sort (DlAdapter.dl_thp Z (DlDom.idl_dom sat)) (DlAdapter.dl_thc Z) (DlAdapter.dl_thpush Z) (DlAdapter.dl_thpop Z) FUEL ops (init ts)) p = (s', RTrue) ->
  log s' = log (run sort (DlAdapter.dl_thp Z (DlDom.idl_dom sat)) (DlAdapter.dl_thc Z) (DlAdapter.dl_thpush Z) (DlAdapter.dl_thpop Z) FUEL ops (init ts)) ->
  restored _ (DlAdapter.th_part Z)
    (run sort (DlAdapter.dl_thp Z (DlDom.idl_dom sat)) (DlAdapter.dl_thc Z) (DlAdapter.dl_thpush Z) (DlAdapter.dl_thpop Z) FUEL ops (init ts))
    (pop (DlAdapter.dl_thpop Z) s').
Proof. exact (fun sat => DlAdapter_Proofs.c08_sat_dl Z (DlDom.idl_dom sat)). Qed.
Print Assumptions C08_pop_after_assume_restores_sat_idl_partial.

Theorem C08_pop_after_assume_restores_sat_rdl_partial :
  forall (guard : bool) (T : asg -> Prop) sort FUEL,
  sort_contract sort -> theory_contract T (DlAdapter.dl_thp DlDom.qd (DlDom.rdl_dom guard)) (DlAdapter.dl_thc DlDom.qd) ->
  forall ops ts, DlAdapter_Proofs.dl_th_inv DlDom.qd ts ->
  run_ok sort (DlAdapter.dl_thp DlDom.qd (DlDom.rdl_dom guard)) (DlAdapter.dl_thc DlDom.qd) (DlAdapter.dl_thpush DlDom.qd) (DlAdapter.dl_thpop DlDom.qd) FUEL ops (init ts) = true ->
  ub (run sort (DlAdapter.dl_thp DlDom.qd (DlDom.rdl_dom guard)) (DlAdapter.dl_thc DlDom.qd) (DlAdapter.dl_thpush DlDom.qd) (DlAdapter.dl_thpop DlDom.qd) FUEL ops (init ts)) = false ->
  forall p s', pre (run sort (DlAdapter.dl_thp DlDom.qd (DlDom.rdl_dom guard)) (DlAdapter.dl_thc DlDom.qd) (DlAdapter.dl_thpush DlDom.qd) (DlAdapter.dl_thpop DlDom.qd) FUEL ops (init ts)) (OAssume p) = true ->
  assume sort (DlAdapter.dl_thp DlDom.qd (DlDom.rdl_dom guard)) (DlAdapter.dl_thc DlDom.qd) (DlAdapter.dl_thpush DlDom.qd) (DlAdapter.dl_thpop DlDom.qd) FUEL
    (run sort (DlAdapter.dl_thp DlDom.qd (DlDom.rdl_dom guard)) (DlAdapter.dl_thc DlDom.qd) (DlAdapter.dl_thpush DlDom.qd) (DlAdapter.dl_thpop DlDom.qd) FUEL ops (init ts)) p = (s', RTrue) ->
  log s' = log (run sort (DlAdapter.dl_thp DlDom.qd (DlDom.rdl_dom guard)) (DlAdapter.dl_thc DlDom.qd) (DlAdapter.dl_thpush DlDom.qd) (DlAdapter.dl_thpop DlDom.qd) FUEL ops (init ts)) ->
  restored _ (DlAdapter.th_part DlDom.qd)
    (run sort (DlAdapter.dl_thp DlDom.qd (DlDom.rdl_dom guard)) (DlAdapter.dl_thc DlDom.qd) (DlAdapter.dl_thpush DlDom.qd) (DlAdapter.dl_thpop DlDom.qd) FUEL ops (init ts))
    (pop (DlAdapter.dl_thpop DlDom.qd) s').
Proof. exact (fun guard => DlAdapter_Proofs.c08_sat_dl DlDom.qd (DlDom.rdl_dom guard)). Qed.
Print Assumptions C08_pop_after_assume_restores_sat_rdl_partial.

(* the hypotheses other than the contract are met by a concrete network: two time points with the constraints
   c1: x2 - x1 <= 5 and c2: x1 - x2 <= -3 built in the IDL model (a state reached by a history, hence a legal theory state),
   the two constraint literals created in sat_core, c1 decided: the theory tightens dist(1,2) from +inf to 5 and records
   nothing; the pop gives the theory part back *)
Definition ex_idl_ts : Dl.state Z :=
  Dl.run Z (DlDom.idl_dom false) (DlInst.idl_init false 5)
    [Dl.ONewVar Z; Dl.ONewVar Z; Dl.ONewDistance Z 1 2 5%Z; Dl.ONewDistance Z 2 1 (-3)%Z].
(* on the term itself, not on ex_idl_ts, so that both uses below match it syntactically *)
Lemma ex_idl_inv :
  DlAdapter_Proofs.dl_th_inv Z (Dl.run Z (DlDom.idl_dom false) (DlInst.idl_init false 5)
    [Dl.ONewVar Z; Dl.ONewVar Z; Dl.ONewDistance Z 1 2 5%Z; Dl.ONewDistance Z 2 1 (-3)%Z]).
Proof.
  apply (dl_history_states_are_legal_theory_states DlIdl_Proofs.Zog Z (DlDom.idl_dom false) (DlIdl_Proofs.idl_spec false) 5);
    [auto with arith | vm_compute; repeat split; try reflexivity; try discriminate; auto with arith | vm_compute; reflexivity | vm_compute; reflexivity].
Qed.
Example C08_sat_idl_example :
  let ts := Dl.run Z (DlDom.idl_dom false) (DlInst.idl_init false 5)
              [Dl.ONewVar Z; Dl.ONewVar Z; Dl.ONewDistance Z 1 2 5%Z; Dl.ONewDistance Z 2 1 (-3)%Z] in
  let thp := DlAdapter.dl_thp Z (DlDom.idl_dom false) in
  let s := run (@isort lit) thp (DlAdapter.dl_thc Z) (DlAdapter.dl_thpush Z) (DlAdapter.dl_thpop Z) 100 [ONewVar; ONewVar] (init ts) in
  let s' := fst (assume (@isort lit) thp (DlAdapter.dl_thc Z) (DlAdapter.dl_thpush Z) (DlAdapter.dl_thpop Z) 100 s (1, true)) in
  DlAdapter_Proofs.dl_th_inv Z ts /\
  run_ok (@isort lit) thp (DlAdapter.dl_thc Z) (DlAdapter.dl_thpush Z) (DlAdapter.dl_thpop Z) 100 [ONewVar; ONewVar] (init ts) = true /\
  ub s = false /\ pre s (OAssume (1, true)) = true /\
  assume (@isort lit) thp (DlAdapter.dl_thc Z) (DlAdapter.dl_thpush Z) (DlAdapter.dl_thpop Z) 100 s (1, true) = (s', RTrue) /\
  log s' = log s /\
  Dl.dget Z (DlDom.idl_dom false) (thst s) 1 2 = DlDom.INF /\ Dl.dget Z (DlDom.idl_dom false) (thst s') 1 2 = 5%Z /\
  DlAdapter.th_part Z (thst (pop (DlAdapter.dl_thpop Z) s')) = DlAdapter.th_part Z (thst s).
Proof.
  cbv zeta. split.
  - exact ex_idl_inv.
  - vm_compute. repeat split; reflexivity.
Qed.
Print Assumptions C08_sat_idl_example.

(* the assembled theorem for sat_core + lra_theory (smt/LraAdapter.v, proofs/LraAdapter_Proofs.v): the observation is the
   bound vector (value AND reason of every lower / upper bound - hence lb / ub / bounds(lin)); the simplex point and the
   tableau are deliberately NOT part of it (a pop does not restore them: C09_pop_keeps_values_on_rows, and the recorded
   finding about basis-dependent propagation).  No undo hypothesis is left (lra_th_undo, invariant = LraInv_Proofs.wf,
   preserved by the four theory functions for any assignment sat_core passes); _partial for the same reason as idl / rdl:
   theory_contract quantifies over every SAT state whatever the theory state is, and `ub = false` is a premise. *)
Theorem C08_pop_after_assume_restores_sat_lra_partial : forall (T : asg -> Prop) fuel ts0 ops,
  theory_contract T LraAdapter.lra_thp LraAdapter.lra_thc ->
  LraAdapter_Proofs.lra_inv ts0 ->
  LraAdapter.lrn_run_ok fuel ops (LraAdapter.lrn_init ts0) = true ->
  ub (LraAdapter.lrn_run fuel ops (LraAdapter.lrn_init ts0)) = false ->
  forall p s', pre (LraAdapter.lrn_run fuel ops (LraAdapter.lrn_init ts0)) (OAssume p) = true ->
  LraAdapter.lrn_assume fuel (LraAdapter.lrn_run fuel ops (LraAdapter.lrn_init ts0)) p = (s', RTrue) ->
  log s' = log (LraAdapter.lrn_run fuel ops (LraAdapter.lrn_init ts0)) ->
  restored _ LraAdapter.lra_obs (LraAdapter.lrn_run fuel ops (LraAdapter.lrn_init ts0)) (LraAdapter.lrn_pop s') /\
  Lra.nvars (thst (LraAdapter.lrn_pop s')) = Lra.nvars (thst (LraAdapter.lrn_run fuel ops (LraAdapter.lrn_init ts0))) /\
  (forall x, x < Lra.nvars (thst (LraAdapter.lrn_run fuel ops (LraAdapter.lrn_init ts0))) ->
     Lra.cb (thst (LraAdapter.lrn_pop s')) (Lra.lb_index x) = Lra.cb (thst (LraAdapter.lrn_run fuel ops (LraAdapter.lrn_init ts0))) (Lra.lb_index x) /\
     Lra.cb (thst (LraAdapter.lrn_pop s')) (Lra.ub_index x) = Lra.cb (thst (LraAdapter.lrn_run fuel ops (LraAdapter.lrn_init ts0))) (Lra.ub_index x)).
Proof. exact LraAdapter_Proofs.c08_pop_assume_sat_lra. Qed.
Print Assumptions C08_pop_after_assume_restores_sat_lra_partial.

(* the undo law itself, for any theory state satisfying the LRA invariant and any sequence of propagate / check calls *)
Theorem C08_lra_theory_undo : forall ts0 ts, LraAdapter_Proofs.lra_inv ts0 ->
  th_reach LraAdapter.lra_thp LraAdapter.lra_thc (LraAdapter.lra_thpush ts0) ts ->
  LraAdapter.lra_obs (LraAdapter.lra_thpop ts) = LraAdapter.lra_obs ts0.
Proof. exact LraAdapter_Proofs.lra_th_undo. Qed.
Print Assumptions C08_lra_theory_undo.

(* ---------------------------------------------------------------------------------------------- *)
(* the trace-form theorem under the contract RELATIVE to a theory invariant K (proofs/SatCoreGuard_Proofs.v; obligations (P1-P4),
   (V1), (V2) as listed in Properties_C07.v): for the network sat_core + guarded theory the undo law of the RAW theory relative
   to K is all that is asked - K holds by typing, no theory_contract hypothesis is left *)
(* assume ; pop restores the observable state, theory observation included *)
Theorem C08_pop_after_assume_restores_under_the_relative_contract :
  forall (TS : Type) (T : SatCoreBase.asg -> Prop)
           (thp : TS -> list SatCoreBase.lbool -> nat -> SatCoreBase.lit -> TS * list (list SatCoreBase.lit) * option (list SatCoreBase.lit))
           (thc : TS -> list SatCoreBase.lbool -> nat -> TS * list (list SatCoreBase.lit) * option (list SatCoreBase.lit)) (thpush thpop : TS -> TS)
           (K : TS -> Prop) (gp : TS -> list SatCoreBase.lbool -> nat -> SatCoreBase.lit -> bool) (gc : TS -> list SatCoreBase.lbool -> nat -> bool)
           (K_p : forall (ts : TS) (a : list SatCoreBase.lbool) (dl : nat) (p : SatCoreBase.lit), K ts -> gp ts a dl p = true -> K (fst (fst (thp ts a dl p))))
           (K_c : forall (ts : TS) (a : list SatCoreBase.lbool) (dl : nat), K ts -> gc ts a dl = true -> K (fst (fst (thc ts a dl))))
           (K_push : forall ts : TS, K ts -> K (thpush ts)) (K_pop : forall ts : TS, K ts -> K (thpop ts)),
         (forall (s : @SatCore.state {ts : TS | K ts}) (p : SatCoreBase.lit),
          SatCoreInv_Proofs.Inv T s ->
          List.In p (SatCore.trail s) ->
          SatCoreAnalyze_Proofs.lvl s p = SatCore.decision_level s ->
          gp (proj1_sig (SatCore.thst s)) (SatCore.assigns s) (SatCore.decision_level s) p = true ->
          SatCoreRun_Proofs.th_result_ok T s
            (SatCore.thst s, snd (fst (thp (proj1_sig (SatCore.thst s)) (SatCore.assigns s) (SatCore.decision_level s) p)),
             snd (thp (proj1_sig (SatCore.thst s)) (SatCore.assigns s) (SatCore.decision_level s) p))) ->
         (forall s : @SatCore.state {ts : TS | K ts},
          SatCoreInv_Proofs.Inv T s ->
          gc (proj1_sig (SatCore.thst s)) (SatCore.assigns s) (SatCore.decision_level s) = true ->
          SatCoreRun_Proofs.th_result_ok T s
            (SatCore.thst s, snd (fst (thc (proj1_sig (SatCore.thst s)) (SatCore.assigns s) (SatCore.decision_level s))),
             snd (thc (proj1_sig (SatCore.thst s)) (SatCore.assigns s) (SatCore.decision_level s))) /\
          snd (fst (thc (proj1_sig (SatCore.thst s)) (SatCore.assigns s) (SatCore.decision_level s))) = nil) ->
         forall sort : (SatCoreBase.lit -> SatCoreBase.lit -> bool) -> list SatCoreBase.lit -> list SatCoreBase.lit,
         SatCoreThm_Proofs.sort_contract sort ->
         forall (FUEL : nat) (O : Type) (th_obs : TS -> O),
         (forall ts0 ts : TS, K ts0 -> SatCoreUndo_Proofs.th_reach thp thc (thpush ts0) ts -> th_obs (thpop ts) = th_obs ts0) ->
         forall (ops : list SatCore.op) (w0 : WS K),
         SatCore.run_ok sort (w_thp thp K gp K_p) (w_thc thc K gc K_c) (w_thpush thpush K K_push) (w_thpop thpop K K_pop) FUEL ops (SatCore.init w0) = true ->
         SatCore.ub (SatCore.run sort (w_thp thp K gp K_p) (w_thc thc K gc K_c) (w_thpush thpush K K_push) (w_thpop thpop K K_pop) FUEL ops (SatCore.init w0)) =
         false ->
         forall (p : SatCoreBase.lit) (s' : SatCore.state),
         SatCore.pre (SatCore.run sort (w_thp thp K gp K_p) (w_thc thc K gc K_c) (w_thpush thpush K K_push) (w_thpop thpop K K_pop) FUEL ops (SatCore.init w0))
           (SatCore.OAssume p) = true ->
         SatCore.assume sort (w_thp thp K gp K_p) (w_thc thc K gc K_c) (w_thpush thpush K K_push) (w_thpop thpop K K_pop) FUEL
           (SatCore.run sort (w_thp thp K gp K_p) (w_thc thc K gc K_c) (w_thpush thpush K K_push) (w_thpop thpop K K_pop) FUEL ops (SatCore.init w0)) p =
         (s', SatCore.RTrue) ->
         SatCore.log s' =
         SatCore.log (SatCore.run sort (w_thp thp K gp K_p) (w_thc thc K gc K_c) (w_thpush thpush K K_push) (w_thpop thpop K K_pop) FUEL ops (SatCore.init w0)) ->
         SatCoreUndo_Proofs.restored O (fun w : {ts : TS | K ts} => th_obs (proj1_sig w))
           (SatCore.run sort (w_thp thp K gp K_p) (w_thc thc K gc K_c) (w_thpush thpush K K_push) (w_thpop thpop K K_pop) FUEL ops (SatCore.init w0))
           (SatCore.pop (w_thpop thpop K K_pop) s').
Proof. exact @w_pop_assume. Qed.
Print Assumptions C08_pop_after_assume_restores_under_the_relative_contract.

(* ---------------------------------------------------------------------------------------------- *)
(* The network sat_core + GUARDED idl_theory (see the header): no hypothesis about the theory.  VD0 is the constraint table the
   network was built with; w0 is any theory state with the structural invariant and that table (e.g. any state of the IDL
   model reached by a history: C08_dl_model_states_are_legal_theory_states). *)
Theorem C08_idl_guarded_theory_meets_the_contract : forall (sat : bool) (VD0 : list (nat * Dl.cstr Z)),
  theory_contract (DlGuardChk_Proofs.idl_T VD0) (SatCoreDl_Proofs.idl_wthp sat VD0) (SatCoreDl_Proofs.idl_wthc VD0).
Proof. exact SatCoreDl_Proofs.idl_guarded_contract. Qed.
Print Assumptions C08_idl_guarded_theory_meets_the_contract.

Theorem C08_pop_after_assume_restores_sat_idl_guarded :
  forall (sat : bool) (VD0 : list (nat * Dl.cstr Z)) sort, sort_contract sort -> forall FUEL ops w0,
  run_ok sort (SatCoreDl_Proofs.idl_wthp sat VD0) (SatCoreDl_Proofs.idl_wthc VD0) (SatCoreDl_Proofs.idl_wpush VD0) (SatCoreDl_Proofs.idl_wpop sat VD0) FUEL ops (init w0) = true ->
  ub (run sort (SatCoreDl_Proofs.idl_wthp sat VD0) (SatCoreDl_Proofs.idl_wthc VD0) (SatCoreDl_Proofs.idl_wpush VD0) (SatCoreDl_Proofs.idl_wpop sat VD0) FUEL ops (init w0)) = false ->
  forall p s', pre (run sort (SatCoreDl_Proofs.idl_wthp sat VD0) (SatCoreDl_Proofs.idl_wthc VD0) (SatCoreDl_Proofs.idl_wpush VD0) (SatCoreDl_Proofs.idl_wpop sat VD0) FUEL ops (init w0)) (OAssume p) = true ->
  assume sort (SatCoreDl_Proofs.idl_wthp sat VD0) (SatCoreDl_Proofs.idl_wthc VD0) (SatCoreDl_Proofs.idl_wpush VD0) (SatCoreDl_Proofs.idl_wpop sat VD0) FUEL
    (run sort (SatCoreDl_Proofs.idl_wthp sat VD0) (SatCoreDl_Proofs.idl_wthc VD0) (SatCoreDl_Proofs.idl_wpush VD0) (SatCoreDl_Proofs.idl_wpop sat VD0) FUEL ops (init w0)) p = (s', RTrue) ->
  log s' = log (run sort (SatCoreDl_Proofs.idl_wthp sat VD0) (SatCoreDl_Proofs.idl_wthc VD0) (SatCoreDl_Proofs.idl_wpush VD0) (SatCoreDl_Proofs.idl_wpop sat VD0) FUEL ops (init w0)) ->
  restored _ (fun w => DlAdapter.th_part Z (proj1_sig w))
    (run sort (SatCoreDl_Proofs.idl_wthp sat VD0) (SatCoreDl_Proofs.idl_wthc VD0) (SatCoreDl_Proofs.idl_wpush VD0) (SatCoreDl_Proofs.idl_wpop sat VD0) FUEL ops (init w0))
    (pop (SatCoreDl_Proofs.idl_wpop sat VD0) s').
Proof. exact SatCoreDl_Proofs.idl_guarded_pop_assume. Qed.
Print Assumptions C08_pop_after_assume_restores_sat_idl_guarded.

(* the guarded network on the constraints of C08_sat_idl_example: the test succeeds (the decision tightens dist(1,2) to 5),
   the hypotheses are met, the pop gives the theory part back *)
Lemma ex_idl_K : DlGuardChk_Proofs.KI Z (Dl.var_dists ex_idl_ts) ex_idl_ts.
Proof. split; [exact ex_idl_inv | reflexivity]. Qed.
Example C08_sat_idl_guarded_example :
  let VD0 := Dl.var_dists ex_idl_ts in
  let w0 : WS (DlGuardChk_Proofs.KI Z VD0) := exist _ ex_idl_ts ex_idl_K in
  let wp := SatCoreDl_Proofs.idl_wthp false VD0 in let wc := SatCoreDl_Proofs.idl_wthc VD0 in
  let wpush := SatCoreDl_Proofs.idl_wpush VD0 in let wpop := SatCoreDl_Proofs.idl_wpop false VD0 in
  let s := run (@isort lit) wp wc wpush wpop 100 [ONewVar; ONewVar] (init w0) in
  let s' := fst (assume (@isort lit) wp wc wpush wpop 100 s (1, true)) in
  run_ok (@isort lit) wp wc wpush wpop 100 [ONewVar; ONewVar] (init w0) = true /\ ub s = false /\
  pre s (OAssume (1, true)) = true /\ snd (assume (@isort lit) wp wc wpush wpop 100 s (1, true)) = RTrue /\ log s' = log s /\
  DlGuard.idl_gp false (DlAdapter.dl_thpush Z (proj1_sig (thst s))) [LF; LT; LU] 1 (1, true) = true /\
  Dl.dget Z (DlDom.idl_dom false) (proj1_sig (thst s)) 1 2 = DlDom.INF /\ Dl.dget Z (DlDom.idl_dom false) (proj1_sig (thst s')) 1 2 = 5%Z /\
  DlAdapter.th_part Z (proj1_sig (thst (pop wpop s'))) = DlAdapter.th_part Z (proj1_sig (thst s)).
Proof. vm_compute. repeat split; reflexivity. Qed.
Print Assumptions C08_sat_idl_guarded_example.
