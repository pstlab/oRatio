(* C16 -- RIDDLE expressions are read and evaluated with the language's semantics.
   Only full-strength statements, each closed by a lemma or by two lemmas composed; the proofs are in proofs/Lexer_Proofs.v,
   proofs/Parser_Proofs.v, proofs/Parser_Stmt_Proofs.v, proofs/Parser_Decl_Proofs.v, proofs/Parser_Unit_Proofs.v and
   proofs/Eval_Proofs.v. The language is pinned down by the printer (lang/Printer.v): `show` writes tokens, `pp` writes
   trees with parentheses by the documented precedence, `pp_stmt`, `pp_type_decl`, `pp_unit` write statements, declarations
   and whole compilation units.

   Covered by theorems:   every token form (all_tokens_read_back); every expression tree: literals, identifiers,
                          unary and n-ary operators, the seven binary operators, parentheses, casts, constructor and
                          function calls, of any size and nesting up to the implementation's limit of 1000 frames
                          (all_expressions_read_back, expression_statement_read_back); every statement tree and every
                          program made of statements (all_statements_read_back, statement_programs_read_back);
                          every declaration: typedef, enum (string values and unions with other enums), class with
                          supertypes, fields (`A a, b = e;` lists with initialisers), constructors with initialisation
                          lists, void and typed methods, predicates with supertypes, nested types to any depth
                          (all_declarations_read_back); every compilation unit mixing type declarations, methods,
                          predicates and statements (program_read_back);
                          evaluation of every expression over literals, variables, unary / n-ary / binary operators
                          and casts (evaluation_exact, ...).
   The printer writes the four lists of a unit (and the five lists of a class body) in a fixed order; the order in which
   a source file interleaves them is not part of the tree, so it is covered by the tie (differential against the real
   parser on all example programs, generated units and mutated token streams, tools/checks/c16.py), not by a theorem. *)
From Coq Require Import List Ascii String ZArith NArith QArith Bool.
From ORatio Require Import gen.Gen_arith base.RatSpec base.Lin.
From ORatio Require Import lang.Token lang.Lexer lang.Ast lang.Parser lang.Printer lang.Eval.
From ORatio Require Import proofs.Lexer_Proofs proofs.Parser_Total_Proofs proofs.Parser_Proofs proofs.Parser_Stmt_Proofs proofs.Parser_Decl_Proofs
  proofs.Parser_Unit_Proofs proofs.Eval_Proofs.
Import ListNotations.
Local Open Scope nat_scope.

(* Tokens are recognised as the language defines them: reading what `show` writes for ANY list of well-formed tokens
   (every keyword, operator and literal form; identifiers that are not keywords but may start like one) gives back
   exactly that list. *)
Theorem all_tokens_read_back : forall ts, Forall wf_token ts -> lex (show ts) = LOk ts.
Proof. exact lex_show. Qed.
Print Assumptions all_tokens_read_back.

(* Expressions are grouped by the documented precedence and associativity: reading what `pp` writes for ANY
   expression tree gives back the tree, whatever follows it (as long as that is not an operator, '(' or '.'). *)
Theorem all_expressions_read_back : forall e rest,
  wf_expr e -> hgt e <= MAX_DEPTH -> tail_ok 0 rest -> parse_expr (pp e ++ rest) = Ok e rest.
Proof. exact parse_expr_pp. Qed.
Print Assumptions all_expressions_read_back.

(* Every syntactically valid expression statement is accepted, as a whole program, and is the tree it was written for. *)
Theorem expression_statement_read_back : forall e,
  wf_expr e -> hgt e <= 999 -> parse (pp e ++ [TSemicolon]) = Ok (CU [] [] [] [SExpr e]) [].
Proof. exact parse_expr_stmt. Qed.
Print Assumptions expression_statement_read_back.

(* Statements: reading what the printer writes for ANY statement tree -- local fields with initialisers, assignments,
   expression statements, blocks, disjunctions with costs, facts and goals with arguments, return; nested to any depth
   within the limit -- gives back the tree, whatever follows (except `[` and `or`, which would continue a disjunction). *)
Theorem all_statements_read_back : forall s, wf_stmt s -> forall d rest, sneed s <= d -> stmt_tail rest ->
  exists fuel, p_stmt fuel d (pp_stmt s ++ rest) = Ok s rest.
Proof. exact (fun s W d rest Hd Ht => reads_ex _ _ _ (stmt_roundtrip s W d rest Hd Ht)). Qed.
Print Assumptions all_statements_read_back.

(* Every syntactically valid program made of statements is accepted, and read back as written. *)
Theorem statement_programs_read_back : forall ss, Forall (fun s => wf_top s /\ sneed s <= MAX_DEPTH) ss ->
  parse (pp_unit (CU [] [] [] ss)) = Ok (CU [] [] [] ss) [].
Proof. exact parse_statements. Qed.
Print Assumptions statement_programs_read_back.

(* Declarations: reading what the printer writes for ANY type declaration -- a typedef of a primitive type, an enum with
   string values and/or references to other enums, a class with supertypes, fields, constructors (parameters, initialisation
   list, body), methods (void or typed), predicates (parameters, supertypes, body) and nested types to any depth within the
   limit -- with the parser function for that kind of declaration (run_tdecl) gives back the tree, whatever follows. *)
Theorem all_declarations_read_back : forall t, wf_tdecl t -> forall d rest, tneed t <= d ->
  exists fuel, run_tdecl t fuel d (pp_type_decl t ++ rest) = Ok t rest.
Proof. exact (fun t W d rest Hd => reads_ex _ _ _ (tdecl_roundtrip t W d rest Hd)). Qed.
Print Assumptions all_declarations_read_back.

(* Every syntactically valid program is accepted, and is the tree it was written for: for EVERY compilation unit u --
   type declarations, methods, predicates and statements -- that is well formed (wf_unit: qualified names, types and lists
   of variables are not empty, an n-ary operator has at least two operands, a typedef names a primitive type, an enum has
   an alternative, a one-disjunct disjunction has a cost, `return` occurs only inside bodies) and nests no deeper than the
   parser's limit of 1000 frames (uneed). With all_tokens_read_back: the text `show (pp_unit u)` is read as u when its tokens are well formed. *)
Theorem program_read_back : forall u, wf_unit u -> uneed u <= MAX_DEPTH -> parse (pp_unit u) = Ok u [].
Proof. exact parse_unit. Qed.
Print Assumptions program_read_back.

(* Evaluation is exact: whatever an expression over literals, variables, unary, n-ary and binary operators and casts
   evaluates to MEANS what the expression denotes -- the linear expression of an arithmetic expression has, under
   every valuation of the variables, the exact rational value (n-ary - and / from the left; + - * / exact), and the
   formula of a boolean expression has the truth-table value of its connectives. *)
Theorem evaluation_exact : forall bv av rho, env_wf rho -> forall e v, ev rho e = Some v ->
  exists d, den bv av rho e = Some d /\ vmatch bv av v d.
Proof. exact ev_sound. Qed.
Print Assumptions evaluation_exact.

(* A variable constrained to equal a constant expression receives exactly the value the expression denotes. *)
Theorem constant_expression_value : forall e l v, ev no_env e = Some (VArith l) ->
  exists q, (forall bv av, den bv av no_env e = Some (DQ q)) /\
            forall bv av, beval bv av (FRel REq (lin_ctor_var v rat_ONE) l) = true -> (av v == q)%Q.
Proof. exact assigned_value. Qed.
Print Assumptions constant_expression_value.

(* Implication is "not l or r"; exactly-one holds iff exactly one operand holds. *)
Theorem implication_truth_table : forall bv av a b, beval bv av (FOr [FNot a; b]) = implb (beval bv av a) (beval bv av b).
Proof. exact impl_truth. Qed.
Print Assumptions implication_truth_table.
Theorem exactly_one_truth_table : forall bv av fs, beval bv av (core_exct_one fs) = true <-> count_true (map (beval bv av) fs) = 1%nat.
Proof. exact xor_truth. Qed.
Print Assumptions exactly_one_truth_table.
