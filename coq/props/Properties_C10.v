(* Property C10 -- Difference logic: distances are exact and conflicts mean a negative cycle.
   The property theorems, each closed by a lemma of proofs/ (instantiated) or by a line from such lemmas and followed by Print Assumptions, and two
   examples: an evaluated history, and a network whose bound is attained (obtained from the theorems above).

   Vocabulary (definitions, not proofs):
     smt/Dl.v            the executable model of idl_theory / rdl_theory and of the slice of sat_core they use
                         (`step`, `run`, `propagate_lit`, ...; instances `idl_dom sat`, `rdl_dom guard` in smt/DlDom.v)
     proofs/DlSpec       `dval s i j` value of _dists[i][j] (Fin g | Inf), `edges s` the edges  from -d-> to  of the literals the
                         theory has processed (a negated literal contributes  to -(-d-1)-> from, resp. -d-epsilon),
                         `good` the invariant (shape, tables, exact closure, predecessor trees, dist_constr, undecided
                         constraints are undecided, queue discipline)
     proofs/DlGraph      `walk E i j g` a path of edges of E from i to j of length g, `neg_cycle E`
     proofs/DlHist       `wf_run`: the protocol of sat_core (drain before a decision, pop after a conflict, creation at root)
     proofs/DlThm        `esat x e`: the valuation x of the time points satisfies the edge e = (from, to, d), x to - x from <= d;
                         `models x s`: x satisfies every edge of `edges s`; `csat x f t g`: x t - x f <= g
     proofs/DlModel      the potential that witnesses satisfiability (minimum over a virtual source; infinite entries are
                         simply no candidates of the minimum)
     `fault s = 0`       no value left the overflow-free range and no explanation walk failed (the theorems below show the
                         latter never happens); it is reported by the differential check if it ever does. *)
From Coq Require Import List ZArith Arith Bool Qcanon.
From ORatio Require Import smt.DlDom smt.Dl smt.DlInst proofs.DlOrd_Proofs proofs.DlGraph_Proofs proofs.DlSpec_Proofs
  proofs.DlExpl_Proofs proofs.DlStep_Proofs proofs.DlLemma_Proofs proofs.DlProp_Proofs proofs.DlUndo_Proofs proofs.DlHist_Proofs
  proofs.DlThm_Proofs proofs.DlModel_Proofs proofs.DlIdl_Proofs proofs.DlRdl_Proofs.
Import ListNotations.
Local Open Scope nat_scope.

(* ---------------------------------------------------------------------------------------------- *)
(* IDL *)

(* after ANY history the invariant holds *)
Theorem C10_idl_invariant : forall sat size os,
  0 < size -> wf_run Z (idl_dom sat) (idl_init sat size) os ->
  fault (Dl.run Z (idl_dom sat) (idl_init sat size) os) = 0 -> confl (Dl.run Z (idl_dom sat) (idl_init sat size) os) = false ->
  good Zog Z (idl_dom sat) (idl_spec sat) (Dl.run Z (idl_dom sat) (idl_init sat size) os).
Proof. exact (fun sat => history_good Zog Z (idl_dom sat) (idl_spec sat)). Qed.
Print Assumptions C10_idl_invariant.

(* the matrix is the shortest-path closure of exactly the asserted constraints: every finite entry is the length of a path
   of asserted edges (sound), no path is shorter (complete; in particular an infinite entry means there is no path), the
   diagonal is 0 and there is no negative cycle *)
Theorem C10_idl_distances_exact : forall sat size os,
  0 < size -> wf_run Z (idl_dom sat) (idl_init sat size) os ->
  let s := Dl.run Z (idl_dom sat) (idl_init sat size) os in
  fault s = 0 -> confl s = false ->
  (forall i j g, i < n_vars s -> j < n_vars s -> dval Zog Z (idl_dom sat) (idl_spec sat) s i j = Fin g ->
     walk (edges Zog Z (idl_dom sat) (idl_spec sat) s) i j g) /\
  (forall i j g, walk (edges Zog Z (idl_dom sat) (idl_spec sat) s) i j g -> j < n_vars s ->
     xle (dval Zog Z (idl_dom sat) (idl_spec sat) s i j) (Fin g)) /\
  (forall i, i < n_vars s -> dval Zog Z (idl_dom sat) (idl_spec sat) s i i = Fin g0) /\
  ~ neg_cycle (edges Zog Z (idl_dom sat) (idl_spec sat) s).
Proof. exact (fun sat => dl_distances_exact Zog Z (idl_dom sat) (idl_spec sat)). Qed.
Print Assumptions C10_idl_distances_exact.

(* theory::propagate(p) reports a conflict exactly when the edge of p closes a negative cycle with the asserted edges *)
Theorem C10_idl_conflict_iff_negative_cycle : forall sat (s : state Z) p q,
  good Zog Z (idl_dom sat) (idl_spec sat) s -> prop_q s = p :: q ->
  let '(s2, r, evs) := propagate_lit Z (idl_dom sat) (dequeue Z s) p in
  fault s2 = 0 ->
  ((exists cl, r = RProp false cl) <-> neg_cycle (edges Zog Z (idl_dom sat) (idl_spec sat) (dequeue Z s))).
Proof. exact (fun sat => dl_conflict_iff_negative_cycle Zog Z (idl_dom sat) (idl_spec sat)). Qed.
Print Assumptions C10_idl_conflict_iff_negative_cycle.

(* the conflict clause and every recorded lemma are DL-valid (the negated literals contain a negative cycle); the conflict
   clause consists of false literals; a lemma has an undefined head and a false tail when it is recorded *)
Theorem C10_idl_clauses_valid : forall sat (s : state Z) p q,
  good Zog Z (idl_dom sat) (idl_spec sat) s -> prop_q s = p :: q ->
  let '(s2, r, evs) := propagate_lit Z (idl_dom sat) (dequeue Z s) p in
  fault s2 = 0 ->
  (forall cl, r = RProp false cl ->
     clause_valid Zog Z (idl_dom sat) (idl_spec sat) (dequeue Z s) cl /\ clause_false Z (dequeue Z s) cl) /\
  (forall k cl, In (Ev k cl) evs -> k = 2 ->
     clause_valid Zog Z (idl_dom sat) (idl_spec sat) (dequeue Z s) cl /\
     exists w, ngood Zog Z (idl_dom sat) (idl_spec sat) w /\ var_dists w = var_dists s /\ lemma_ok Zog Z (idl_dom sat) (idl_spec sat) w cl).
Proof. exact (fun sat => dl_clauses_valid Zog Z (idl_dom sat) (idl_spec sat)). Qed.
Print Assumptions C10_idl_clauses_valid.

(* a valid clause cannot be falsified by integers: no valuation satisfies all the negated literals *)
Theorem C10_idl_valid_clause_unsatisfiable : forall sat (s : state Z) cl,
  clause_valid Zog Z (idl_dom sat) (idl_spec sat) s cl ->
  forall x : nat -> Z, ~ (forall l e, In l cl -> lit_edge Zog Z (idl_dom sat) (idl_spec sat) s (lnot l) e -> esat Zog x e).
Proof. exact (fun sat => clause_valid_sem Zog Z (idl_dom sat) (idl_spec sat)). Qed.
Print Assumptions C10_idl_valid_clause_unsatisfiable.

(* explanation walks terminate within n_vars steps on every finite cell and return the literals of a shortest path *)
Theorem C10_idl_explanation_walk_terminates : forall sat (s : state Z) row cur acc,
  edges_in (n_vars s) (edges Zog Z (idl_dom sat) (idl_spec sat) s) -> preds_ok Zog Z (idl_dom sat) (idl_spec sat) s ->
  diag0 (n_vars s) (dval Zog Z (idl_dom sat) (idl_spec sat) s) ->
  row < n_vars s -> cur < n_vars s -> dval Zog Z (idl_dom sat) (idl_spec sat) s row cur <> Inf ->
  exists L g, Dl.walk Z s (n_vars s) row cur row acc = Some (acc ++ L) /\
              walk (cl_edges Zog Z (idl_dom sat) (idl_spec sat) s L) row cur g /\
              dval Zog Z (idl_dom sat) (idl_spec sat) s row cur = Fin g /\
              (forall l, In l L -> value s l = LF /\ proc Z s (fst l)).
Proof. exact (fun sat => walk_total Zog Z (idl_dom sat) (idl_spec sat)). Qed.
Print Assumptions C10_idl_explanation_walk_terminates.

(* a pop gives back exactly the state of the matching push (also the difference-logic part of C08) *)
Theorem C10_idl_pop_restores : forall sat (s : state Z) os,
  hinv Zog Z (idl_dom sat) (idl_spec sat) s -> confl s = false -> prop_q s = [] ->
  (forall o, In o os -> match o with OEnqueue _ _ | OPropOne _ | OBounds _ _ | ODistance _ _ _ | OBoundsL _ _ | ODistanceL _ _ _ | OEquates _ _ _ => True | _ => False end) ->
  let s' := DlHist_Proofs.run Z (idl_dom sat) (do_push Z s) os in
  wf_run Z (idl_dom sat) (do_push Z s) os -> fault s' = 0 -> prop_q s' = [] ->
  do_pop Z s' = s.
Proof. exact (fun sat => pop_restores Zog Z (idl_dom sat) (idl_spec sat)). Qed.
Print Assumptions C10_idl_pop_restores.

(* ---- the satisfiability direction: "no conflict" means satisfiable, and the distances are tight ---- *)
(* after ANY history without a pending conflict the asserted edges have a model in Z *)
Theorem C10_idl_satisfiable : forall sat size os,
  0 < size -> wf_run Z (idl_dom sat) (idl_init sat size) os ->
  let s := Dl.run Z (idl_dom sat) (idl_init sat size) os in
  fault s = 0 -> confl s = false ->
  exists x : nat -> Zog, models Zog Z (idl_dom sat) (idl_spec sat) x s.
Proof. exact (fun sat => dl_satisfiable Zog Z (idl_dom sat) (idl_spec sat)). Qed.
Print Assumptions C10_idl_satisfiable.

(* every finite distance is an upper bound of x j - x i over the models AND is attained by one of them; an infinite
   distance is exceeded by models: for every K there is a model with x j - x i >= K *)
Theorem C10_idl_distance_attained : forall sat size os,
  0 < size -> wf_run Z (idl_dom sat) (idl_init sat size) os ->
  let s := Dl.run Z (idl_dom sat) (idl_init sat size) os in
  fault s = 0 -> confl s = false ->
  forall i j, i < n_vars s -> j < n_vars s ->
    match dval Zog Z (idl_dom sat) (idl_spec sat) s i j with
    | Fin g => (forall x, models Zog Z (idl_dom sat) (idl_spec sat) x s -> x j +o -o x i <=o g) /\
               exists x, models Zog Z (idl_dom sat) (idl_spec sat) x s /\ x j +o -o x i = g
    | Inf => forall K, exists x, models Zog Z (idl_dom sat) (idl_spec sat) x s /\ K <=o x j +o -o x i
    end.
Proof. exact (fun sat => dl_distance_attained Zog Z (idl_dom sat) (idl_spec sat)). Qed.
Print Assumptions C10_idl_distance_attained.

(* once propagation has drained the queue, the asserted edges are the constraints of ALL assigned constraint literals:
   a model satisfies  to - from <= d  for every true one and  from - to <= gpred d  (= -d-1, resp. -d-epsilon, i.e.
   to - from > d) for every false one; so "no conflict reported" means "the current assignment of the difference
   constraints is satisfiable" *)
Theorem C10_idl_assignment_satisfiable : forall sat size os,
  0 < size -> wf_run Z (idl_dom sat) (idl_init sat size) os ->
  let s := Dl.run Z (idl_dom sat) (idl_init sat size) os in
  fault s = 0 -> confl s = false -> prop_q s = [] ->
  exists x : nat -> Zog, forall v c g, vd_find v (var_dists s) = Some c -> wt (idl_spec sat) (c_dist c) g ->
    (value_var s v = LT -> csat Zog x (c_from c) (c_to c) g) /\
    (value_var s v = LF -> csat Zog x (c_to c) (c_from c) (gpred (idl_spec sat) g)).
Proof. exact (fun sat => dl_assigned_satisfiable Zog Z (idl_dom sat) (idl_spec sat)). Qed.
Print Assumptions C10_idl_assignment_satisfiable.

(* the same for any given model of the asserted edges (in particular for the ones that attain a distance) *)
Theorem C10_idl_model_satisfies_assignment : forall sat (s : state Z) x v c g,
  good Zog Z (idl_dom sat) (idl_spec sat) s -> prop_q s = [] -> models Zog Z (idl_dom sat) (idl_spec sat) x s ->
  vd_find v (var_dists s) = Some c -> wt (idl_spec sat) (c_dist c) g ->
  (value_var s v = LT -> csat Zog x (c_from c) (c_to c) g) /\
  (value_var s v = LF -> csat Zog x (c_to c) (c_from c) (gpred (idl_spec sat) g)).
Proof. exact (fun sat => models_assigned Zog Z (idl_dom sat) (idl_spec sat)). Qed.
Print Assumptions C10_idl_model_satisfies_assignment.

(* ---------------------------------------------------------------------------------------------- *)
(* RDL (for both variants of propagate(from,to,dist): guard = false is the pinned code, guard = true the repaired one) *)
Theorem C10_rdl_invariant : forall guard size os,
  0 < size -> wf_run qd (rdl_dom guard) (rdl_init guard size) os ->
  fault (Dl.run qd (rdl_dom guard) (rdl_init guard size) os) = 0 -> confl (Dl.run qd (rdl_dom guard) (rdl_init guard size) os) = false ->
  good QDog qd (rdl_dom guard) (rdl_spec guard) (Dl.run qd (rdl_dom guard) (rdl_init guard size) os).
Proof. exact (fun guard => history_good QDog qd (rdl_dom guard) (rdl_spec guard)). Qed.
Print Assumptions C10_rdl_invariant.

Theorem C10_rdl_distances_exact : forall guard size os,
  0 < size -> wf_run qd (rdl_dom guard) (rdl_init guard size) os ->
  let s := Dl.run qd (rdl_dom guard) (rdl_init guard size) os in
  fault s = 0 -> confl s = false ->
  (forall i j g, i < n_vars s -> j < n_vars s -> dval QDog qd (rdl_dom guard) (rdl_spec guard) s i j = Fin g ->
     walk (edges QDog qd (rdl_dom guard) (rdl_spec guard) s) i j g) /\
  (forall i j g, walk (edges QDog qd (rdl_dom guard) (rdl_spec guard) s) i j g -> j < n_vars s ->
     xle (dval QDog qd (rdl_dom guard) (rdl_spec guard) s i j) (Fin g)) /\
  (forall i, i < n_vars s -> dval QDog qd (rdl_dom guard) (rdl_spec guard) s i i = Fin g0) /\
  ~ neg_cycle (edges QDog qd (rdl_dom guard) (rdl_spec guard) s).
Proof. exact (fun guard => dl_distances_exact QDog qd (rdl_dom guard) (rdl_spec guard)). Qed.
Print Assumptions C10_rdl_distances_exact.

Theorem C10_rdl_conflict_iff_negative_cycle : forall guard (s : state qd) p q,
  good QDog qd (rdl_dom guard) (rdl_spec guard) s -> prop_q s = p :: q ->
  let '(s2, r, evs) := propagate_lit qd (rdl_dom guard) (dequeue qd s) p in
  fault s2 = 0 ->
  ((exists cl, r = RProp false cl) <-> neg_cycle (edges QDog qd (rdl_dom guard) (rdl_spec guard) (dequeue qd s))).
Proof. exact (fun guard => dl_conflict_iff_negative_cycle QDog qd (rdl_dom guard) (rdl_spec guard)). Qed.
Print Assumptions C10_rdl_conflict_iff_negative_cycle.

Theorem C10_rdl_clauses_valid : forall guard (s : state qd) p q,
  good QDog qd (rdl_dom guard) (rdl_spec guard) s -> prop_q s = p :: q ->
  let '(s2, r, evs) := propagate_lit qd (rdl_dom guard) (dequeue qd s) p in
  fault s2 = 0 ->
  (forall cl, r = RProp false cl ->
     clause_valid QDog qd (rdl_dom guard) (rdl_spec guard) (dequeue qd s) cl /\ clause_false qd (dequeue qd s) cl) /\
  (forall k cl, In (Ev k cl) evs -> k = 2 ->
     clause_valid QDog qd (rdl_dom guard) (rdl_spec guard) (dequeue qd s) cl /\
     exists w, ngood QDog qd (rdl_dom guard) (rdl_spec guard) w /\ var_dists w = var_dists s /\ lemma_ok QDog qd (rdl_dom guard) (rdl_spec guard) w cl).
Proof. exact (fun guard => dl_clauses_valid QDog qd (rdl_dom guard) (rdl_spec guard)). Qed.
Print Assumptions C10_rdl_clauses_valid.

Theorem C10_rdl_explanation_walk_terminates : forall guard (s : state qd) row cur acc,
  edges_in (n_vars s) (edges QDog qd (rdl_dom guard) (rdl_spec guard) s) -> preds_ok QDog qd (rdl_dom guard) (rdl_spec guard) s ->
  diag0 (n_vars s) (dval QDog qd (rdl_dom guard) (rdl_spec guard) s) ->
  row < n_vars s -> cur < n_vars s -> dval QDog qd (rdl_dom guard) (rdl_spec guard) s row cur <> Inf ->
  exists L g, Dl.walk qd s (n_vars s) row cur row acc = Some (acc ++ L) /\
              walk (cl_edges QDog qd (rdl_dom guard) (rdl_spec guard) s L) row cur g /\
              dval QDog qd (rdl_dom guard) (rdl_spec guard) s row cur = Fin g /\
              (forall l, In l L -> value s l = LF /\ proc qd s (fst l)).
Proof. exact (fun guard => walk_total QDog qd (rdl_dom guard) (rdl_spec guard)). Qed.
Print Assumptions C10_rdl_explanation_walk_terminates.

Theorem C10_rdl_pop_restores : forall guard (s : state qd) os,
  hinv QDog qd (rdl_dom guard) (rdl_spec guard) s -> confl s = false -> prop_q s = [] ->
  (forall o, In o os -> match o with OEnqueue _ _ | OPropOne _ | OBounds _ _ | ODistance _ _ _ | OBoundsL _ _ | ODistanceL _ _ _ | OEquates _ _ _ => True | _ => False end) ->
  let s' := DlHist_Proofs.run qd (rdl_dom guard) (do_push qd s) os in
  wf_run qd (rdl_dom guard) (do_push qd s) os -> fault s' = 0 -> prop_q s' = [] ->
  do_pop qd s' = s.
Proof. exact (fun guard => pop_restores QDog qd (rdl_dom guard) (rdl_spec guard)). Qed.
Print Assumptions C10_rdl_pop_restores.

(* ---- the satisfiability direction: "no conflict" means satisfiable, and the distances are tight ---- *)
(* after ANY history without a pending conflict the asserted edges have a model in Q x Q (rational part, infinitesimal part; lexicographic) *)
Theorem C10_rdl_satisfiable : forall guard size os,
  0 < size -> wf_run qd (rdl_dom guard) (rdl_init guard size) os ->
  let s := Dl.run qd (rdl_dom guard) (rdl_init guard size) os in
  fault s = 0 -> confl s = false ->
  exists x : nat -> QDog, models QDog qd (rdl_dom guard) (rdl_spec guard) x s.
Proof. exact (fun guard => dl_satisfiable QDog qd (rdl_dom guard) (rdl_spec guard)). Qed.
Print Assumptions C10_rdl_satisfiable.

(* every finite distance is an upper bound of x j - x i over the models AND is attained by one of them; an infinite
   distance is exceeded by models: for every K there is a model with x j - x i >= K *)
Theorem C10_rdl_distance_attained : forall guard size os,
  0 < size -> wf_run qd (rdl_dom guard) (rdl_init guard size) os ->
  let s := Dl.run qd (rdl_dom guard) (rdl_init guard size) os in
  fault s = 0 -> confl s = false ->
  forall i j, i < n_vars s -> j < n_vars s ->
    match dval QDog qd (rdl_dom guard) (rdl_spec guard) s i j with
    | Fin g => (forall x, models QDog qd (rdl_dom guard) (rdl_spec guard) x s -> x j +o -o x i <=o g) /\
               exists x, models QDog qd (rdl_dom guard) (rdl_spec guard) x s /\ x j +o -o x i = g
    | Inf => forall K, exists x, models QDog qd (rdl_dom guard) (rdl_spec guard) x s /\ K <=o x j +o -o x i
    end.
Proof. exact (fun guard => dl_distance_attained QDog qd (rdl_dom guard) (rdl_spec guard)). Qed.
Print Assumptions C10_rdl_distance_attained.

(* once propagation has drained the queue, the asserted edges are the constraints of ALL assigned constraint literals:
   a model satisfies  to - from <= d  for every true one and  from - to <= gpred d  (= -d-1, resp. -d-epsilon, i.e.
   to - from > d) for every false one; so "no conflict reported" means "the current assignment of the difference
   constraints is satisfiable" *)
Theorem C10_rdl_assignment_satisfiable : forall guard size os,
  0 < size -> wf_run qd (rdl_dom guard) (rdl_init guard size) os ->
  let s := Dl.run qd (rdl_dom guard) (rdl_init guard size) os in
  fault s = 0 -> confl s = false -> prop_q s = [] ->
  exists x : nat -> QDog, forall v c g, vd_find v (var_dists s) = Some c -> wt (rdl_spec guard) (c_dist c) g ->
    (value_var s v = LT -> csat QDog x (c_from c) (c_to c) g) /\
    (value_var s v = LF -> csat QDog x (c_to c) (c_from c) (gpred (rdl_spec guard) g)).
Proof. exact (fun guard => dl_assigned_satisfiable QDog qd (rdl_dom guard) (rdl_spec guard)). Qed.
Print Assumptions C10_rdl_assignment_satisfiable.

(* the same for any given model of the asserted edges (in particular for the ones that attain a distance) *)
Theorem C10_rdl_model_satisfies_assignment : forall guard (s : state qd) x v c g,
  good QDog qd (rdl_dom guard) (rdl_spec guard) s -> prop_q s = [] -> models QDog qd (rdl_dom guard) (rdl_spec guard) x s ->
  vd_find v (var_dists s) = Some c -> wt (rdl_spec guard) (c_dist c) g ->
  (value_var s v = LT -> csat QDog x (c_from c) (c_to c) g) /\
  (value_var s v = LF -> csat QDog x (c_to c) (c_from c) (gpred (rdl_spec guard) g)).
Proof. exact (fun guard => models_assigned QDog qd (rdl_dom guard) (rdl_spec guard)). Qed.
Print Assumptions C10_rdl_model_satisfies_assignment.

(* with the repaired propagate(from,to,dist) an infinite distance is literally +inf (no infinitesimal residue) *)
Theorem C10_rdl_guarded_infinite_is_inf : forall (s : state qd) i j,
  good QDog qd (rdl_dom true) (rdl_spec true) s ->
  dval QDog qd (rdl_dom true) (rdl_spec true) s i j = Inf -> Dl.dget qd (rdl_dom true) s i j = dinf (rdl_dom true).
Proof.
  exact (fun s i j G E => ds_nojunk QDog qd (rdl_dom true) (rdl_spec true) (fun H : true = false => Bool.diff_true_false H) _
                            (sh_mok _ _ _ _ _ (gd_shape _ _ _ _ _ (gd_n _ _ _ _ _ G)) i j) E).
Qed.
Print Assumptions C10_rdl_guarded_infinite_is_inf.

(* ---------------------------------------------------------------------------------------------- *)
(* the hypotheses are satisfiable: a concrete history (two time points, x2 - x1 <= 5 asserted at root level, then
   x1 - x2 <= -3 assumed at level 1: both distances are tight, no fault, no conflict) *)
Example C10_idl_example :
  let os := [ONewVar Z; ONewVar Z; ONewDistance Z 1 2 5%Z; ONewDistance Z 2 1 (-3)%Z; OEnqueue Z (1, true); OPropOne Z;
             OPush Z; OEnqueue Z (2, true); OPropOne Z] in
  let s := Dl.run Z (idl_dom false) (idl_init false 5) os in
  wf_run Z (idl_dom false) (idl_init false 5) os /\ fault s = 0 /\ confl s = false /\
  Dl.dget Z (idl_dom false) s 1 2 = 5%Z /\ Dl.dget Z (idl_dom false) s 2 1 = (-3)%Z /\ n_vars s = 3.
Proof. vm_compute. repeat split; try reflexivity; try discriminate; auto with arith. Qed.

(* a 3-node network whose bound is attained:  x2 - x1 <= 5,  x3 - x2 <= 2,  x1 - x3 <= -4  asserted one after the other.
   The matrix says dist(1,3) = 7; the theorems above give integers x with all three constraints and x3 - x1 = 7. *)
Example C10_idl_attained_example :
  let os := [ONewVar Z; ONewVar Z; ONewVar Z; ONewDistance Z 1 2 5%Z; ONewDistance Z 2 3 2%Z; ONewDistance Z 3 1 (-4)%Z;
             OEnqueue Z (1, true); OPropOne Z; OEnqueue Z (2, true); OPropOne Z; OPush Z; OEnqueue Z (3, true); OPropOne Z] in
  let s := Dl.run Z (idl_dom false) (idl_init false 5) os in
  wf_run Z (idl_dom false) (idl_init false 5) os /\ fault s = 0 /\ confl s = false /\ prop_q s = [] /\ n_vars s = 4 /\
  Dl.dget Z (idl_dom false) s 1 3 = 7%Z /\
  exists x : nat -> Z, (x 2%nat - x 1%nat <= 5 /\ x 3%nat - x 2%nat <= 2 /\ x 1%nat - x 3%nat <= -4 /\ x 3%nat - x 1%nat = 7)%Z.
Proof.
  intros os s.
  assert (W : wf_run Z (idl_dom false) (idl_init false 5) os) by (vm_compute; repeat split; try reflexivity; try discriminate; auto with arith).
  assert (F : fault s = 0) by (vm_compute; reflexivity).
  assert (C : confl s = false) by (vm_compute; reflexivity).
  assert (Q : prop_q s = []) by (vm_compute; reflexivity).
  assert (N : n_vars s = 4) by (vm_compute; reflexivity).
  assert (D13 : Dl.dget Z (idl_dom false) s 1 3 = 7%Z) by (vm_compute; reflexivity).
  repeat (split; [assumption |]).
  assert (H5 : 0 < 5) by auto with arith.
  pose proof (C10_idl_invariant false 5 os H5 W F C) as G. fold s in G.
  pose proof (C10_idl_distance_attained false 5 os H5 W F C 1 3) as A. fold s in A.
  assert (E13 : dval Zog Z (idl_dom false) (idl_spec false) s 1 3 = Fin (7%Z : Zog)).
  { unfold dval. rewrite D13. reflexivity. }
  rewrite E13 in A. destruct A as [_ (x & M & Hx)]; [rewrite N; auto with arith | rewrite N; auto with arith |].
  exists x.
  assert (V : forall v f t d, vd_find v (var_dists s) = Some (mkcstr f t d) -> value_var s v = LT -> (Z.abs d < LIM)%Z ->
              (x t - x f <= d)%Z).
  { intros v f t d Hc Hv Hd.
    destruct (C10_idl_model_satisfies_assignment false s x v (mkcstr f t d) d G Q M Hc) as [T _]; [split; [exact Hd | reflexivity] |].
    specialize (T Hv). unfold csat, gle in T. cbn in T. Lia.lia. }
  pose proof (V 1 1 2 5%Z) as V1. pose proof (V 2 2 3 2%Z) as V2. pose proof (V 3 3 1 (-4)%Z) as V3.
  cbn in Hx.
  split; [apply V1; vm_compute; reflexivity |]. split; [apply V2; vm_compute; reflexivity |]. split; [apply V3; vm_compute; reflexivity |].
  Lia.lia.
Qed.
Print Assumptions C10_idl_attained_example.
