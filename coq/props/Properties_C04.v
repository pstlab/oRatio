(* Property C04 -- atoms on the same state variable never overlap in time.
   Only the property theorems, each closed by a lemma of proofs/Sweep_Proofs.v and followed by Print Assumptions.
   They speak about plan/Sweep.v, the executable model of /repo/solver/types/state_variable.cpp (get_current_incs,
   extract_timelines, store_variables / sv_flaw::compute_resolvers, the to_check bookkeeping of new_atom and
   sv_atom_listener); the model is tied to the current source on every run by tools/checks/c04.py (differential on every
   sweep the real planner makes, on the extracted timelines and on the resolvers of every flaw, plus a source-level check
   of the listener wiring). `atoms` is the list of active atoms of ONE instance; values are Q_delta scaled to Z x Z.
   Non-vacuity: Sweep_Proofs.ex_hyps / ex_sweep / ex_timeline / ex_resolvers / ex_to_check. *)
From Coq Require Import ZArith List Bool Sorting.Sorted.
From ORatio Require Import plan.Sweep proofs.Sweep_Proofs.
Import ListNotations.
Local Open Scope Z_scope.

(* what the sweep reports for ANY atoms with distinct ids (even ill-formed ones, end < start): a pair is reported iff at some
   pulse both are in `overlapping_atoms` *)
Theorem C04_sweep_reports_iff : forall atoms, uniq atoms -> forall a b,
  reported (sv_sweep atoms) a b <->
  In a atoms /\ In b atoms /\ a <> b /\ exists p, is_pulse atoms p /\ live a p /\ live b p.
Proof. exact sweep_reports_iff. Qed.
Print Assumptions C04_sweep_reports_iff.

(* sweep_complete: for well-formed atoms (start <= end, C06) a pair is reported iff the half-open intervals [s1,e1) and
   [s2,e2) have a common instant -- zero-length atoms and equal endpoints included *)
Theorem C04_sweep_complete : forall atoms, uniq atoms -> (forall a, In a atoms -> wf_atom a) -> forall a b,
  reported (sv_sweep atoms) a b <-> In a atoms /\ In b atoms /\ a <> b /\ intersect a b.
Proof. exact sweep_complete. Qed.
Print Assumptions C04_sweep_complete.

Theorem C04_sweep_nil_iff_disjoint : forall atoms, uniq atoms -> (forall a, In a atoms -> wf_atom a) ->
  (sv_sweep atoms = [] <-> disjoint atoms).
Proof. exact sweep_nil_iff_disjoint. Qed.
Print Assumptions C04_sweep_nil_iff_disjoint.

(* the K2 checker run on every reported solution *)
Theorem C04_solution_checker_sound : forall atoms, uniq atoms -> (forall a, In a atoms -> wf_atom a) ->
  (sv_instance_ok atoms = true <-> disjoint atoms).
Proof. exact sv_instance_ok_sound. Qed.
Print Assumptions C04_solution_checker_sound.

(* the two boundary cases of the property text: [5,5) inside [0,10), two empty atoms at one instant, [0,5) next to [5,9) *)
Theorem C04_zero_length_never_reported : forall atoms, uniq atoms -> (forall a, In a atoms -> wf_atom a) ->
  forall a b, a_start a = a_end a -> ~ reported (sv_sweep atoms) a b.
Proof. intros atoms U _. exact (zero_length_never_reported atoms U). Qed.
Print Assumptions C04_zero_length_never_reported.

Theorem C04_touching_never_reported : forall atoms, uniq atoms -> (forall a, In a atoms -> wf_atom a) ->
  forall a b, qd_le (a_end a) (a_start b) -> ~ reported (sv_sweep atoms) a b.
Proof. exact touching_never_reported. Qed.
Print Assumptions C04_touching_never_reported.

(* extract_timelines: every segment lies between two consecutive pulses (origin and horizon included) and shows exactly the
   atoms covering every instant of it; at most one atom per segment iff the atoms are pairwise disjoint *)
Theorem C04_timeline_shows_covering : forall atoms, uniq atoms -> forall origin horizon,
  (forall a, In a atoms -> wf_atom a) ->
  forall seg, In seg (sv_timeline atoms origin horizon) ->
  forall x, qd_le (seg_from seg) x -> qd_lt x (seg_to seg) ->
  forall a, In a (seg_atoms seg) <-> In a atoms /\ covers a x.
Proof. exact timeline_shows_covering. Qed.
Print Assumptions C04_timeline_shows_covering.

Theorem C04_timeline_le1_iff_disjoint : forall atoms, uniq atoms -> forall origin horizon,
  (forall a, In a atoms -> wf_atom a) ->
  ((forall seg, In seg (sv_timeline atoms origin horizon) -> (length (seg_atoms seg) <= 1)%nat) <-> disjoint atoms).
Proof. exact timeline_le1_iff_disjoint. Qed.
Print Assumptions C04_timeline_le1_iff_disjoint.

(* resolvers of an sv_flaw: each one, when its literal is true, removes the overlap ... *)
Theorem C04_resolvers_sound : forall c newer older t0 t1 r,
  In r (sv_resolvers newer older t0 t1) -> holds c r ->
  respects c newer t0 -> respects c older t1 -> ~ c_overlap c newer older.
Proof. exact resolvers_sound. Qed.
Print Assumptions C04_resolvers_sound.

(* ... and together they are exhaustive for non-empty atoms whose instances are comparable. The full statement
     forall completions that do not overlap, some resolver holds
   is FALSE for the code as it is: see the two refutations below (they cost completeness, property C02, not C04). *)
Theorem C04_resolvers_exhaustive_partial : forall c newer older t0 t1,
  respects c newer t0 -> respects c older t1 -> has_leqs t0 t1 = true ->
  qd_lt (c_start c newer) (c_end c newer) -> qd_lt (c_start c older) (c_end c older) ->
  (match t0, t1 with TVar _, TVar d1 => In (c_tau c newer) d1 | _, _ => True end) ->
  ~ c_overlap c newer older ->
  exists r, In r (sv_resolvers newer older t0 t1) /\ holds c r.
Proof. exact resolvers_exhaustive. Qed.
Print Assumptions C04_resolvers_exhaustive_partial.

Theorem C04_resolvers_exhaustive_empty_atom_refuted :
  exists c newer older t0 t1, respects c newer t0 /\ respects c older t1 /\ has_leqs t0 t1 = true /\
    ~ c_overlap c newer older /\ forall r, In r (sv_resolvers newer older t0 t1) -> ~ holds c r.
Proof. exact resolvers_not_exhaustive_empty_atom_refuted. Qed.
Print Assumptions C04_resolvers_exhaustive_empty_atom_refuted.

Theorem C04_resolvers_exhaustive_unshared_instance_refuted :
  exists c newer older t0 t1, respects c newer t0 /\ respects c older t1 /\ has_leqs t0 t1 = true /\
    qd_lt (c_start c newer) (c_end c newer) /\ qd_lt (c_start c older) (c_end c older) /\
    ~ c_overlap c newer older /\ forall r, In r (sv_resolvers newer older t0 t1) -> ~ holds c r.
Proof. exact resolvers_not_exhaustive_unshared_instance_refuted. Qed.
Print Assumptions C04_resolvers_exhaustive_unshared_instance_refuted.

(* to_check: with the listener wiring of the current source (atom listeners listen to sigma, commit 1e13ef7; to_check is never
   cleared) after ANY history of atom creations, sigma assignments, domain reductions, parameter changes and backtracking,
   every instance that may host an active atom is in to_check whenever get_current_incs runs *)
Theorem C04_to_check_covers : forall evs, tc_covered (tc_run true evs).
Proof. exact to_check_covers. Qed.
Print Assumptions C04_to_check_covers.

(* the same statement for the wiring before the repair is false (finding 13): kept as the reason the tie checks the wiring *)
Theorem C04_to_check_without_sigma_listener_refuted : exists evs, ~ tc_covered (tc_run false evs).
Proof. exact to_check_without_sigma_listener_refuted. Qed.
Print Assumptions C04_to_check_without_sigma_listener_refuted.
