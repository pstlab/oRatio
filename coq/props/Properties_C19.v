(* C19 -- the executor dispatches the plan in time order and keeps it valid.

   Model: coq/plan/Exec.v (executor::tick, build_timelines, dont_start_yet / dont_end_yet, failure, adaptations),
   instantiated with time points Q x Q (rational + infinitesimal, lexicographic) and cfg_fixed = the code with
   notes/fixes/C19-02-lost-events and C19-03-min-delay.  Quantified over ALL clients (an arbitrary state machine
   L, l_starting, l_ending), ALL planners `resolve` and ALL operation sequences (tick / failure / requests made
   outside the callbacks).  The planner's contract is not assumed globally: the model checks every answer with
   contract_okb (valid plan, frozen values kept, delayed atoms beyond current_time) and stops with SBadOracle when it
   fails; the theorems speak about sessions that did not stop that way (status Running, or SRaised when the planner
   answered execution_exception).  c19_contract_as_hypothesis is the Section-hypothesis form of the same thing.
   `session p0 s l tr st` = the operations of some client session brought the executor from the first solution p0 to
   state s with trace tr. *)
From Coq Require Import List QArith.
From ORatio Require Import plan.Exec proofs.Exec_Proofs.
Import ListNotations.

(* time advances by exactly units_per_tick per tick() call, once, at the end (the inner loop does not advance it) *)
Theorem c19_time_advances :
  forall (units : Q) (L : Type) (ls le : L -> list nat -> L * (list (nat * Q) * list (nat * Q)))
         (resolve : nat -> state QQ -> why -> option (plan QQ)) fuel s l s' l' evs,
    q_tick units ls le resolve fuel s l = Done s' l' evs ->
    now s' = now s + units /\ ticks_of evs = [now s + units].
Proof. exact (tick_time QQ qq_leb qq_inj qq_tadd cfg_fixed). Qed.
Print Assumptions c19_time_advances.

(* each atom receives `start` at most once and `end` at most once *)
Theorem c19_at_most_once :
  forall (units : Q) (L : Type) (ls le : L -> list nat -> L * (list (nat * Q) * list (nat * Q)))
         (resolve : nat -> state QQ -> why -> option (plan QQ)) p0 s l tr st,
    session units L ls le resolve p0 s l tr st -> st = Running \/ st = SRaised ->
    NoDup (map snd (starts_of tr)) /\ NoDup (map snd (ends_of tr)).
Proof. intros. eapply at_most_once, session_Good; eassumption. Qed.
Print Assumptions c19_at_most_once.

(* `start` before `end`: every atom of an end notification was in an earlier start notification *)
Theorem c19_start_before_end :
  forall (units : Q) (L : Type) (ls le : L -> list nat -> L * (list (nat * Q) * list (nat * Q)))
         (resolve : nat -> state QQ -> why -> option (plan QQ)) p0 s l tr st,
    session units L ls le resolve p0 s l tr st -> st = Running \/ st = SRaised -> ordered [] tr.
Proof. intros. eapply gO, session_Good; eassumption. Qed.
Print Assumptions c19_start_before_end.

(* a start (end) notification concerns an atom of the plan in force, at its planned start (end), and only once
   current_time has reached that time *)
Theorem c19_not_before_planned_time :
  forall (units : Q) (L : Type) (ls le : L -> list nat -> L * (list (nat * Q) * list (nat * Q)))
         (resolve : nat -> state QQ -> why -> option (plan QQ)) p0 s l tr st,
    session units L ls le resolve p0 s l tr st -> st = Running \/ st = SRaised -> timely qq_leb qq_inj p0 tr.
Proof. intros. eapply gT, session_Good; eassumption. Qed.
Print Assumptions c19_not_before_planned_time.

(* nothing already started (ended) is moved by an adaptation: in the current plan every started atom still has the
   start it was notified with, every ended atom its end *)
Theorem c19_started_not_moved :
  forall (units : Q) (L : Type) (ls le : L -> list nat -> L * (list (nat * Q) * list (nat * Q)))
         (resolve : nat -> state QQ -> why -> option (plan QQ)) p0 s l tr st,
    session units L ls le resolve p0 s l tr st -> st = Running \/ st = SRaised ->
    forall pa, In pa (cur s) ->
      (forall q, In (q, pa_id pa) (starts_of tr) -> teqb qq_leb (pa_start pa) q = true) /\
      (forall q, In (q, pa_id pa) (ends_of tr) -> teqb qq_leb (p_end pa) q = true).
Proof.
  intros units L ls le resolve p0 s l tr st H Hst.
  exact (frozen QQ qq_leb qq_inj p0 s tr (session_Good _ _ _ _ _ _ _ _ _ _ H Hst)).
Qed.
Print Assumptions c19_started_not_moved.

(* liveness of one tick: when tick() returns, an atom of the plan that has not been started (ended) is planned to
   start (end) strictly after the time of that tick -- so everything due and not delayed has been dispatched *)
Theorem c19_due_atoms_are_dispatched :
  forall (units : Q) (L : Type) (ls le : L -> list nat -> L * (list (nat * Q) * list (nat * Q)))
         (resolve : nat -> state QQ -> why -> option (plan QQ)) p0 s l tr fuel s' l' evs,
    session units L ls le resolve p0 s l tr Running ->
    q_tick units ls le resolve fuel s l = Done s' l' evs ->
    forall pa, In pa (cur s') ->
      (~ In (pa_id pa) (map snd (starts_of (tr ++ evs))) -> ltb qq_leb (qq_inj (now s)) (pa_start pa) = true) /\
      (~ In (pa_id pa) (map snd (ends_of (tr ++ evs))) -> ltb qq_leb (qq_inj (now s)) (p_end pa) = true).
Proof.
  intros units L ls le resolve p0 s l tr fuel s' l' evs H.
  exact (tick_live QQ qq_leb qq_inj qq_tadd qq_leb_total qq_leb_trans cfg_fixed eq_refl units L ls le resolve fuel p0 s l tr
                   s' l' evs (session_Good _ _ _ _ _ _ _ _ _ _ H (or_introl eq_refl))).
Qed.
Print Assumptions c19_due_atoms_are_dispatched.

(* executed to completion: once the time of a tick has reached the end of every atom of the plan, every atom of the plan
   has been started exactly once and ended exactly once *)
Theorem c19_exactly_once_when_over :
  forall (units : Q) (L : Type) (ls le : L -> list nat -> L * (list (nat * Q) * list (nat * Q)))
         (resolve : nat -> state QQ -> why -> option (plan QQ)) p0 s l tr fuel s' l' evs,
    session units L ls le resolve p0 s l tr Running ->
    q_tick units ls le resolve fuel s l = Done s' l' evs ->
    (forall pa, In pa (cur s') -> qq_leb (p_end pa) (qq_inj (now s)) = true) ->
    (forall pa, In pa (cur s') ->
       In (pa_id pa) (map snd (starts_of (tr ++ evs))) /\ In (pa_id pa) (map snd (ends_of (tr ++ evs)))) /\
    NoDup (map snd (starts_of (tr ++ evs))) /\ NoDup (map snd (ends_of (tr ++ evs))).
Proof.
  intros units L ls le resolve p0 s l tr fuel s' l' evs H.
  exact (tick_exactly_once QQ qq_leb qq_inj qq_tadd qq_leb_total qq_leb_trans cfg_fixed eq_refl units L ls le resolve fuel p0
                           s l tr s' l' evs (session_Good _ _ _ _ _ _ _ _ _ _ H (or_introl eq_refl))).
Qed.
Print Assumptions c19_exactly_once_when_over.

(* never in a tick in which the client asked to delay it -- for ARBITRARY delays (zero and negative included): no atom is
   both delayed and started (ended) within the events of one tick() call *)
Theorem c19_never_in_the_delayed_tick :
  forall (units : Q) (L : Type) (ls le : L -> list nat -> L * (list (nat * Q) * list (nat * Q)))
         (resolve : nat -> state QQ -> why -> option (plan QQ)) p0 s l tr fuel,
    session units L ls le resolve p0 s l tr Running ->
    match q_tick units ls le resolve fuel s l with
    | Done _ _ evs | Raised _ _ evs => sep evs
    | _ => True
    end.
Proof.
  intros units L ls le resolve p0 s l tr fuel H.
  exact (tick_sep QQ qq_leb qq_inj qq_tadd qq_leb_total qq_leb_trans cfg_fixed eq_refl units L ls le resolve eq_refl fuel s l
                  (gI _ _ _ _ _ _ (session_Good _ _ _ _ _ _ _ _ _ _ H (or_introl eq_refl)))).
Qed.
Print Assumptions c19_never_in_the_delayed_tick.

(* the inner `goto manage_tick` loop terminates: 4 * (number of atoms that can be part of a plan) + 1 passes suffice *)
Theorem c19_inner_loop_terminates :
  forall (units : Q) (L : Type) (ls le : L -> list nat -> L * (list (nat * Q) * list (nat * Q)))
         (resolve : nat -> state QQ -> why -> option (plan QQ)) p0 s l tr (U : list nat),
    session units L ls le resolve p0 s l tr Running ->
    (forall k s1 w p, resolve k s1 w = Some p -> incl (map (@pa_id QQ) p) U) ->
    incl (map (@pa_id QQ) (cur s)) U ->
    q_tick units ls le resolve (4 * length U + 1) s l <> OutOfFuel QQ L.
Proof.
  intros units L ls le resolve p0 s l tr U H HR HU.
  exact (tick_terminates QQ qq_leb qq_inj qq_tadd qq_leb_total qq_leb_trans cfg_fixed eq_refl units L ls le resolve eq_refl U HR
                         s l (gI _ _ _ _ _ _ (session_Good _ _ _ _ _ _ _ _ _ _ H (or_introl eq_refl))) HU).
Qed.
Print Assumptions c19_inner_loop_terminates.

(* the contract in hypothesis form: a planner all of whose answers are valid and respect the imposed bounds never makes
   a session stop with SBadOracle *)
Theorem c19_contract_as_hypothesis :
  forall (units : Q) (L : Type) (ls le : L -> list nat -> L * (list (nat * Q) * list (nat * Q)))
         (resolve : nat -> state QQ -> why -> option (plan QQ)) p0 s l tr st,
    (forall k s1 w p, resolve k s1 w = Some p -> contract_okb qq_leb s1 p = true) ->
    session units L ls le resolve p0 s l tr st -> forall k, st <> SBadOracle k.
Proof.
  intros units L ls le resolve p0 s l tr st HR [_ [fuel [ops [l0 H]]]] k.
  exact (run_not_bad QQ qq_leb qq_inj qq_tadd cfg_fixed units L ls le resolve HR fuel ops _ _ _ _ _ _ _ k H).
Qed.
Print Assumptions c19_contract_as_hypothesis.

(* the executable contract check used on the implementation's re-solves decides the contract (K2) *)
Theorem c19_contract_checker_sound :
  forall (s : state QQ) (p : plan QQ),
    contract_okb qq_leb s p = true -> wf_plan qq_leb p /\ respects qq_leb s p.
Proof. exact (contract_okb_sound QQ qq_leb). Qed.
Print Assumptions c19_contract_checker_sound.

(* the time domain of the instance satisfies what the proofs need of it *)
Theorem c19_time_order :
  (forall a b : QQ, qq_leb a b = true \/ qq_leb b a = true) /\
  (forall a b c : QQ, qq_leb a b = true -> qq_leb b c = true -> qq_leb a c = true).
Proof. exact (conj qq_leb_total qq_leb_trans). Qed.
Print Assumptions c19_time_order.

(* the hypotheses are satisfiable *)
Theorem c19_session_example :
  session 1 client (sl_starting w1_script) (sl_ending w1_script) (stream_resolve [Some w1_p1])
          w1_p0 (fst (fst (fst w1_fixed))) (snd (fst (fst w1_fixed))) (snd (fst w1_fixed)) Running.
Proof. exact session_example. Qed.
Print Assumptions c19_session_example.

(* the code as pinned (before C19-02 / C19-03) violates the property; the witnesses are replayed on the C++ by the check *)
Theorem c19_pinned_refuted_end_without_start :
  snd w1_run = Running /\
  In 1%nat (map snd (ends_of (snd (fst w1_run)))) /\ ~ In 1%nat (map snd (starts_of (snd (fst w1_run)))).
Proof. exact (conj w1_contract_kept pinned_refuted_end_without_start). Qed.
Print Assumptions c19_pinned_refuted_end_without_start.

Theorem c19_unclamped_refuted_start_in_delayed_tick :
  snd w2_run = Running /\ ~ sep (snd (fst w2_run)).
Proof. exact (conj w2_contract_kept unclamped_refuted_start_in_delayed_tick). Qed.
Print Assumptions c19_unclamped_refuted_start_in_delayed_tick.
