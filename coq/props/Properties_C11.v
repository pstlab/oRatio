(* Property C11 -- a linear-relation literal means exactly its relation.
   Only statements: each theorem is a corollary (a line or two) of the lemmas in proofs/ and is followed by Print Assumptions;
   finite facts (examples, the generated tables) are closed by evaluation or by a lemma that evaluates.
   Model: smt/Lra.v (new_var(lin), new_lt / new_leq / new_geq / new_gt = new_rel, new_eq), semantics: smt/LraSem.v.
   `model s al rho`: rho satisfies the slack definitions, every theory literal has the truth value of its atom in the
   reading over Q, reified conjunctions made by new_eq have the value of their conjunction (sat_core's clauses, C13), and
   the atoms asserted at root level hold.
   Preconditions (hypotheses; monitored by the harness): the request is made at root level (`layers s = []`; above root
   level the shortcuts would consult retractable bounds), the arguments are canonical expressions over existing variables
   (rel_args_ok), `fresh` is sat_core's next variable (fresh_ok).
   Sharing keys are modelled by the canonical data (the expression itself / (slack, op, constant)). That the printed keys
   of the implementation determine exactly this data is proved in Properties_C15.v about models of the printers that are
   compared with the C++ texts on every C15 run: C15_lin_to_string_injective (to_string(lin) on well-formed expressions),
   C15_inf_rational_to_string_injective (to_string(inf_rational); the bounds built here have a finite rational part, the
   side condition of that theorem), C15_assertion_key_injective ("x<slack> <= / >= <bound>"), C15_decimal_printing_injective
   (std::to_string of the ids). What remains an observation of the differential (slack identities and literals) is that
   lra_theory uses exactly these texts as keys. *)
From Coq Require Import QArith List Bool Arith Lia.
From ORatio Require Import smt.Lra smt.LraSem proofs.LraBase_Proofs proofs.LraTab_Proofs proofs.LraInv_Proofs proofs.LraThm_Proofs proofs.LraRel_Proofs proofs.LraTop_Proofs proofs.LraQuery_Proofs.
Import ListNotations.
Local Open Scope Q_scope.

(* fresh, shared or constant: the literal is true in a model exactly when the relation holds for the model's values *)
Theorem C11_literal_means_relation : forall s r a b fresh s' l n,
  reach s -> layers s = [] -> rel_args_ok s a b -> fresh_ok s fresh -> new_rel r a b fresh s = (s', l, n) ->
  forall al rho, model s' al rho ->
    (lit_holds al l = true <-> match r with Rlt => evalq rho a < evalq rho b | Rleq => evalq rho a <= evalq rho b
                                          | Rgeq => evalq rho b <= evalq rho a | Rgt => evalq rho b < evalq rho a end).
Proof. exact (fun s r a b fresh s' l n R => new_rel_meaning s r a b fresh s' l n (wf_reach s R)). Qed.
Print Assumptions C11_literal_means_relation.

(* the shortcuts: TRUE only if every model satisfies the relation, FALSE only if none does *)
Theorem C11_true_only_when_root_bounds_decide : forall s r a b fresh s' n,
  reach s -> layers s = [] -> rel_args_ok s a b -> fresh_ok s fresh -> new_rel r a b fresh s = (s', TRUE_lit, n) ->
  forall al rho, model s' al rho -> rel_holds r (evalq rho a) (evalq rho b).
Proof. exact (fun s r a b fresh s' n R => new_rel_true_only_if_entailed s r a b fresh s' n (wf_reach s R)). Qed.
Print Assumptions C11_true_only_when_root_bounds_decide.
Theorem C11_false_only_when_root_bounds_refute : forall s r a b fresh s' n,
  reach s -> layers s = [] -> rel_args_ok s a b -> fresh_ok s fresh -> new_rel r a b fresh s = (s', FALSE_lit, n) ->
  forall al rho, model s' al rho -> ~ rel_holds r (evalq rho a) (evalq rho b).
Proof. exact (fun s r a b fresh s' n R => new_rel_false_only_if_refuted s r a b fresh s' n (wf_reach s R)). Qed.
Print Assumptions C11_false_only_when_root_bounds_refute.

(* new_eq = conjunction of >= and <= (al: sat_core's assignment at root, extended by the model) *)
Theorem C11_eq_literal_means_equality : forall s al a b fresh s' c n,
  reach s -> layers s = [] -> rel_args_ok s a b -> fresh_ok s fresh -> new_eq al a b fresh s = (s', c, n) ->
  forall al' rho, model s' al' rho -> (forall v bv, al v = Some bv -> al' v = bv) ->
    (lit_holds al' c = true <-> evalq rho a == evalq rho b).
Proof. exact (fun s al a b fresh s' c n R => new_eq_meaning s al a b fresh s' c n (wf_reach s R)). Qed.
Print Assumptions C11_eq_literal_means_equality.

(* requesting a literal does not change the set of solutions: every model of the new state is a model of the old one,
   and every model of the old state extends (new slack := value of its expression, new literal := truth of its atom)
   to a model of the new state that agrees on all old variables *)
Theorem C11_request_keeps_models : forall s r a b fresh al rho,
  model (fst (fst (new_rel r a b fresh s))) al rho -> model s al rho.
Proof. exact new_rel_restrict. Qed.
Print Assumptions C11_request_keeps_models.
Theorem C11_request_loses_no_model : forall s r a b fresh al rho,
  reach s -> layers s = [] -> rel_args_ok s a b -> fresh_ok s fresh ->
  (forall p q c, In (p, q, c) (conjs s) -> (fst p < fresh)%nat /\ (fst q < fresh)%nat) -> model s al rho ->
  exists al' rho', model (fst (fst (new_rel r a b fresh s))) al' rho' /\
                   (forall v, (v < nvars s)%nat -> rho' v = rho v) /\ (forall v, v <> fresh -> al' v = al v).
Proof. exact (fun s r a b fresh al rho R => new_rel_extend s r a b fresh al rho (wf_reach s R)). Qed.
Print Assumptions C11_request_loses_no_model.

(* queries: lb(lin) / ub(lin) / bounds(lin) contain the value of the expression in every model (root level);
   value(lin) is the expression evaluated on the current values *)
Theorem C11_query_bounds_sound : forall s l al rho lo hi, reach s -> layers s = [] -> model s al rho ->
  (lb_lin s l = Some lo -> sat_lower (evalq rho l) lo) /\ (ub_lin s l = Some hi -> sat_upper (evalq rho l) hi).
Proof. exact (fun s l al rho lo hi R => query_bounds_sound s l al rho lo hi (wf_reach s R)). Qed.
Print Assumptions C11_query_bounds_sound.
Theorem C11_query_value_exact : forall s l d, qd_at d (value_lin s l) == evalq (valq d (vals s)) l.
Proof. exact (fun s l d => value_lin_at d s l). Qed.
Print Assumptions C11_query_value_exact.

(* equates is exactly "the bound intervals [lb l0, ub l0] and [lb l1, ub l1] have a common point" (Q_delta points; an infinite
   end excludes nothing; one interval containing the other, touching ends and equal intervals all intersect) *)
Theorem C11_equates_iff_intervals_intersect : forall s l0 l1, reach s ->
  (equates s l0 l1 = true <->
   exists z, ((forall l, lb_lin s l0 = Some l -> qd_le l z) /\ (forall u, ub_lin s l0 = Some u -> qd_le z u)) /\
             ((forall l, lb_lin s l1 = Some l -> qd_le l z) /\ (forall u, ub_lin s l1 = Some u -> qd_le z u))).
Proof. exact equates_spec. Qed.
Print Assumptions C11_equates_iff_intervals_intersect.
(* no false negatives, at any decision level: if some rational solution of the definitions and of the currently asserted atoms
   makes the two expressions equal, equates answers true *)
Theorem C11_equates_no_false_negative : forall s l0 l1 rho, reach s ->
  sat_defs (exprs s) rho -> (forall a, In a (all_atoms s) -> sat_atom rho a) -> evalq rho l0 == evalq rho l1 -> equates s l0 l1 = true.
Proof. exact (fun s l0 l1 rho R D A => equates_no_false_negative s l0 l1 rho (bounds_contain_solutions s rho (wf_reach s R) D A)). Qed.
Print Assumptions C11_equates_no_false_negative.
Theorem C11_equates_no_false_negative_for_assignments_within_bounds : forall s l0 l1 rho,
  (forall x d v, bval (cb s (idx x d)) = Some v -> sat_atom rho (x, d, v)) -> evalq rho l0 == evalq rho l1 -> equates s l0 l1 = true.
Proof. exact equates_no_false_negative. Qed.
Print Assumptions C11_equates_no_false_negative_for_assignments_within_bounds.
(* bounds(lin) is exact with respect to the per-variable bounds: a bound of every Q_delta assignment within them, and attained *)
Theorem C11_lb_lin_is_a_lower_bound : forall s l lo vl,
  (forall v, In v (lkeys l) -> within (cb s) v (vl v)) -> lb_lin s l = Some lo -> qd_le lo (value_terms vl (lterms l) (qd_of_q (lconst l))).
Proof. exact (side_lin_value Lower). Qed.
Print Assumptions C11_lb_lin_is_a_lower_bound.
Theorem C11_ub_lin_is_an_upper_bound : forall s l hi vl,
  (forall v, In v (lkeys l) -> within (cb s) v (vl v)) -> ub_lin s l = Some hi -> qd_le (value_terms vl (lterms l) (qd_of_q (lconst l))) hi.
Proof. exact (side_lin_value Upper). Qed.
Print Assumptions C11_ub_lin_is_an_upper_bound.
Theorem C11_lb_lin_attained : forall s l lo, consistent (cb s) -> ksorted (lkeys l) -> lb_lin s l = Some lo ->
  (forall v, within (cb s) v (pick s true l v)) /\ value_terms (pick s true l) (lterms l) (qd_of_q (lconst l)) = lo.
Proof. exact (side_lin_attained Lower). Qed.
Print Assumptions C11_lb_lin_attained.
Theorem C11_ub_lin_attained : forall s l hi, consistent (cb s) -> ksorted (lkeys l) -> ub_lin s l = Some hi ->
  (forall v, within (cb s) v (pick s false l v)) /\ value_terms (pick s false l) (lterms l) (qd_of_q (lconst l)) = hi.
Proof. exact (side_lin_attained Upper). Qed.
Print Assumptions C11_ub_lin_attained.
Theorem C11_lb_lin_infinite_iff : forall s l,
  lb_lin s l = None <-> exists v c, In (v, c) (lterms l) /\ (if qpos c then lbv s v else ubv s v) = None.
Proof. exact (side_lin_infinite_iff Lower). Qed.
Print Assumptions C11_lb_lin_infinite_iff.
Theorem C11_ub_lin_infinite_iff : forall s l,
  ub_lin s l = None <-> exists v c, In (v, c) (lterms l) /\ (if qpos c then ubv s v else lbv s v) = None.
Proof. exact (side_lin_infinite_iff Upper). Qed.
Print Assumptions C11_ub_lin_infinite_iff.

(* sharing a slack / an assertion by key never confuses two meanings: equal keys denote equal expressions *)
Theorem C11_shared_key_same_meaning : forall rho a b, lin_eqb a b = true -> evalq rho a == evalq rho b.
Proof. exact lin_eqb_evalq. Qed.
Print Assumptions C11_shared_key_same_meaning.

(* non-vacuity: a reachable root-level state with a basic variable and tightened bounds exists (see C09 examples) *)
Example C11_example_reachable_state : reach (run ex_conflict_events init_state).
Proof. exact ex_conflict_reach. Qed.
