(* Property C01 -- a reported solution satisfies every constraint the problem asserts.

   FULL STATEMENT (not proved): for every well-typed RIDDLE problem on which solver::solve() returns true, in every
   supported configuration, the reported values and active atoms make every top-level constraint and every constraint
   of the rule body / chosen disjunct of every active atom true under exact arithmetic.
   PROVED (hence `_partial`): the executable checker `check_satisfies` that judges each solution the real planner
   reports is sound w.r.t. the denotational semantics of plan/Sem.v, for ALL programs and ALL solutions; the gap is
   the planner itself (15 k lines: search, heuristics, SMT core), which is only observed through its solutions.
   PRECONDITION of incremental use (observed, also asserted by the planner's debug build in flaw::init): a further core::read() after a
   solve() must be done at root level (the deliberative executor pops the decisions first); clauses posted while decisions are on
   the trail are simplified under the current, non-root assignment and constraints read that way can be lost. The incremental problems
   of the check pop to root level before every further read.
   Only theorem statements here; proofs are in proofs/Check_Proofs.v, the examples in proofs/Plan_Examples.v. *)
From Coq Require Import List NArith ZArith QArith Bool.
From ORatio Require Import plan.Ast plan.Sem plan.Check proofs.Check_Proofs proofs.Plan_Examples.

Theorem C01_checker_sound_partial : forall prog sol, check_satisfies prog sol = true -> satisfies prog sol.
Proof. exact check_satisfies_sound. Qed.
Print Assumptions C01_checker_sound_partial.

(* every statement accepted by the checker holds in the semantics (structural induction over statements) *)
Theorem C01_statement_sound : forall prog sol s e, chk_stmt prog sol s e = true -> sat_stmt prog sol s e.
Proof. exact chk_stmt_sound. Qed.
Print Assumptions C01_statement_sound.

(* the semantics means what it says: exact comparisons in Q_delta *)
Theorem C01_holds_le : forall sol e a b, holds sol e (ECmp CLe a b) ->
  exists p q, eval sol e a = Some (VNum p) /\ eval sol e b = Some (VNum q) /\ qd_le p q.
Proof. exact (fun sol e => holds_cmp sol e CLe). Qed.
Print Assumptions C01_holds_le.

Theorem C01_holds_lt : forall sol e a b, holds sol e (ECmp CLt a b) ->
  exists p q, eval sol e a = Some (VNum p) /\ eval sol e b = Some (VNum q) /\ qd_lt p q.
Proof. exact (fun sol e => holds_cmp sol e CLt). Qed.
Print Assumptions C01_holds_lt.

Theorem C01_holds_eq : forall sol e a b p, holds sol e (EEq a b) -> eval sol e a = Some (VNum p) ->
  exists q, eval sol e b = Some (VNum q) /\ qd_eq p q.
Proof. exact holds_eq_num. Qed.
Print Assumptions C01_holds_eq.

Theorem C01_holds_ne : forall sol e a b p q, holds sol e (ENe a b) ->
  eval sol e a = Some (VNum p) -> eval sol e b = Some (VNum q) -> ~ qd_eq p q.
Proof. exact holds_ne_num. Qed.
Print Assumptions C01_holds_ne.

(* the checker is not vacuous: it accepts a correct solution and rejects one with a wrong value *)
Theorem C01_checker_accepts_and_rejects :
  check_solution ex_prog (ex_sol one Unified 100%N 0%N) = true /\
  check_satisfies ex_prog (ex_sol (VNum (2, 0)) Unified 100%N 0%N) = false.
Proof. exact (conj ex_accepted ex_wrong_value). Qed.
Print Assumptions C01_checker_accepts_and_rejects.

(* K1: the guarantee reduced to the SMT layer.  lit_of = truth value, in the final assignment, of the literal core built
   for each (sub)expression; the hypotheses are the guarantees of C13 (connectives), C11/C12 (relation literals mean
   their relation on the reported values), C14 (object equality) for a TOTAL assignment.  Then the literal of any
   constraint is true exactly when the constraint evaluates to true, and a constraint posted by core::assert_facts as
   the clause {!ni, lit} holds on the reported values whenever its guard ni (the rho of the executing resolver) is true. *)
Theorem C01_constraint_reduces_to_smt_layer :
  forall (sol : solution) (env : ident) (lit_of : expr -> bool),
  (forall b, lit_of (EBool b) = b) ->
  (forall p b, eval sol env (EId p) = Some (VBool b) -> lit_of (EId p) = b) ->
  (forall a, lit_of (ENot a) = negb (lit_of a)) ->
  (forall es, lit_of (EAnd es) = forallb lit_of es) ->
  (forall es, lit_of (EOr es) = existsb lit_of es) ->
  (forall es, lit_of (EXor es) = Nat.eqb (count_true (map lit_of es)) 1) ->
  (forall a b, lit_of (EImp a b) = implb (lit_of a) (lit_of b)) ->
  (forall op a b p q, eval sol env a = Some (VNum p) -> eval sol env b = Some (VNum q) -> lit_of (ECmp op a b) = cmp_sem op p q) ->
  (forall a b u v r, eval sol env a = Some u -> eval sol env b = Some v -> veq u v = Some r ->
                     (forall x y, ~ (u = VBool x /\ v = VBool y)) -> lit_of (EEq a b) = r) ->
  (forall a b x y, eval sol env a = Some (VBool x) -> eval sol env b = Some (VBool y) -> lit_of (EEq a b) = Bool.eqb (lit_of a) (lit_of b)) ->
  (forall a b, lit_of (ENe a b) = negb (lit_of (EEq a b))) ->
  forall (ni : bool) e b,
    (negb ni || lit_of e) = true -> ni = true -> eval sol env e = Some (VBool b) -> holds sol env e.
Proof. exact asserted_constraint_holds. Qed.
Print Assumptions C01_constraint_reduces_to_smt_layer.
