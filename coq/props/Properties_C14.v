(* Property C14 -- object variables take exactly one allowed value; equality means same value.

   Model: coq/smt/Ov.v (ov_theory::new_var, new_var(lits, vals), allows, new_eq, value, plus assume / pop / propagate of the
   sat_core under it) on top of coq/smt/SatEnc.v (C13), tied to /repo's smt/ov/ov_theory.cpp on every run by tools/checks/c14.py.
   Only property theorems here, each an instance or a projection of a lemma of proofs/Ov_Proofs.v (the last two: of
   proofs/SatKeys_Proofs.v), and each followed by Print Assumptions.

   Reading guide
     externals / iteration   contracts of std::sort, ceil(sqrt) (C13) and of the iteration order of the unordered_map /
                             unordered_set inside new_eq (any permutation): every theorem holds for every instance.
     ov_wf o                 invariant of reachable states (C14_histories); a domain is a non-empty map value -> literal.
     models a s              total assignment satisfying all clauses of the sat_core and agreeing with its current
                             (root level, or assumed and propagated) assignment; exact a s: see C13.
     takes a d v             under a the variable with domain d takes the allowed value v (its literal is true);
     one_value a d           it takes exactly one allowed value; same_value / different_values for two variables.
     ok                      the conjunction of the results that ov_theory only assert()s (new_clause inside new_var / new_eq).
   Scope of the histories (ov_step = None otherwise, and the tie stops comparing there): new_var / new_eq / clauses at root level
   only (sat_core asserts it), known variables and literals, non-empty domains, and no conflict -- an assume() that conflicts makes
   sat_core analyse the conflict, learn a clause and backjump (possibly to root level, where e.g. variables created by
   new_var(lits, vals) can then be left with an empty domain): that is sat_core's conflict handling, property C07.
   Non-vacuity: ex_ov_run (a history with three variables, a singleton, equalities in both orders, assume/pop), ov_init_wf. *)
From Coq Require Import List.
From ORatio Require Import smt.SatEnc smt.Ov smt.SatKeys proofs.SatEnc_Proofs proofs.Ov_Proofs proofs.SatKeys_Proofs.
Import ListNotations.

(* a variable created with a domain takes exactly one of its allowed values in every model; every allowed value is possible *)
Theorem C14_new_var : forall sortv sortl csqrt, externals sortv sortl csqrt ->
  forall enforce o items o' id ok, ov_wf o -> items <> [] ->
  ov_new_var sortv sortl csqrt enforce o items = (o', id, ok) ->
  id = length (doms o) /\
  (forall k, dom_mem (get_dom o' id) k = true <-> In k items) /\
  (forall v, v < length (doms o) -> get_dom o' v = get_dom o v) /\
  (forall a, models a (sat o') -> models a (sat o)) /\
  (ok = true -> ov_wf o' /\
     (enforce = true \/ length items = 1 -> forall a, models a (sat o') -> one_value a (get_dom o' id))) /\
  (forall a, exact a (sat o) -> forall k, In k items ->
     ok = true /\ exists a', agree_below (nvars (sat o)) a a' /\ exact a' (sat o') /\
                             takes a' (get_dom o' id) k /\ one_value a' (get_dom o' id)).
Proof.
  intros sortv sortl csqrt X enforce o items o' id ok W NE H.
  destruct (ov_new_var_spec sortv sortl csqrt X enforce o items o' id ok W NE H) as [A1 [_ [_ [A4 [_ [A6 [A7 [A8 A9]]]]]]]].
  exact (conj A1 (conj A7 (conj A4 (conj A6 (conj A8 A9))))).
Qed.
Print Assumptions C14_new_var.

(* value(v) is exactly the set of values whose literal is not false ... *)
Theorem C14_value_not_excluded : forall o v k, NoDup (map fst (get_dom o v)) ->
  (In k (ov_value o v) <-> exists l, dom_find (get_dom o v) k = Some l /\ value (sat o) l <> LFalse).
Proof. exact ov_value_spec. Qed.
Print Assumptions C14_value_not_excluded.

(* ... it always contains the value actually taken ... *)
Theorem C14_value_contains_taken : forall o v a k, NoDup (map fst (get_dom o v)) -> models a (sat o) ->
  takes a (get_dom o v) k -> In k (ov_value o v).
Proof. exact ov_value_sound. Qed.
Print Assumptions C14_value_contains_taken.

(* ... and once every value literal is decided it is the singleton of the value taken *)
Theorem C14_value_decided : forall o v a, NoDup (map fst (get_dom o v)) -> models a (sat o) -> one_value a (get_dom o v) ->
  (forall k l, dom_find (get_dom o v) k = Some l -> value (sat o) l <> LUndef) ->
  exists k, forall k', In k' (ov_value o v) <-> k' = k.
Proof. exact ov_value_singleton. Qed.
Print Assumptions C14_value_decided.

(* the equality literal: true exactly when both take the same value, false exactly when they take different ones; requesting it
   (cache hit or miss, either argument order) removes no assignment in which both variables take one value each *)
Theorem C14_new_eq : forall sortv sortl csqrt iterd iters, externals sortv sortl csqrt -> iteration iterd iters ->
  forall o left right o' x ok, ov_wf o -> left < length (doms o) -> right < length (doms o) ->
  ov_new_eq sortv iterd iters o left right = (o', x, ok) ->
  doms o' = doms o /\ (forall a, models a (sat o') -> models a (sat o)) /\
  (ok = true -> ov_wf o' /\
     forall a, models a (sat o') -> one_value a (get_dom o left) -> one_value a (get_dom o right) ->
       (eval a x = true <-> same_value a (get_dom o left) (get_dom o right)) /\
       (eval a x = false <-> different_values a (get_dom o left) (get_dom o right))) /\
  (forall a, exact a (sat o) -> one_value a (get_dom o left) -> one_value a (get_dom o right) ->
     ok = true /\ exists a', agree_below (nvars (sat o)) a a' /\ exact a' (sat o') /\
       (eval a' x = true <-> same_value a (get_dom o left) (get_dom o right))).
Proof. exact Q_new_eq. Qed.
Print Assumptions C14_new_eq.

Theorem C14_eq_reflexive : forall sortv iterd iters o v, ov_new_eq sortv iterd iters o v v = (o, TRUE_lit, true).
Proof. exact ov_new_eq_refl. Qed.
Print Assumptions C14_eq_reflexive.

(* variables with disjoint domains are never equal *)
Theorem C14_disjoint_never_equal : forall sortv sortl csqrt iterd iters, externals sortv sortl csqrt -> iteration iterd iters ->
  forall o left right o' x ok, ov_wf o -> left < length (doms o) -> right < length (doms o) ->
  (forall k, dom_mem (get_dom o left) k = true -> dom_mem (get_dom o right) k = false) ->
  ov_new_eq sortv iterd iters o left right = (o', x, ok) -> ok = true ->
  forall a, models a (sat o') -> one_value a (get_dom o left) -> one_value a (get_dom o right) -> eval a x = false.
Proof. exact Q_disjoint_never_equal. Qed.
Print Assumptions C14_disjoint_never_equal.

(* assume / pop over the value literals: assuming restricts the models to those where the literal holds, keeps every invariant
   (so the theorems on value() and on the equality literals apply at every decision level), and pop restores the state exactly *)
Theorem C14_assume_pop : forall h p h', ov_wf (cur h) -> lit_below (nvars (sat (cur h))) p -> ov_assume h p = AOk h' ->
  ov_wf (cur h') /\ doms (cur h') = doms (cur h) /\
  (forall a, models a (sat (cur h')) <-> models a (sat (cur h)) /\ eval a p = true) /\
  ov_pop h' = h.
Proof. intros h p h' W B H. destruct (ov_assume_spec h p h' W B H) as [A1 [A2 [_ [A4 [A5 _]]]]]. auto. Qed.
Print Assumptions C14_assume_pop.

(* all histories of new_var / new_var(lits, vals) / new_eq / clauses / propagate / assume / pop from the initial state *)
Theorem C14_histories : forall sortv sortl csqrt iterd iters, externals sortv sortl csqrt -> iteration iterd iters ->
  forall ops h', ov_run sortv sortl csqrt iterd iters (mkHist ov_init []) ops = Some h' ->
  ov_wf (cur h') /\
  (forall v, v < length (doms (cur h')) -> NoDup (map fst (get_dom (cur h') v)) /\ get_dom (cur h') v <> []) /\
  (forall l r c, In (l, r, c) (oexprs (cur h')) -> forall a, models a (sat (cur h')) ->
     one_value a (get_dom (cur h') l) -> one_value a (get_dom (cur h') r) ->
     (eval a c = true <-> same_value a (get_dom (cur h') l) (get_dom (cur h') r))).
Proof. exact Q_histories. Qed.
Print Assumptions C14_histories.

Theorem C14_iteration_instance : iteration id_dom id_set.
Proof. exact iteration_instance. Qed.
Print Assumptions C14_iteration_instance.

(* the printed cache key of ov_theory::new_eq, "=e<left>e<right>": equal keys => the same ordered pair *)
Theorem C14_eq_key_injective : forall l r l' r', str_ov_key l r = str_ov_key l' r' -> l = l' /\ r = r'.
Proof. exact str_ov_key_inj. Qed.
Print Assumptions C14_eq_key_injective.

(* exprs.find(s_expr) on the printed keys is the model's lookup by ordered pair *)
Theorem C14_lookup_by_printed_key : forall l r m, oexpr_find_str (str_ov_key l r) m = oexpr_find m l r.
Proof. exact oexpr_find_str_spec. Qed.
Print Assumptions C14_lookup_by_printed_key.
