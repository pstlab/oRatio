(* Property C12 -- Difference-logic relation literals and expression queries mean what they say.
   The property theorems, each closed by a lemma of proofs/ (one by unfolding a definition) and followed by Print Assumptions, and one evaluated example.

   Vocabulary: smt/Dl.v `new_rel` is idl_theory / rdl_theory::new_lt, new_leq, new_eq, new_geq, new_gt on `lin` expressions
   (smt/DlDom.v), `new_distance from to d` the literal of `to - from <= d`, `bounds_lin`, `distance_lin` the queries (`equates` is modelled and
   compared differentially; no theorem here speaks of it).
   proofs/DlRelArith_Proofs.v: `lin_wf` (std::map: strictly increasing variables, no zero coefficient), `lin_eval x l` the value of an
   expression under a valuation, `rel_holds r a b` the relation r between two rationals. `good` is the invariant of C10
   (props/Properties_C10.v: it holds after every history); `models x s`: x satisfies every asserted difference constraint.
   Valuations: integers (IDL), rationals (RDL; a rational x(v) is the pair (x(v), 0) of Q x Q); x(0) = 0 is the origin. *)
From Coq Require Import List ZArith Arith Bool Qcanon.
From ORatio Require Import smt.DlDom smt.Dl smt.DlInst proofs.DlOrd_Proofs proofs.DlGraph_Proofs proofs.DlSpec_Proofs
  proofs.DlCreate_Proofs proofs.DlHist_Proofs proofs.DlThm_Proofs proofs.DlIdl_Proofs proofs.DlRdl_Proofs proofs.DlRelArith_Proofs
  proofs.DlRelThm_Proofs.
Import ListNotations.
Local Open Scope nat_scope.

(* ---------------------------------------------------------------------------------------------- *)
(* new_distance: FALSE_lit / TRUE_lit only when the distances decide the constraint for every model of the network,
   otherwise a fresh literal registered with exactly (from, to, d) *)
Theorem C12_idl_new_distance_meaning : forall sat (s : state Z) f t d gd s' l,
  good Zog Z (idl_dom sat) (idl_spec sat) s -> wt (idl_spec sat) d gd -> f < n_vars s -> t < n_vars s ->
  new_distance Z (idl_dom sat) s f t d = (s', RLit l) -> fault s' = 0 ->
  good Zog Z (idl_dom sat) (idl_spec sat) s' /\
  ((l = FALSE_lit /\ s' = s /\ forall x, models Zog Z (idl_dom sat) (idl_spec sat) x s -> ~ csat Zog x f t gd) \/
   (l = TRUE_lit /\ s' = s /\ forall x, models Zog Z (idl_dom sat) (idl_spec sat) x s -> csat Zog x f t gd) \/
   (l = (length (assigns s), true) /\ 0 < length (assigns s) /\
    vd_find (length (assigns s)) (var_dists s') = Some (mkcstr f t d) /\ vd_find (length (assigns s)) (var_dists s) = None /\
    value_var s' (length (assigns s)) = LU /\
    (forall e, edges Zog Z (idl_dom sat) (idl_spec sat) s' e <-> edges Zog Z (idl_dom sat) (idl_spec sat) s e))).
Proof. exact (fun sat => new_distance_meaning Zog Z (idl_dom sat) (idl_spec sat)). Qed.
Print Assumptions C12_idl_new_distance_meaning.

Theorem C12_rdl_new_distance_meaning : forall guard (s : state qd) f t d gd s' l,
  good QDog qd (rdl_dom guard) (rdl_spec guard) s -> wt (rdl_spec guard) d gd -> f < n_vars s -> t < n_vars s ->
  new_distance qd (rdl_dom guard) s f t d = (s', RLit l) -> fault s' = 0 ->
  good QDog qd (rdl_dom guard) (rdl_spec guard) s' /\
  ((l = FALSE_lit /\ s' = s /\ forall x, models QDog qd (rdl_dom guard) (rdl_spec guard) x s -> ~ csat QDog x f t gd) \/
   (l = TRUE_lit /\ s' = s /\ forall x, models QDog qd (rdl_dom guard) (rdl_spec guard) x s -> csat QDog x f t gd) \/
   (l = (length (assigns s), true) /\ 0 < length (assigns s) /\
    vd_find (length (assigns s)) (var_dists s') = Some (mkcstr f t d) /\ vd_find (length (assigns s)) (var_dists s) = None /\
    value_var s' (length (assigns s)) = LU /\
    (forall e, edges QDog qd (rdl_dom guard) (rdl_spec guard) s' e <-> edges QDog qd (rdl_dom guard) (rdl_spec guard) s e))).
Proof. exact (fun guard => new_distance_meaning QDog qd (rdl_dom guard) (rdl_spec guard)). Qed.
Print Assumptions C12_rdl_new_distance_meaning.

(* ---------------------------------------------------------------------------------------------- *)
(* the case analysis of new_lt ... new_gt: a constant answer, invalid_argument, ONE new_distance whose constraint is equivalent
   to the relation for every valuation with x(0) = 0, or (for =) new_eq_vars whose two constraints are equivalent to it *)
Theorem C12_idl_relation_cases : forall sat (s : state Z) r left right, lin_wf left -> lin_wf right ->
  (exists tr : bool, new_rel Z (idl_dom sat) s r left right = (s, RLit (if tr then TRUE_lit else FALSE_lit), []) /\
     forall x, (rel_holds r (lin_eval (xq x) left) (lin_eval (xq x) right) <-> tr = true))
  \/ new_rel Z (idl_dom sat) s r left right = (s, RErr, [])
  \/ (r <> REq /\ exists a b d,
        new_rel Z (idl_dom sat) s r left right = (let (s1, r1) := new_distance Z (idl_dom sat) s a b d in (s1, r1, [])) /\
        forall x, x 0%nat = 0%Z ->
          (rel_holds r (lin_eval (xq x) left) (lin_eval (xq x) right) <-> csat_idl x a b d))
  \/ (r = REq /\ exists vp vm k,
        new_rel Z (idl_dom sat) s r left right = new_eq_vars Z (idl_dom sat) s vp vm k /\
        forall x, x 0%nat = 0%Z ->
          (rel_holds REq (lin_eval (xq x) left) (lin_eval (xq x) right) <-> csat_idl x vp vm k /\ csat_idl x vm vp (- k))).
Proof. exact idl_new_rel_cases. Qed.
Print Assumptions C12_idl_relation_cases.

Theorem C12_rdl_relation_cases : forall guard (s : state qd) r left right, lin_wf left -> lin_wf right ->
  (exists tr : bool, new_rel qd (rdl_dom guard) s r left right = (s, RLit (if tr then TRUE_lit else FALSE_lit), []) /\
     forall x, (rel_holds r (lin_eval x left) (lin_eval x right) <-> tr = true))
  \/ new_rel qd (rdl_dom guard) s r left right = (s, RErr, [])
  \/ (r <> REq /\ exists a b d,
        new_rel qd (rdl_dom guard) s r left right = (let (s1, r1) := new_distance qd (rdl_dom guard) s a b d in (s1, r1, [])) /\
        forall x, x 0%nat = qc0 ->
          (rel_holds r (lin_eval x left) (lin_eval x right) <-> csat_rdl x a b d))
  \/ (r = REq /\ exists vp vm k,
        new_rel qd (rdl_dom guard) s r left right = new_eq_vars qd (rdl_dom guard) s vp vm k /\
        forall x, x 0%nat = qc0 ->
          (rel_holds REq (lin_eval x left) (lin_eval x right) <->
           csat_rdl x vp vm k /\ csat_rdl x vm vp (dneg (rdl_dom guard) k))).
Proof. exact rdl_new_rel_cases. Qed.
Print Assumptions C12_rdl_relation_cases.

(* ---------------------------------------------------------------------------------------------- *)
(* the literal of <, <=, >=, > on a good state: TRUE / FALSE only when every model of the network decides the relation,
   otherwise a fresh literal whose registered constraint holds exactly when the relation holds *)
Theorem C12_idl_relation_literal : forall sat (s : state Z) r left right s' l ev,
  good Zog Z (idl_dom sat) (idl_spec sat) s -> lin_wf left -> lin_wf right -> r <> REq ->
  new_rel Z (idl_dom sat) s r left right = (s', RLit l, ev) -> fault s' = 0 ->
  (forall a b d, new_rel Z (idl_dom sat) s r left right = (let (s1, r1) := new_distance Z (idl_dom sat) s a b d in (s1, r1, [])) ->
                 dwok (idl_dom sat) d = true) ->
  good Zog Z (idl_dom sat) (idl_spec sat) s' /\
  ((l = TRUE_lit /\ forall x, x 0 = 0%Z -> models Zog Z (idl_dom sat) (idl_spec sat) x s ->
                     rel_holds r (lin_eval (xq x) left) (lin_eval (xq x) right)) \/
   (l = FALSE_lit /\ forall x, x 0 = 0%Z -> models Zog Z (idl_dom sat) (idl_spec sat) x s ->
                     ~ rel_holds r (lin_eval (xq x) left) (lin_eval (xq x) right)) \/
   (exists a b d, l = (length (assigns s), true) /\ 0 < length (assigns s) /\
      vd_find (length (assigns s)) (var_dists s') = Some (mkcstr a b d) /\ vd_find (length (assigns s)) (var_dists s) = None /\
      forall x, x 0 = 0%Z -> (rel_holds r (lin_eval (xq x) left) (lin_eval (xq x) right) <-> (x b - x a <= d)%Z))).
Proof. exact idl_relation_literal. Qed.
Print Assumptions C12_idl_relation_literal.

Theorem C12_rdl_relation_literal : forall guard (s : state qd) r left right s' l ev,
  good QDog qd (rdl_dom guard) (rdl_spec guard) s -> lin_wf left -> lin_wf right -> r <> REq ->
  new_rel qd (rdl_dom guard) s r left right = (s', RLit l, ev) -> fault s' = 0 ->
  (forall a b d, new_rel qd (rdl_dom guard) s r left right = (let (s1, r1) := new_distance qd (rdl_dom guard) s a b d in (s1, r1, [])) ->
                 dwok (rdl_dom guard) d = true) ->
  good QDog qd (rdl_dom guard) (rdl_spec guard) s' /\
  ((l = TRUE_lit /\ forall x, x 0 = qc0 -> models QDog qd (rdl_dom guard) (rdl_spec guard) (qval x) s ->
                     rel_holds r (lin_eval x left) (lin_eval x right)) \/
   (l = FALSE_lit /\ forall x, x 0 = qc0 -> models QDog qd (rdl_dom guard) (rdl_spec guard) (qval x) s ->
                     ~ rel_holds r (lin_eval x left) (lin_eval x right)) \/
   (exists a b d, l = (length (assigns s), true) /\ 0 < length (assigns s) /\
      vd_find (length (assigns s)) (var_dists s') = Some (mkcstr a b d) /\ vd_find (length (assigns s)) (var_dists s) = None /\
      forall x, x 0 = qc0 -> (rel_holds r (lin_eval x left) (lin_eval x right) <-> csat_rdl x a b d))).
Proof. exact rdl_relation_literal. Qed.
Print Assumptions C12_rdl_relation_literal.

(* new_eq: a constant; or FALSE when the distances exclude the equality; or sat_core::new_conj of the literals of the two
   constraints  to - from <= k  and  from - to <= -k  that together are equivalent to the equality *)
Theorem C12_idl_eq_literal : forall sat (s : state Z) left right s' l ev,
  good Zog Z (idl_dom sat) (idl_spec sat) s -> lin_wf left -> lin_wf right ->
  new_rel Z (idl_dom sat) s REq left right = (s', RLit l, ev) -> fault s' = 0 ->
  (forall vp vm k, new_rel Z (idl_dom sat) s REq left right = new_eq_vars Z (idl_dom sat) s vp vm k -> dwok (idl_dom sat) k = true) ->
  good Zog Z (idl_dom sat) (idl_spec sat) s' /\
  ((exists tr : bool, l = (if tr then TRUE_lit else FALSE_lit) /\ s' = s /\
      forall x, (rel_holds REq (lin_eval (xq x) left) (lin_eval (xq x) right) <-> tr = true)) \/
   (exists vp vm k,
      (forall x, x 0 = 0%Z -> (rel_holds REq (lin_eval (xq x) left) (lin_eval (xq x) right) <-> (x vm - x vp <= k)%Z /\ (x vp - x vm <= - k)%Z)) /\
      ((l = FALSE_lit /\ s' = s /\ forall x, x 0 = 0%Z -> models Zog Z (idl_dom sat) (idl_spec sat) x s ->
                                     ~ rel_holds REq (lin_eval (xq x) left) (lin_eval (xq x) right)) \/
       (exists s1 l1 s2 l2,
          new_distance Z (idl_dom sat) s vp vm k = (s1, RLit l1) /\ new_distance Z (idl_dom sat) s1 vm vp (- k)%Z = (s2, RLit l2) /\
          new_conj2 Z s2 l1 l2 = (s', l, ev) /\ good Zog Z (idl_dom sat) (idl_spec sat) s1 /\ good Zog Z (idl_dom sat) (idl_spec sat) s2)))).
Proof. exact idl_eq_literal. Qed.
Print Assumptions C12_idl_eq_literal.

Theorem C12_rdl_eq_literal : forall guard (s : state qd) left right s' l ev,
  good QDog qd (rdl_dom guard) (rdl_spec guard) s -> lin_wf left -> lin_wf right ->
  new_rel qd (rdl_dom guard) s REq left right = (s', RLit l, ev) -> fault s' = 0 ->
  (forall vp vm k, new_rel qd (rdl_dom guard) s REq left right = new_eq_vars qd (rdl_dom guard) s vp vm k -> dwok (rdl_dom guard) k = true) ->
  good QDog qd (rdl_dom guard) (rdl_spec guard) s' /\
  ((exists tr : bool, l = (if tr then TRUE_lit else FALSE_lit) /\ s' = s /\
      forall x, (rel_holds REq (lin_eval x left) (lin_eval x right) <-> tr = true)) \/
   (exists vp vm k,
      (forall x, x 0 = qc0 -> (rel_holds REq (lin_eval x left) (lin_eval x right) <-> csat_rdl x vp vm k /\ csat_rdl x vm vp (dneg (rdl_dom guard) k))) /\
      ((l = FALSE_lit /\ s' = s /\ forall x, x 0 = qc0 -> models QDog qd (rdl_dom guard) (rdl_spec guard) (qval x) s ->
                                     ~ rel_holds REq (lin_eval x left) (lin_eval x right)) \/
       (exists s1 l1 s2 l2,
          new_distance qd (rdl_dom guard) s vp vm k = (s1, RLit l1) /\ new_distance qd (rdl_dom guard) s1 vm vp (dneg (rdl_dom guard) k) = (s2, RLit l2) /\
          new_conj2 qd s2 l1 l2 = (s', l, ev) /\ good QDog qd (rdl_dom guard) (rdl_spec guard) s1 /\ good QDog qd (rdl_dom guard) (rdl_spec guard) s2)))).
Proof. exact rdl_eq_literal. Qed.
Print Assumptions C12_rdl_eq_literal.

(* ---------------------------------------------------------------------------------------------- *)
(* queries on expressions: bounds(c*x + k), bounds(c*(x - y) + k) are the exact images of the variable-level intervals
   (both signs of c); distance(e1, e2) is by definition bounds(e2 - e1) *)
Theorem C12_rdl_bounds_one_variable : forall guard (s : state qd) v c k, c <> 0%Qc ->
  let lb := dneg (rdl_dom guard) (Dl.dget qd (rdl_dom guard) s v 0) in
  let ub := Dl.dget qd (rdl_dom guard) s 0 v in
  let lo := dimg (rdl_dom guard) (if qc_ltb c qc0 then ub else lb) c (qd_of_q k) in
  let hi := dimg (rdl_dom guard) (if qc_ltb c qc0 then lb else ub) c (qd_of_q k) in
  bounds_var qd (rdl_dom guard) s v = RPair lb ub /\
  bounds_lin qd (rdl_dom guard) s ([(v, c)], k) = RPair lo hi /\
  (forall t, qd_in lb ub t <-> qd_in lo hi (c * t + k)%Qc) /\
  (forall x, x 0%nat = qc0 -> (qd_in lb ub (x v - x 0%nat)%Qc <-> qd_in lo hi (lin_eval x ([(v, c)], k)))).
Proof. exact rdl_bounds_lin_1. Qed.
Print Assumptions C12_rdl_bounds_one_variable.

Theorem C12_rdl_bounds_two_variables : forall guard (s : state qd) v0 c0 v1 c1 k, c0 <> 0%Qc -> qc_eqb (c1 / c0)%Qc qcm1 = true ->
  let lb := dneg (rdl_dom guard) (Dl.dget qd (rdl_dom guard) s v0 v1) in
  let ub := Dl.dget qd (rdl_dom guard) s v1 v0 in
  let lo := dimg (rdl_dom guard) (if qc_ltb c0 qc0 then ub else lb) c0 (qd_of_q k) in
  let hi := dimg (rdl_dom guard) (if qc_ltb c0 qc0 then lb else ub) c0 (qd_of_q k) in
  distance_var qd (rdl_dom guard) s v1 v0 = RPair lb ub /\
  bounds_lin qd (rdl_dom guard) s ([(v0, c0); (v1, c1)], k) = RPair lo hi /\
  (forall t, qd_in lb ub t <-> qd_in lo hi (c0 * t + k)%Qc) /\
  (forall x, qd_in lb ub (x v0 - x v1)%Qc <-> qd_in lo hi (lin_eval x ([(v0, c0); (v1, c1)], k))).
Proof. exact rdl_bounds_lin_2. Qed.
Print Assumptions C12_rdl_bounds_two_variables.

Theorem C12_idl_bounds_image : forall sat (lb ub : Z) (c k : Qc),
  qc_is_int c = true -> qc_is_int k = true -> qc_num c <> 0%Z ->
  let ng := qc_ltb c qc0 in
  let lo := idl_img sat (if ng then ub else lb) c (qc_num k) in
  let hi := idl_img sat (if ng then lb else ub) c (qc_num k) in
  ((- INF < lb)%Z -> (lb < INF)%Z -> (- INF < ub)%Z -> (ub < INF)%Z ->
     lo = ((if ng then ub else lb) * qc_num c + qc_num k)%Z /\ hi = ((if ng then lb else ub) * qc_num c + qc_num k)%Z /\
     forall t : Z, (lb <= t <= ub)%Z -> (lo <= qc_num c * t + qc_num k <= hi)%Z) /\
  (sat = true -> (ub = INF -> if ng then lo = (- INF)%Z else hi = INF) /\ (lb = (- INF)%Z -> if ng then hi = INF else lo = (- INF)%Z)).
Proof. exact idl_bounds_lin_image. Qed.
Print Assumptions C12_idl_bounds_image.

Theorem C12_idl_bounds_one_variable : forall sat (s : state Z) v c k, qc_is_int c = true -> qc_is_int k = true ->
  bounds_lin Z (idl_dom sat) s ([(v, c)], k) =
  RPair (idl_img sat (if qc_ltb c qc0 then Dl.dget Z (idl_dom sat) s 0 v else (- Dl.dget Z (idl_dom sat) s v 0)%Z) c (qc_num k))
        (idl_img sat (if qc_ltb c qc0 then (- Dl.dget Z (idl_dom sat) s v 0)%Z else Dl.dget Z (idl_dom sat) s 0 v) c (qc_num k)) /\
  bounds_var Z (idl_dom sat) s v = RPair (- Dl.dget Z (idl_dom sat) s v 0)%Z (Dl.dget Z (idl_dom sat) s 0 v).
Proof. exact idl_bounds_lin_1. Qed.
Print Assumptions C12_idl_bounds_one_variable.

Theorem C12_idl_bounds_two_variables : forall sat (s : state Z) v0 c0 v1 c1 k,
  qc_eqb (c1 / c0)%Qc qcm1 = true -> qc_is_int c0 = true -> qc_is_int k = true ->
  bounds_lin Z (idl_dom sat) s ([(v0, c0); (v1, c1)], k) =
  RPair (idl_img sat (if qc_ltb c0 qc0 then Dl.dget Z (idl_dom sat) s v1 v0 else (- Dl.dget Z (idl_dom sat) s v0 v1)%Z) c0 (qc_num k))
        (idl_img sat (if qc_ltb c0 qc0 then (- Dl.dget Z (idl_dom sat) s v0 v1)%Z else Dl.dget Z (idl_dom sat) s v1 v0) c0 (qc_num k)) /\
  distance_var Z (idl_dom sat) s v1 v0 = RPair (- Dl.dget Z (idl_dom sat) s v0 v1)%Z (Dl.dget Z (idl_dom sat) s v1 v0).
Proof. exact idl_bounds_lin_2. Qed.
Print Assumptions C12_idl_bounds_two_variables.

(* distance(from, to) between expressions is the interval of to - from *)
Theorem C12_distance_is_bounds_of_difference : forall D (dm : dom D) (s : state D) from to,
  distance_lin D dm s from to = bounds_lin D dm s (lin_sub to from).
Proof. exact (fun D dm s from to => eq_refl). Qed.
Print Assumptions C12_distance_is_bounds_of_difference.

(* the hypotheses are satisfiable: x1 < x2 + 3 on a fresh integer network gives a fresh literal for x1 - x2 <= 2 *)
Example C12_idl_example :
  let s := Dl.run Z (idl_dom false) (idl_init false 5) [ONewVar Z; ONewVar Z] in
  exists s', new_rel Z (idl_dom false) s RLt ([(1, qc1)], qc0) ([(2, qc1)], qc_of_Z 3) = (s', RLit (1, true), []) /\
             vd_find 1 (var_dists s') = Some (mkcstr 2 1 2%Z) /\ fault s' = 0.
Proof. eexists. vm_compute. repeat split. Qed.
