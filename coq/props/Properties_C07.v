(* Property C07 -- the constraint network only infers what is entailed.
   Model: smt/SatCore.v (faithful functional sat_core; theory, std::sort and fuel are parameters).
   Every theorem quantifies over ALL operation histories [ops] that respect the documented preconditions
   ([run_ok], the asserts of sat_core.cpp) and in which the model never raised its [ub] flag (C++ undefined
   behaviour / corrupted watch lists; that side condition is itself a theorem, see C07_no_undefined_behaviour_* below),
   over every sort function that returns a sorted permutation and every theory meeting [theory_contract].
   [axioms (log s)] = clauses given to new_clause + the constant "variable 0 is false" + the no-goods of next();
   for histories without next() it is exactly the added clauses (C07_no_next_axioms_are_added_clauses). *)
From Coq Require Import List Arith Bool ZArith Permutation Sorted.
From ORatio Require Import smt.SatCoreBase smt.SatCoreSpec smt.SatCore smt.Rup
  proofs.SatCoreInv_Proofs proofs.SatCoreRun_Proofs proofs.SatCoreLog_Proofs proofs.SatCoreThm_Proofs proofs.SatCoreDb_Proofs proofs.SatCoreNoUb_Proofs proofs.SatCoreWl_Proofs proofs.SatCoreWlRun_Proofs proofs.SatCoreWlThm_Proofs proofs.SatCoreWlEx_Proofs proofs.Rup_Proofs.
From ORatio Require Import proofs.SatCoreGuard_Proofs.
From ORatio Require smt.Dl proofs.DlGuardChk_Proofs proofs.SatCoreDl_Proofs.
Import ListNotations.

(* (i) every value reported is a consequence of the axioms, the theory and the standing decisions *)
Theorem C07_true_values_are_entailed :
  forall (TS : Type) (T : asg -> Prop) sort thp thc (thpush thpop : TS -> TS) FUEL,
  sort_contract sort -> theory_contract T thp thc ->
  forall ops ts, run_ok sort thp thc thpush thpop FUEL ops (init ts) = true ->
  ub (run sort thp thc thpush thpop FUEL ops (init ts)) = false ->
  forall p, value_lit (run sort thp thc thpush thpop FUEL ops (init ts)) p = LT ->
  entails T (axioms (log (run sort thp thc thpush thpop FUEL ops (init ts))) ++
             units (decisions (run sort thp thc thpush thpop FUEL ops (init ts)))) [p].
Proof. exact @c07_values. Qed.
Print Assumptions C07_true_values_are_entailed.

Theorem C07_false_values_are_entailed :
  forall (TS : Type) (T : asg -> Prop) sort thp thc (thpush thpop : TS -> TS) FUEL,
  sort_contract sort -> theory_contract T thp thc ->
  forall ops ts, run_ok sort thp thc thpush thpop FUEL ops (init ts) = true ->
  ub (run sort thp thc thpush thpop FUEL ops (init ts)) = false ->
  forall p, value_lit (run sort thp thc thpush thpop FUEL ops (init ts)) p = LF ->
  entails T (axioms (log (run sort thp thc thpush thpop FUEL ops (init ts))) ++
             units (decisions (run sort thp thc thpush thpop FUEL ops (init ts)))) [lneg p].
Proof. exact @c07_false_values. Qed.
Print Assumptions C07_false_values_are_entailed.

Theorem C07_root_values_follow_from_axioms_alone :
  forall (TS : Type) (T : asg -> Prop) sort thp thc (thpush thpop : TS -> TS) FUEL,
  sort_contract sort -> theory_contract T thp thc ->
  forall ops ts, run_ok sort thp thc thpush thpop FUEL ops (init ts) = true ->
  ub (run sort thp thc thpush thpop FUEL ops (init ts)) = false ->
  root_level (run sort thp thc thpush thpop FUEL ops (init ts)) = true ->
  forall p, value_lit (run sort thp thc thpush thpop FUEL ops (init ts)) p = LT ->
  entails T (axioms (log (run sort thp thc thpush thpop FUEL ops (init ts)))) [p].
Proof. exact @c07_root_values. Qed.
Print Assumptions C07_root_values_follow_from_axioms_alone.

(* reasons are stored clauses headed by the implied literal, unit under the earlier trail, and entailed *)
Theorem C07_reasons_are_unit_clauses_of_the_database :
  forall (TS : Type) (T : asg -> Prop) sort thp thc (thpush thpop : TS -> TS) FUEL,
  sort_contract sort -> theory_contract T thp thc ->
  forall ops ts, run_ok sort thp thc thpush thpop FUEL ops (init ts) = true ->
  ub (run sort thp thc thpush thpop FUEL ops (init ts)) = false ->
  forall pre q suf c, trail (run sort thp thc thpush thpop FUEL ops (init ts)) = pre ++ q :: suf ->
  nth (fst q) (reason (run sort thp thc thpush thpop FUEL ops (init ts))) None = Some c ->
  exists rest, lits_of (run sort thp thc thpush thpop FUEL ops (init ts)) c = q :: rest /\
    (forall r, In r rest -> In (lneg r) suf \/ r = FALSE_lit) /\
    entails T (axioms (log (run sort thp thc thpush thpop FUEL ops (init ts))))
              (lits_of (run sort thp thc thpush thpop FUEL ops (init ts)) c).
Proof. exact @c07_reasons. Qed.
Print Assumptions C07_reasons_are_unit_clauses_of_the_database.

(* (ii) resolution soundness: every learnt clause (first UIP; hook kind 0) follows from the axioms logged before it *)
Theorem C07_learnt_clauses_are_entailed :
  forall (TS : Type) (T : asg -> Prop) sort thp thc (thpush thpop : TS -> TS) FUEL,
  sort_contract sort -> theory_contract T thp thc ->
  forall ops ts, run_ok sort thp thc thpush thpop FUEL ops (init ts) = true ->
  ub (run sort thp thc thpush thpop FUEL ops (init ts)) = false ->
  forall post c pre, log (run sort thp thc thpush thpop FUEL ops (init ts)) = post ++ (0, c) :: pre ->
  entails T (axioms pre) c.
Proof. exact @c07_learnt. Qed.
Print Assumptions C07_learnt_clauses_are_entailed.

Theorem C07_database_clauses_are_entailed :
  forall (TS : Type) (T : asg -> Prop) sort thp thc (thpush thpop : TS -> TS) FUEL,
  sort_contract sort -> theory_contract T thp thc ->
  forall ops ts, run_ok sort thp thc thpush thpop FUEL ops (init ts) = true ->
  ub (run sort thp thc thpush thpop FUEL ops (init ts)) = false ->
  forall c, In c (constrs (run sort thp thc thpush thpop FUEL ops (init ts))) ->
  c < length (cls (run sort thp thc thpush thpop FUEL ops (init ts))) ->
  entails T (axioms (log (run sort thp thc thpush thpop FUEL ops (init ts))))
            (lits_of (run sort thp thc thpush thpop FUEL ops (init ts)) c).
Proof. exact @c07_database. Qed.
Print Assumptions C07_database_clauses_are_entailed.

(* the no-good recorded by next() is NOT a consequence of the clauses: it is exactly the negation of the standing
   decisions (most recent first), logged with kind 1 and counted among the axioms from then on *)
Theorem C07_next_records_the_negated_decisions :
  forall (TS : Type) sort thp thc (thpush thpop : TS -> TS) FUEL (s : @state TS), root_level s = false ->
  exists ext, log (fst (step sort thp thc thpush thpop FUEL s ONext)) = ext ++ (1, map lneg (decisions s)) :: log s /\
              kinds_in [0; 2; 3] ext.
Proof. exact @next_records_negated_decisions. Qed.
Print Assumptions C07_next_records_the_negated_decisions.

Theorem C07_no_next_axioms_are_added_clauses :
  forall (TS : Type) sort thp thc (thpush thpop : TS -> TS) FUEL ops ts, ~ In ONext ops ->
  axioms (log (run sort thp thc thpush thpop FUEL ops (init ts))) = added (log (run sort thp thc thpush thpop FUEL ops (init ts))).
Proof. exact @c07_no_next_axioms. Qed.
Print Assumptions C07_no_next_axioms_are_added_clauses.

(* (iii) `false` from new_clause / propagate / assume / simplify_db: the network is at root level and the axioms are
   unsatisfiable modulo T; `false` from next() above root level: the axioms including the new no-good are
   unsatisfiable; `false` from check(lits): axioms + standing decisions + lits are unsatisfiable modulo T *)
Theorem C07_false_answers_mean_unsatisfiable :
  forall (TS : Type) (T : asg -> Prop) sort thp thc (thpush thpop : TS -> TS) FUEL,
  sort_contract sort -> theory_contract T thp thc ->
  forall ops o ts, run_ok sort thp thc thpush thpop FUEL (ops ++ [o]) (init ts) = true ->
  forall s' r, step sort thp thc thpush thpop FUEL (run sort thp thc thpush thpop FUEL ops (init ts)) o = (s', r) ->
  ub s' = false -> answer_sound T (run sort thp thc thpush thpop FUEL ops (init ts)) o s' r.
Proof. exact @c07_answers. Qed.
Print Assumptions C07_false_answers_mean_unsatisfiable.

(* (iv) clause::simplify / clause::remove (the loop of simplify_db) keep the models of the database *)
Theorem C07_simplify_db_preserves_models :
  forall (TS : Type) (T : asg -> Prop) sort thp thc (thpush thpop : TS -> TS) FUEL,
  sort_contract sort -> theory_contract T thp thc ->
  forall ops ts, run_ok sort thp thc thpush thpop FUEL ops (init ts) = true ->
  ub (run sort thp thc thpush thpop FUEL ops (init ts)) = false ->
  forall a, models a (db_formula (simplify_loop (run sort thp thc thpush thpop FUEL ops (init ts))
                                                  (constrs (run sort thp thc thpush thpop FUEL ops (init ts))) [])) <->
            models a (db_formula (run sort thp thc thpush thpop FUEL ops (init ts))).
Proof. exact @c07_simplify_models. Qed.
Print Assumptions C07_simplify_db_preserves_models.

(* the contracts are met by what is extracted and compared with the C++: stable insertion sort, no theory *)
Theorem C07_extracted_instance_meets_the_contracts :
  sort_contract (@isort lit) /\ theory_contract no_theory nt_propagate nt_check.
Proof. exact (conj isort_contract no_theory_contract). Qed.
Print Assumptions C07_extracted_instance_meets_the_contracts.

(* K2: the RUP checker run on the clauses the real sat_core records *)
Theorem C07_rup_checker_sound : forall F C, rup F C = true -> forall a, models a F -> sat_clause a C.
Proof. exact rup_sound. Qed.
Print Assumptions C07_rup_checker_sound.
Theorem C07_nogood_shape_checker_exact : forall ds c, nogood_shape ds c = true <-> c = map lneg ds.
Proof. exact nogood_shape_spec. Qed.
Print Assumptions C07_nogood_shape_checker_exact.

(* no information is lost: whatever satisfies the root-level literals and the live clauses satisfies every axiom
   (with the soundness theorems above: database + root trail is EQUIVALENT to the axioms, after any history in which no
   operation has answered "inconsistent at root level") *)
Theorem C07_database_and_root_literals_imply_every_axiom :
  forall (TS : Type) (T : asg -> Prop) sort thp thc (thpush thpop : TS -> TS) FUEL,
  sort_contract sort -> theory_contract T thp thc ->
  forall ops o ts, run_ok sort thp thc thpush thpop FUEL (ops ++ [o]) (init ts) = true ->
  ub (run sort thp thc thpush thpop FUEL ops (init ts)) = false ->
  forall a, a 0 = false ->
  (forall q, In q (trail (run sort thp thc thpush thpop FUEL ops (init ts))) ->
             nth (fst q) (level (run sort thp thc thpush thpop FUEL ops (init ts))) 0 = 0 -> sat_lit a q) ->
  (forall c, In c (constrs (run sort thp thc thpush thpop FUEL ops (init ts))) ->
             sat_clause a (lits_of (run sort thp thc thpush thpop FUEL ops (init ts)) c)) ->
  models a (axioms (log (run sort thp thc thpush thpop FUEL ops (init ts)))).
Proof. exact @c07_database_complete. Qed.
Print Assumptions C07_database_and_root_literals_imply_every_axiom.

(* (v) the last sentence of the property: with nothing left to propagate and every variable assigned, every clause
   ever given to new_clause is satisfied.  PROVED IN FULL (no ub side condition, simplify_db included) for every network
   whose theory records no lemma and reports no conflict - in particular the propositional network, which is the
   instance the exact differential runs against the C++.  The proof carries the two-watched-literal invariant
   (proofs/SatCoreWl*_Proofs.v: every live clause is in exactly the watch lists of the negations of its first two
   literals, and a watched literal that is false, already propagated and not above the level in question has a true
   partner assigned no later) through new_var, new_clause, assume, propagate with conflict analysis and
   backjumping, pop, next, check and simplify_db.
   [sort_key_sorted] is what record() needs from std::sort when it orders a learnt clause by decision level. *)
Theorem C07_total_assignment_satisfies_added_clauses_when_theories_record_no_lemma :
  forall (TS : Type) (T : asg -> Prop) sort thp thc (thpush thpop : TS -> TS) FUEL,
  sort_contract sort ->
  (forall (key : lit -> nat) l, StronglySorted (fun a b => key b <= key a) (sort (fun a b => Nat.ltb (key b) (key a)) l)) ->
  theory_contract T thp thc ->
  (forall ts a dl p, snd (fst (thp ts a dl p)) = [] /\ snd (thp ts a dl p) = None) ->
  (forall ts a dl, snd (fst (thc ts a dl)) = [] /\ snd (thc ts a dl) = None) ->
  forall ops o ts, run_ok sort thp thc thpush thpop FUEL (ops ++ [o]) (init ts) = true ->
  prop_q (run sort thp thc thpush thpop FUEL ops (init ts)) = [] ->
  (forall v, v < nvars (run sort thp thc thpush thpop FUEL ops (init ts)) ->
             value_var (run sort thp thc thpush thpop FUEL ops (init ts)) v <> LU) ->
  forall c, In c (added (log (run sort thp thc thpush thpop FUEL ops (init ts)))) ->
  sat_clause (asg_of (run sort thp thc thpush thpop FUEL ops (init ts))) c.
Proof.
  exact (fun TS T sort thp thc thpush thpop FUEL Hs Hk Hth Hqp _ =>
           c07_total_assignment_lemmas T sort thp thc thpush thpop FUEL Hs Hk Hth (quiet_lemmas_wl T thp Hqp)).
Qed.
Print Assumptions C07_total_assignment_satisfies_added_clauses_when_theories_record_no_lemma.

(* the same for the extracted instance (insertion sort, no theory), hypotheses discharged *)
Theorem C07_total_assignment_satisfies_added_clauses_propositional :
  forall fuel ops o,
  let s := run (@isort lit) nt_propagate nt_check nt_id nt_id fuel ops p_init in
  run_ok (@isort lit) nt_propagate nt_check nt_id nt_id fuel (ops ++ [o]) p_init = true ->
  prop_q s = [] -> (forall v, v < nvars s -> value_var s v <> LU) ->
  forall c, In c (added (log s)) -> sat_clause (asg_of s) c.
Proof. exact c07_total_assignment_propositional. Qed.
Print Assumptions C07_total_assignment_satisfies_added_clauses_propositional.

(* the invariant itself *)
Theorem C07_two_watched_literals_invariant_when_theories_record_no_lemma :
  forall (TS : Type) (T : asg -> Prop) sort thp thc (thpush thpop : TS -> TS) FUEL,
  sort_contract sort ->
  (forall (key : lit -> nat) l, StronglySorted (fun a b => key b <= key a) (sort (fun a b => Nat.ltb (key b) (key a)) l)) ->
  theory_contract T thp thc ->
  (forall ts a dl p, snd (fst (thp ts a dl p)) = [] /\ snd (thp ts a dl p) = None) ->
  (forall ts a dl, snd (fst (thc ts a dl)) = [] /\ snd (thc ts a dl) = None) ->
  forall ops o ts, run_ok sort thp thc thpush thpop FUEL (ops ++ [o]) (init ts) = true ->
  WL (decision_level (run sort thp thc thpush thpop FUEL ops (init ts))) None (run sort thp thc thpush thpop FUEL ops (init ts)).
Proof.
  exact (fun TS T sort thp thc thpush thpop FUEL Hs Hk Hth Hqp _ =>
           c07_watch_invariant_lemmas T sort thp thc thpush thpop FUEL Hs Hk Hth (quiet_lemmas_wl T thp Hqp)).
Qed.
Print Assumptions C07_two_watched_literals_invariant_when_theories_record_no_lemma.

(* for a theory that records lemmas but does NOT meet the extra clause lemmas_wl_ok of the theorems at the end of this file,
   (v) is proved with two extra hypotheses:
     ub s = false                                  (no dangling / corrupted watch was ever produced)
     every live clause has a true literal          (what quiescent propagation over a total assignment must establish)
   Both are checked on the real implementation by tools/checks/c07.py on every quiescent total assignment it reaches
   (K2: "full" - every clause ever added is evaluated directly). *)
Theorem C07_total_assignment_satisfies_added_clauses_partial :
  forall (TS : Type) (T : asg -> Prop) sort thp thc (thpush thpop : TS -> TS) FUEL,
  sort_contract sort -> theory_contract T thp thc ->
  forall ops o ts, run_ok sort thp thc thpush thpop FUEL (ops ++ [o]) (init ts) = true ->
  ub (run sort thp thc thpush thpop FUEL ops (init ts)) = false ->
  (forall c, In c (constrs (run sort thp thc thpush thpop FUEL ops (init ts))) ->
     exists l, In l (lits_of (run sort thp thc thpush thpop FUEL ops (init ts)) c) /\
               value_lit (run sort thp thc thpush thpop FUEL ops (init ts)) l = LT) ->
  forall c, In c (added (log (run sort thp thc thpush thpop FUEL ops (init ts)))) ->
  sat_clause (asg_of (run sort thp thc thpush thpop FUEL ops (init ts))) c.
Proof. exact @c07_total_assignment_satisfies_added_clauses_partial. Qed.
Print Assumptions C07_total_assignment_satisfies_added_clauses_partial.

(* the side condition `ub = false` of the theorems above is itself a THEOREM:
   (a) for every history, simplify_db included, when the theory records no lemma and reports no conflict: no operation
       reads back() of an empty vector, lits[0]/lits[1] of a too short clause, pops at root level, records an empty
       clause, and clause::simplify never drops a watched literal / clause::remove finds the clause in both of its watch
       lists and leaves no dangling watcher behind; *)
Theorem C07_no_undefined_behaviour_when_theories_record_no_lemma :
  forall (TS : Type) (T : asg -> Prop) sort thp thc (thpush thpop : TS -> TS) FUEL,
  sort_contract sort ->
  (forall (key : lit -> nat) l, StronglySorted (fun a b => key b <= key a) (sort (fun a b => Nat.ltb (key b) (key a)) l)) ->
  theory_contract T thp thc ->
  (forall ts a dl p, snd (fst (thp ts a dl p)) = [] /\ snd (thp ts a dl p) = None) ->
  (forall ts a dl, snd (fst (thc ts a dl)) = [] /\ snd (thc ts a dl) = None) ->
  forall ops ts, run_ok sort thp thc thpush thpop FUEL ops (init ts) = true ->
  ub (run sort thp thc thpush thpop FUEL ops (init ts)) = false.
Proof.
  exact (fun TS T sort thp thc thpush thpop FUEL Hs Hk Hth Hqp _ =>
           c07_no_ub_lemmas T sort thp thc thpush thpop FUEL Hs Hk Hth (quiet_lemmas_wl T thp Hqp)).
Qed.
Print Assumptions C07_no_undefined_behaviour_when_theories_record_no_lemma.

Theorem C07_no_undefined_behaviour_propositional :
  forall fuel ops, run_ok (@isort lit) nt_propagate nt_check nt_id nt_id fuel ops p_init = true ->
  ub (run (@isort lit) nt_propagate nt_check nt_id nt_id fuel ops p_init) = false.
Proof. exact c07_no_ub_propositional. Qed.
Print Assumptions C07_no_undefined_behaviour_propositional.

(* (b) for every theory meeting the contract, for every history that does not call simplify_db;
   (c) for every theory meeting the contract and lemmas_wl_ok, every history: C07_no_undefined_behaviour_with_theory_lemmas
       at the end of this file.  What is left open is exactly: simplify_db in a network whose theories record lemmas that
       violate lemmas_wl_ok (no such theory in /repo), and backtrack_analyze_and_backjump from outside propagation. *)
Theorem C07_no_ub_partial :
  forall (TS : Type) (T : asg -> Prop) sort thp thc (thpush thpop : TS -> TS) FUEL,
  sort_contract sort -> theory_contract T thp thc ->
  forall ops ts, ~ In OSimplify ops -> run_ok sort thp thc thpush thpop FUEL ops (init ts) = true ->
  ub (run sort thp thc thpush thpop FUEL ops (init ts)) = false.
Proof. exact @c07_no_ub_without_simplify. Qed.
Print Assumptions C07_no_ub_partial.

(* the flag is sticky: a run that ends with ub = false never passed through an anomaly *)
Theorem C07_ub_is_sticky :
  forall (TS : Type) sort thp thc (thpush thpop : TS -> TS) FUEL ops (s : @state TS),
  ub s = true -> ub (run sort thp thc thpush thpop FUEL ops s) = true.
Proof. exact @SatCoreUb_Proofs.run_ub. Qed.
Print Assumptions C07_ub_is_sticky.

(* ---------------------------------------------------------------------------------------------- *)
(* THEORIES THAT RECORD LEMMAS AND REPORT CONFLICTS.  The two-watched-literal invariant, (v) and the absence of undefined
   behaviour hold for every theory meeting theory_contract (lemmas T-valid, over existing variables, the other literals false;
   conflicts T-valid, all literals false, one of them of the current level; propagate(p) is asked about a literal p of the
   current level - it is the literal being dequeued) and ONE extra, named clause, lemmas_wl_ok (proofs/SatCoreWlRun_Proofs.v), on
   the lemmas recorded during one call of propagate(p):
     - the first literal is unassigned when the lemma is recorded      [sat_core::record: assert(value(lits[0]) == Undefined)],
       so the lemmas of one call propagate literals of different variables;
     - a lemma mentions a variable once                                [clause::new_clause watches lits[0], lits[1]];
     - one of the false literals was falsified at the current level    [in theory::propagate(p): !p; after the level-sort of
       sat_core::record it is lits[1], the second watch - otherwise the lemma would be unit below the current level without
       having been propagated there].
   The invariant survives theory::record (watches on lits[0], lits[1] after the sort: WL_record / WL_lemmas) and the
   theory-conflict backjump (queue flushed: WL_flush; analysis: WL_abr).  check() answering false because a theory conflict
   was reported with no decision standing counts as "definitely inconsistent" (dead_after / root_dead of smt/SatCore.v).
   Not covered by the histories of these theorems: theory::backtrack_analyze_and_backjump called from OUTSIDE propagation
   (ext_conflict in the model): exact differential + K2 judge only (probe theory of harness/h_sat.cpp). *)
Theorem C07_no_undefined_behaviour_with_theory_lemmas :
  forall (TS : Type) (T : asg -> Prop) sort thp thc (thpush thpop : TS -> TS) FUEL,
  sort_contract sort ->
  (forall (key : lit -> nat) l, StronglySorted (fun a b => key b <= key a) (sort (fun a b => Nat.ltb (key b) (key a)) l)) ->
  theory_contract T thp thc ->
  (forall (s : @state TS) p, Inv T s -> In p (trail s) -> nth (fst p) (level s) 0 = decision_level s ->
     lemmas_wl_ok s (snd (fst (thp (thst s) (assigns s) (decision_level s) p)))) ->
  forall ops ts, run_ok sort thp thc thpush thpop FUEL ops (init ts) = true ->
  ub (run sort thp thc thpush thpop FUEL ops (init ts)) = false.
Proof. exact @c07_no_ub_lemmas. Qed.
Print Assumptions C07_no_undefined_behaviour_with_theory_lemmas.

Theorem C07_two_watched_literals_invariant_with_theory_lemmas :
  forall (TS : Type) (T : asg -> Prop) sort thp thc (thpush thpop : TS -> TS) FUEL,
  sort_contract sort ->
  (forall (key : lit -> nat) l, StronglySorted (fun a b => key b <= key a) (sort (fun a b => Nat.ltb (key b) (key a)) l)) ->
  theory_contract T thp thc ->
  (forall (s : @state TS) p, Inv T s -> In p (trail s) -> nth (fst p) (level s) 0 = decision_level s ->
     lemmas_wl_ok s (snd (fst (thp (thst s) (assigns s) (decision_level s) p)))) ->
  forall ops o ts, run_ok sort thp thc thpush thpop FUEL (ops ++ [o]) (init ts) = true ->
  WL (decision_level (run sort thp thc thpush thpop FUEL ops (init ts))) None (run sort thp thc thpush thpop FUEL ops (init ts)).
Proof. exact @c07_watch_invariant_lemmas. Qed.
Print Assumptions C07_two_watched_literals_invariant_with_theory_lemmas.

Theorem C07_total_assignment_satisfies_added_clauses_with_theory_lemmas :
  forall (TS : Type) (T : asg -> Prop) sort thp thc (thpush thpop : TS -> TS) FUEL,
  sort_contract sort ->
  (forall (key : lit -> nat) l, StronglySorted (fun a b => key b <= key a) (sort (fun a b => Nat.ltb (key b) (key a)) l)) ->
  theory_contract T thp thc ->
  (forall (s : @state TS) p, Inv T s -> In p (trail s) -> nth (fst p) (level s) 0 = decision_level s ->
     lemmas_wl_ok s (snd (fst (thp (thst s) (assigns s) (decision_level s) p)))) ->
  forall ops o ts, run_ok sort thp thc thpush thpop FUEL (ops ++ [o]) (init ts) = true ->
  prop_q (run sort thp thc thpush thpop FUEL ops (init ts)) = [] ->
  (forall v, v < nvars (run sort thp thc thpush thpop FUEL ops (init ts)) ->
             value_var (run sort thp thc thpush thpop FUEL ops (init ts)) v <> LU) ->
  forall c, In c (added (log (run sort thp thc thpush thpop FUEL ops (init ts)))) ->
  sat_clause (asg_of (run sort thp thc thpush thpop FUEL ops (init ts))) c.
Proof. exact @c07_total_assignment_lemmas. Qed.
Print Assumptions C07_total_assignment_satisfies_added_clauses_with_theory_lemmas.

(* non-vacuity: the theory "x1 -> x2" (lemma (x2 \/ !x1) when x1 is propagated and x2 is open, the same clause as a conflict when
   x2 is false) meets theory_contract and the extra clause ... *)
Theorem C07_a_theory_with_lemmas_and_conflicts_meets_the_extended_contract :
  theory_contract imp_T imp_thp imp_thc /\
  (forall (s : @state unit) p, Inv imp_T s -> In p (trail s) -> nth (fst p) (level s) 0 = decision_level s ->
     lemmas_wl_ok s (snd (fst (imp_thp (thst s) (assigns s) (decision_level s) p)))).
Proof. exact (conj imp_contract imp_lemmas_wl). Qed.
Print Assumptions C07_a_theory_with_lemmas_and_conflicts_meets_the_extended_contract.
(* ... it does record the lemma and report the conflict ... *)
Example C07_the_theory_records_a_lemma :
  let ops := [ONewVar; ONewVar; ONewVar; ONewClause [(2, false); (3, true)]; OPropagate; OAssume (1, true)] in
  let s := run (@isort lit) imp_thp imp_thc (fun u => u) (fun u => u) 100 ops (init tt) in
  run_ok (@isort lit) imp_thp imp_thc (fun u => u) (fun u => u) 100 ops (init tt) = true /\
  In (2, imp_clause) (log s) /\ value_lit s (2, true) = LT /\ value_lit s (3, true) = LT /\ ub s = false.
Proof. exact imp_records_a_lemma. Qed.
Example C07_the_theory_reports_a_conflict :
  let ops := [ONewVar; ONewVar; ONewVar; ONewClause [(2, false)]; OPropagate; OAssume (1, true)] in
  let s := run (@isort lit) imp_thp imp_thc (fun u => u) (fun u => u) 100 ops (init tt) in
  run_ok (@isort lit) imp_thp imp_thc (fun u => u) (fun u => u) 100 ops (init tt) = true /\
  In (3, imp_clause) (log s) /\ In (0, [(1, false)]) (log s) /\ value_lit s (1, true) = LF /\ decision_level s = 0 /\ ub s = false.
Proof. exact imp_reports_a_conflict. Qed.
(* ... and the scripted probe theory of the differential records lemmas and conflicts on a concrete history *)
Example C07_the_probe_theory_records_a_lemma_and_reports_a_conflict :
  let ts := [(1, [(2, true); (1, false)]); (0, [(3, false); (1, false)])] in
  let ops := [ONewVar; ONewVar; ONewVar; OAssume (1, true); OPop; OAssume (3, true); OAssume (1, true)] in
  let s := run (@isort lit) pr_propagate pr_check pr_id pr_id 100 ops (init ts) in
  run_ok (@isort lit) pr_propagate pr_check pr_id pr_id 100 ops (init ts) = true /\
  In (2, [(2, true); (1, false)]) (log s) /\ In (3, [(3, false); (1, false)]) (log s) /\
  In (0, [(1, false); (3, false)]) (log s) /\ value_lit s (1, true) = LF /\ decision_level s = 1 /\ ub s = false.
Proof. exact probe_records_a_lemma_and_reports_a_conflict. Qed.

(* ---------------------------------------------------------------------------------------------- *)
(* THE CONTRACT RELATIVE TO A THEORY INVARIANT (proofs/SatCoreGuard_Proofs.v).  theory_contract asks lemma_ok / cnfl_ok for every
   sat state with Inv, whatever its theory state is; a theory with a real state cannot meet that.  A theory owner obtains a
   non-partial instance by proving, for his raw functions thp / thc / thpush / thpop, an invariant K of the theory state and
   decidable tests gp / gc between theory state and call arguments of his choice:
     (P1-P4) K preserved by thp under gp, thc under gc, thpush, thpop;
     (V1)    lemma_ok / cnfl_ok (th_result_ok) of thp's lemmas and conflict at every sat state s over the theory-state type
             { ts | K ts } with Inv T s, p on the trail at the current level, gp (state) (assigns s) (level) p = true;
     (V2)    the same for thc under gc, and thc records no lemma;
   the GUARDED theory w_thp / w_thc / w_thpush / w_thpop (answers like the raw one when the test succeeds, says nothing
   otherwise; its state carries K by typing) then meets the ABSOLUTE contract, and every theorem of this file applies to
   the network sat_core + guarded theory.  Not proved: that on reachable states the tests always succeed (guarded = raw);
   see the header of proofs/SatCoreGuard_Proofs.v for why that joint invariant was not threaded through the Inv development. *)
(* (V1), (V2) => theory_contract for the guarded theory *)
Theorem C07_contract_relative_to_a_theory_invariant_gives_the_contract :
  forall (TS : Type) (T : SatCoreBase.asg -> Prop)
           (thp : TS -> list SatCoreBase.lbool -> nat -> SatCoreBase.lit -> TS * list (list SatCoreBase.lit) * option (list SatCoreBase.lit))
           (thc : TS -> list SatCoreBase.lbool -> nat -> TS * list (list SatCoreBase.lit) * option (list SatCoreBase.lit)) (K : TS -> Prop)
           (gp : TS -> list SatCoreBase.lbool -> nat -> SatCoreBase.lit -> bool) (gc : TS -> list SatCoreBase.lbool -> nat -> bool)
           (K_p : forall (ts : TS) (a : list SatCoreBase.lbool) (dl : nat) (p : SatCoreBase.lit), K ts -> gp ts a dl p = true -> K (fst (fst (thp ts a dl p))))
           (K_c : forall (ts : TS) (a : list SatCoreBase.lbool) (dl : nat), K ts -> gc ts a dl = true -> K (fst (fst (thc ts a dl)))),
         (forall (s : @SatCore.state {ts : TS | K ts}) (p : SatCoreBase.lit),
          SatCoreInv_Proofs.Inv T s ->
          List.In p (SatCore.trail s) ->
          SatCoreAnalyze_Proofs.lvl s p = SatCore.decision_level s ->
          gp (proj1_sig (SatCore.thst s)) (SatCore.assigns s) (SatCore.decision_level s) p = true ->
          SatCoreRun_Proofs.th_result_ok T s
            (SatCore.thst s, snd (fst (thp (proj1_sig (SatCore.thst s)) (SatCore.assigns s) (SatCore.decision_level s) p)),
             snd (thp (proj1_sig (SatCore.thst s)) (SatCore.assigns s) (SatCore.decision_level s) p))) ->
         (forall s : @SatCore.state {ts : TS | K ts},
          SatCoreInv_Proofs.Inv T s ->
          gc (proj1_sig (SatCore.thst s)) (SatCore.assigns s) (SatCore.decision_level s) = true ->
          SatCoreRun_Proofs.th_result_ok T s
            (SatCore.thst s, snd (fst (thc (proj1_sig (SatCore.thst s)) (SatCore.assigns s) (SatCore.decision_level s))),
             snd (thc (proj1_sig (SatCore.thst s)) (SatCore.assigns s) (SatCore.decision_level s))) /\
          snd (fst (thc (proj1_sig (SatCore.thst s)) (SatCore.assigns s) (SatCore.decision_level s))) = nil) ->
         SatCoreThm_Proofs.theory_contract T (w_thp thp K gp K_p) (w_thc thc K gc K_c).
Proof. exact @w_contract. Qed.
Print Assumptions C07_contract_relative_to_a_theory_invariant_gives_the_contract.
(* values, reasons and learnt clauses are entailed, for the network sat_core + guarded theory *)
Theorem C07_soundness_core_under_the_relative_contract :
  forall (TS : Type) (T : SatCoreBase.asg -> Prop)
           (thp : TS -> list SatCoreBase.lbool -> nat -> SatCoreBase.lit -> TS * list (list SatCoreBase.lit) * option (list SatCoreBase.lit))
           (thc : TS -> list SatCoreBase.lbool -> nat -> TS * list (list SatCoreBase.lit) * option (list SatCoreBase.lit)) (thpush thpop : TS -> TS)
           (K : TS -> Prop) (gp : TS -> list SatCoreBase.lbool -> nat -> SatCoreBase.lit -> bool) (gc : TS -> list SatCoreBase.lbool -> nat -> bool)
           (K_p : forall (ts : TS) (a : list SatCoreBase.lbool) (dl : nat) (p : SatCoreBase.lit), K ts -> gp ts a dl p = true -> K (fst (fst (thp ts a dl p))))
           (K_c : forall (ts : TS) (a : list SatCoreBase.lbool) (dl : nat), K ts -> gc ts a dl = true -> K (fst (fst (thc ts a dl))))
           (K_push : forall ts : TS, K ts -> K (thpush ts)) (K_pop : forall ts : TS, K ts -> K (thpop ts)),
         (forall (s : @SatCore.state {ts : TS | K ts}) (p : SatCoreBase.lit),
          SatCoreInv_Proofs.Inv T s ->
          List.In p (SatCore.trail s) ->
          SatCoreAnalyze_Proofs.lvl s p = SatCore.decision_level s ->
          gp (proj1_sig (SatCore.thst s)) (SatCore.assigns s) (SatCore.decision_level s) p = true ->
          SatCoreRun_Proofs.th_result_ok T s
            (SatCore.thst s, snd (fst (thp (proj1_sig (SatCore.thst s)) (SatCore.assigns s) (SatCore.decision_level s) p)),
             snd (thp (proj1_sig (SatCore.thst s)) (SatCore.assigns s) (SatCore.decision_level s) p))) ->
         (forall s : @SatCore.state {ts : TS | K ts},
          SatCoreInv_Proofs.Inv T s ->
          gc (proj1_sig (SatCore.thst s)) (SatCore.assigns s) (SatCore.decision_level s) = true ->
          SatCoreRun_Proofs.th_result_ok T s
            (SatCore.thst s, snd (fst (thc (proj1_sig (SatCore.thst s)) (SatCore.assigns s) (SatCore.decision_level s))),
             snd (thc (proj1_sig (SatCore.thst s)) (SatCore.assigns s) (SatCore.decision_level s))) /\
          snd (fst (thc (proj1_sig (SatCore.thst s)) (SatCore.assigns s) (SatCore.decision_level s))) = nil) ->
         forall sort : (SatCoreBase.lit -> SatCoreBase.lit -> bool) -> list SatCoreBase.lit -> list SatCoreBase.lit,
         SatCoreThm_Proofs.sort_contract sort ->
         forall (FUEL : nat) (ops : list SatCore.op) (w0 : WS K),
         SatCore.run_ok sort (w_thp thp K gp K_p) (w_thc thc K gc K_c) (w_thpush thpush K K_push) (w_thpop thpop K K_pop) FUEL ops (SatCore.init w0) = true ->
         SatCore.ub (SatCore.run sort (w_thp thp K gp K_p) (w_thc thc K gc K_c) (w_thpush thpush K K_push) (w_thpop thpop K K_pop) FUEL ops (SatCore.init w0)) =
         false ->
         let s := SatCore.run sort (w_thp thp K gp K_p) (w_thc thc K gc K_c) (w_thpush thpush K K_push) (w_thpop thpop K K_pop) FUEL ops (SatCore.init w0) in
         SatCoreInv_Proofs.Inv T s /\
         (forall p : SatCoreBase.lit,
          SatCore.value_lit s p = SatCoreBase.LT ->
          SatCoreBase.entails T (SatCoreSpec.axioms (SatCore.log s) ++ SatCoreBase.units (SatCore.decisions s)) (p :: nil)%list) /\
         (forall p : SatCoreBase.lit,
          SatCore.value_lit s p = SatCoreBase.LF ->
          SatCoreBase.entails T (SatCoreSpec.axioms (SatCore.log s) ++ SatCoreBase.units (SatCore.decisions s)) (SatCoreBase.lneg p :: nil)%list) /\
         (forall (pre : list SatCoreBase.lit) (q : SatCoreBase.lit) (suf : list SatCoreBase.lit) (c : nat),
          SatCore.trail s = (pre ++ q :: suf)%list ->
          List.nth (fst q) (SatCore.reason s) None = Some c ->
          exists rest : list SatCoreBase.lit,
            SatCore.lits_of s c = (q :: rest)%list /\
            (forall r : SatCoreBase.lit, List.In r rest -> List.In (SatCoreBase.lneg r) suf \/ r = SatCoreBase.FALSE_lit) /\
            SatCoreBase.entails T (SatCoreSpec.axioms (SatCore.log s)) (SatCore.lits_of s c)) /\
         (forall (post : list (nat * list SatCoreBase.lit)) (c : list SatCoreBase.lit) (pre : list (nat * list SatCoreBase.lit)),
          SatCore.log s = (post ++ (0, c) :: pre)%list -> SatCoreBase.entails T (SatCoreSpec.axioms pre) c).
Proof. exact @w_soundness_core. Qed.
Print Assumptions C07_soundness_core_under_the_relative_contract.
(* no undefined behaviour when the lemmas also meet lemmas_wl_ok under the same premises (the ub premise above is then redundant) *)
Theorem C07_no_undefined_behaviour_under_the_relative_contract :
  forall (TS : Type) (T : SatCoreBase.asg -> Prop)
           (thp : TS -> list SatCoreBase.lbool -> nat -> SatCoreBase.lit -> TS * list (list SatCoreBase.lit) * option (list SatCoreBase.lit))
           (thc : TS -> list SatCoreBase.lbool -> nat -> TS * list (list SatCoreBase.lit) * option (list SatCoreBase.lit)) (thpush thpop : TS -> TS)
           (K : TS -> Prop) (gp : TS -> list SatCoreBase.lbool -> nat -> SatCoreBase.lit -> bool) (gc : TS -> list SatCoreBase.lbool -> nat -> bool)
           (K_p : forall (ts : TS) (a : list SatCoreBase.lbool) (dl : nat) (p : SatCoreBase.lit), K ts -> gp ts a dl p = true -> K (fst (fst (thp ts a dl p))))
           (K_c : forall (ts : TS) (a : list SatCoreBase.lbool) (dl : nat), K ts -> gc ts a dl = true -> K (fst (fst (thc ts a dl))))
           (K_push : forall ts : TS, K ts -> K (thpush ts)) (K_pop : forall ts : TS, K ts -> K (thpop ts)),
         (forall (s : @SatCore.state {ts : TS | K ts}) (p : SatCoreBase.lit),
          SatCoreInv_Proofs.Inv T s ->
          List.In p (SatCore.trail s) ->
          SatCoreAnalyze_Proofs.lvl s p = SatCore.decision_level s ->
          gp (proj1_sig (SatCore.thst s)) (SatCore.assigns s) (SatCore.decision_level s) p = true ->
          SatCoreRun_Proofs.th_result_ok T s
            (SatCore.thst s, snd (fst (thp (proj1_sig (SatCore.thst s)) (SatCore.assigns s) (SatCore.decision_level s) p)),
             snd (thp (proj1_sig (SatCore.thst s)) (SatCore.assigns s) (SatCore.decision_level s) p))) ->
         (forall s : @SatCore.state {ts : TS | K ts},
          SatCoreInv_Proofs.Inv T s ->
          gc (proj1_sig (SatCore.thst s)) (SatCore.assigns s) (SatCore.decision_level s) = true ->
          SatCoreRun_Proofs.th_result_ok T s
            (SatCore.thst s, snd (fst (thc (proj1_sig (SatCore.thst s)) (SatCore.assigns s) (SatCore.decision_level s))),
             snd (thc (proj1_sig (SatCore.thst s)) (SatCore.assigns s) (SatCore.decision_level s))) /\
          snd (fst (thc (proj1_sig (SatCore.thst s)) (SatCore.assigns s) (SatCore.decision_level s))) = nil) ->
         forall sort : (SatCoreBase.lit -> SatCoreBase.lit -> bool) -> list SatCoreBase.lit -> list SatCoreBase.lit,
         SatCoreThm_Proofs.sort_contract sort ->
         forall FUEL : nat,
         (forall (key : SatCoreBase.lit -> nat) (l : list SatCoreBase.lit),
          Sorted.StronglySorted (fun a b : SatCoreBase.lit => key b <= key a) (sort (fun a b : SatCoreBase.lit => PeanoNat.Nat.ltb (key b) (key a)) l)) ->
         (forall (s : @SatCore.state {ts : TS | K ts}) (p : SatCoreBase.lit),
          SatCoreInv_Proofs.Inv T s ->
          List.In p (SatCore.trail s) ->
          List.nth (fst p) (SatCore.level s) 0 = SatCore.decision_level s ->
          gp (proj1_sig (SatCore.thst s)) (SatCore.assigns s) (SatCore.decision_level s) p = true ->
          SatCoreWlRun_Proofs.lemmas_wl_ok s (snd (fst (thp (proj1_sig (SatCore.thst s)) (SatCore.assigns s) (SatCore.decision_level s) p)))) ->
         forall (ops : list SatCore.op) (w0 : WS K),
         SatCore.run_ok sort (w_thp thp K gp K_p) (w_thc thc K gc K_c) (w_thpush thpush K K_push) (w_thpop thpop K K_pop) FUEL ops (SatCore.init w0) = true ->
         SatCore.ub (SatCore.run sort (w_thp thp K gp K_p) (w_thc thc K gc K_c) (w_thpush thpush K K_push) (w_thpop thpop K K_pop) FUEL ops (SatCore.init w0)) =
         false.
Proof. exact @w_no_ub. Qed.
Print Assumptions C07_no_undefined_behaviour_under_the_relative_contract.

(* ---------------------------------------------------------------------------------------------- *)
(* The relative contract instantiated: sat_core + the GUARDED idl_theory (smt/DlAdapter.v, smt/DlGuard.v, proofs/SatCoreDl_Proofs.v;
   what the guard tests and why (V1) is the soundness of the certificate check is said in the header of Properties_C08.v).
   No hypothesis about the theory: after any history every value is entailed, modulo the integer models of the difference
   constraints VD0 (T = the assignments realised by an integer valuation of the time points), by the axioms and the standing
   decisions; reasons and learnt clauses are T-consequences of the axioms.  That the guard always succeeds on reachable states
   is the run-time obligation of the C10 tie (`dl:guard-failed`). *)
Theorem C07_idl_network_soundness_guarded :
  forall (sat : bool) (VD0 : list (nat * Dl.cstr Z)) sort, sort_contract sort -> forall FUEL ops w0,
  SatCore.run_ok sort (SatCoreDl_Proofs.idl_wthp sat VD0) (SatCoreDl_Proofs.idl_wthc VD0) (SatCoreDl_Proofs.idl_wpush VD0) (SatCoreDl_Proofs.idl_wpop sat VD0) FUEL ops (SatCore.init w0) = true ->
  SatCore.ub (SatCore.run sort (SatCoreDl_Proofs.idl_wthp sat VD0) (SatCoreDl_Proofs.idl_wthc VD0) (SatCoreDl_Proofs.idl_wpush VD0) (SatCoreDl_Proofs.idl_wpop sat VD0) FUEL ops (SatCore.init w0)) = false ->
  let s := SatCore.run sort (SatCoreDl_Proofs.idl_wthp sat VD0) (SatCoreDl_Proofs.idl_wthc VD0) (SatCoreDl_Proofs.idl_wpush VD0) (SatCoreDl_Proofs.idl_wpop sat VD0) FUEL ops (SatCore.init w0) in
  Inv (DlGuardChk_Proofs.idl_T VD0) s /\
  (forall p, value_lit s p = LT -> entails (DlGuardChk_Proofs.idl_T VD0) (axioms (log s) ++ units (decisions s)) [p]) /\
  (forall p, value_lit s p = LF -> entails (DlGuardChk_Proofs.idl_T VD0) (axioms (log s) ++ units (decisions s)) [lneg p]) /\
  (forall pre q suf c, trail s = pre ++ q :: suf -> nth (fst q) (reason s) None = Some c ->
     exists rest, lits_of s c = q :: rest /\ (forall r, In r rest -> In (lneg r) suf \/ r = FALSE_lit) /\
                  entails (DlGuardChk_Proofs.idl_T VD0) (axioms (log s)) (lits_of s c)) /\
  (forall post c pre, log s = post ++ (0, c) :: pre -> entails (DlGuardChk_Proofs.idl_T VD0) (axioms pre) c).
Proof. exact SatCoreDl_Proofs.idl_guarded_soundness. Qed.
Print Assumptions C07_idl_network_soundness_guarded.
