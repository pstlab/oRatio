(* C09: the theorems about check / propagate / bounds / pop, on top of the invariant (LraInv_Proofs.v). *)
From Coq Require Import QArith List Lia Lqa.
From ORatio Require Import smt.Lra smt.LraSem proofs.LraBase_Proofs proofs.LraTab_Proofs proofs.LraInv_Proofs.
Import ListNotations.
Local Open Scope Q_scope.
#[local] Arguments Qred : simpl never.
#[local] Arguments Qplus : simpl never.
#[local] Arguments Qmult : simpl never.
#[local] Arguments Qopp : simpl never.
#[local] Arguments Qminus : simpl never.
#[local] Arguments Qdiv : simpl never.
#[local] Arguments Qinv : simpl never.
#[local] Arguments Qeq_bool : simpl never.
#[local] Arguments Qle_bool : simpl never.

Lemma root_in_all s a : wf s -> In a (root_atoms s) -> In a (all_atoms s).
Proof.
  intros W H. unfold root_atoms, all_atoms in *. pose proof (stack_inv_trail_nonempty _ _ _ _ _ _ _ _ (wf_stack s W)) as NE.
  induction (trail s) as [| t ts IH]; [congruence |]. simpl. apply in_or_app. destruct ts as [| t2 ts2].
  - left. exact H.
  - right. apply IH; [exact H | congruence].
Qed.

(* the negation of the atom of a positive theory literal is the atom of the negative literal *)
Lemma asrt_atom_neg rho a : eps_ok a -> (~ sat_atom rho (asrt_atom a true) <-> sat_atom rho (asrt_atom a false)).
Proof.
  unfold eps_ok, asrt_atom. destruct (a_o a); destruct (a_v a) as [c k]; simpl; intro H.
  - apply not_upper_lower. exact H.
  - apply not_lower_upper. exact H.
Qed.

Lemma model_lit_atom s al rho a sg :
  wf s -> model s al rho -> In a (asrts s) -> lit_holds al (a_b a, sg) = true -> sat_atom rho (asrt_atom a sg).
Proof.
  intros W M Ha H. destruct (wf_asrts s W a Ha) as [_ [_ E]]. unfold lit_holds in H. simpl in H. destruct sg.
  - apply (m_asrts s al rho M a Ha). exact H.
  - apply asrt_atom_neg; auto. intro K. apply (m_asrts s al rho M a Ha) in K. rewrite K in H. discriminate.
Qed.

(* in a model, a bound whose reason literal holds is satisfied *)
Lemma reason_holds s al rho x d v :
  wf s -> model s al rho -> bval (cb s (idx x d)) = Some v -> lit_holds al (breason (cb s (idx x d))) = true -> sat_atom rho (x, d, v).
Proof.
  intros W M Hb Hr. destruct (wf_level s W) as [_ [G _]].
  destruct (G x d v Hb) as [[K1 K2] | [a [sg [K1 [K2 [K3 K4]]]]]].
  - apply K2; [exact (m_defs s al rho M) | exact (m_root s al rho M)].
  - rewrite K2 in Hr. rewrite <- K3. eapply model_lit_atom; eauto.
Qed.
Lemma lit_holds_neg al l : lit_holds al (lneg l) = negb (lit_holds al l).
Proof. unfold lit_holds, lneg. simpl. destruct (snd l); simpl; [reflexivity | rewrite negb_involutive; reflexivity]. Qed.
Lemma neg_false_holds al r : lit_holds al (lneg r) = false -> lit_holds al r = true.
Proof. rewrite lit_holds_neg. apply negb_false_iff. Qed.

Lemma model_rows s al rho : wf s -> model s al rho -> sat_rows (tableau s) rho.
Proof. intros W M. apply (wf_defs s W). exact (m_defs s al rho M). Qed.

Theorem bounds_contain_solutions s rho :
  wf s -> sat_defs (exprs s) rho -> (forall a, In a (all_atoms s) -> sat_atom rho a) -> sat_bounds (cb s) rho.
Proof.
  intros W D H x d v Hb. destruct (wf_level s W) as [_ [G _]].
  eapply (good_sound _ _ _ _ _ rho G); eauto. intros r Hr. apply H. apply root_in_all; auto.
Qed.
Theorem bounds_tightest s x d b :
  wf s -> In (x, d, b) (all_atoms s) -> exists v, bval (cb s (idx x d)) = Some v /\ tighter d b v.
Proof. intros W H. destruct (wf_level s W) as [_ [_ [V _]]]. apply V. exact H. Qed.
Theorem bounds_consistent s x l u : wf s -> lbv s x = Some l -> ubv s x = Some u -> qd_le l u.
Proof. intros W. destruct (wf_level s W) as [C _]. apply C. Qed.

Lemma check_sat_final fuel s s' : check fuel s = (s', CSat) -> find_violated s' (tableau s') = None.
Proof.
  intro H. cut (snd (check fuel s) = CSat -> find_violated (fst (check fuel s)) (tableau (fst (check fuel s))) = None); [rewrite H; auto |].
  apply (check_cases (fun s r => snd r = CSat -> find_violated (fst r) (tableau (fst r)) = None)); simpl; auto; discriminate.
Qed.

Lemma all_within s : wf s -> find_violated s (tableau s) = None -> forall x, (x < nvars s)%nat -> within (cb s) x (vals s x).
Proof.
  intros W FV x Hx. destruct (trow (tableau s) x) as [l |] eqn:T.
  - apply trow_In in T. destruct (find_violated_none s _ FV x l T) as [H1 H2]. split; intros b Hb.
    + unfold lt_lb, lbv in H1. rewrite Hb in H1. apply qd_ltb_false in H1. exact H1.
    + unfold gt_ub, ubv in H2. rewrite Hb in H2. apply qd_ltb_false in H2. exact H2.
  - apply (wf_nonbasic s W); auto.
Qed.

(* a Q_delta value at least a lower bound with non-negative infinitesimal part, read at a small delta, satisfies it:
   a strict bound (c, k), k > 0, below v makes (c, 0) strictly smaller than v *)
Lemma sat_lower_of_qd_le b v : qd_le b v -> 0 <= snd b -> ev (fun d => sat_lower (qd_at d v) b).
Proof.
  destruct b as [c k]. simpl. intros H Hk. destruct (Qlt_le_dec 0 k) as [P | P].
  - assert (L : qd_lt (c, 0) v) by (unfold qd_le, qd_lt in *; simpl in *; destruct H as [H | [H1 H2]]; [left | right; split]; lra).
    eapply ev_mono; [| exact (ev_lt_of_qd_lt _ _ L)]. intros d _ K. apply sat_lower_strict; auto. unfold qd_at in K at 1. simpl in K. lra.
  - assert (L : qd_le (c, 0) v) by (unfold qd_le in *; simpl in *; destruct H as [H | [H1 H2]]; [left | right; split]; lra).
    eapply ev_mono; [| exact (ev_le_of_qd_le _ _ L)]. intros d _ K. apply sat_lower_weak; auto. unfold qd_at in K at 1. simpl in K. lra.
Qed.
(* the same for an upper bound, by negation *)
Lemma sat_upper_of_qd_le b v : qd_le v b -> snd b <= 0 -> ev (fun d => sat_upper (qd_at d v) b).
Proof.
  intros H K. eapply ev_mono; [| apply (sat_lower_of_qd_le (- fst b, - snd b) (- fst v, - snd v))].
  - intros d _ L. apply sat_upper_opp. eapply sat_lower_eq; [| split; reflexivity | exact L]. unfold qd_at. simpl. ring.
  - unfold qd_le in *. simpl. destruct H as [H | [H1 H2]]; [left | right; split]; lra.
  - simpl. lra.
Qed.

(* a state all of whose variables are within their bounds yields, for every small enough delta, a rational model *)
Lemma within_model s :
  wf s -> (forall x, (x < nvars s)%nat -> within (cb s) x (vals s x)) ->
  ev (fun d => sat_defs (exprs s) (valq d (vals s)) /\ sat_rows (tableau s) (valq d (vals s)) /\
               forall a, In a (all_atoms s) -> sat_atom (valq d (vals s)) a).
Proof.
  intros W Hw. destruct (wf_level s W) as [_ [_ [V _]]].
  assert (E : ev (fun d => forall a, In a (all_atoms s) -> sat_atom (valq d (vals s)) a)).
  { apply ev_Forall with (P := fun a d => sat_atom (valq d (vals s)) a). intros [[x dr] b] Ha.
    destruct (V x dr b Ha) as [v [Hv Ht]]. pose proof (wf_signs s W _ Ha) as Sg. pose proof (wf_atoms_rng s W x dr b Ha) as Hx.
    pose proof (tighter_trans _ _ _ _ Ht (proj1 (within_dir _ _ _) (Hw x Hx) dr v Hv)) as T.
    destruct dr; [apply sat_lower_of_qd_le | apply sat_upper_of_qd_le]; auto. }
  eapply ev_mono; [| exact E]. intros d _ K. split; [| split; auto].
  - apply (wf_defs s W). apply (wf_vals s W).
  - apply (wf_vals s W).
Qed.

(* check does not touch bounds, assertions, definitions, trail *)
Definition same_frame (s s' : state) : Prop :=
  nvars s' = nvars s /\ cb s' = cb s /\ exprs s' = exprs s /\ asrts s' = asrts s /\ conjs s' = conjs s /\ layers s' = layers s /\
  trail s' = trail s /\ snaps s' = snaps s.
Lemma same_frame_trans a b c : same_frame a b -> same_frame b c -> same_frame a c.
Proof. unfold same_frame. intuition congruence. Qed.
Lemma pivot_and_update_fields s x_i x_j v : same_frame s (pivot_and_update s x_i x_j v).
Proof.
  unfold pivot_and_update. destruct (trow (tableau s) x_i) as [ri |]; [| repeat split].
  destruct (coef x_j (lterms ri)); [| repeat split]. unfold pivot. simpl.
  destruct (trow (tableau s) x_i); [| repeat split]. destruct (coef x_j (lterms l)); repeat split.
Qed.
Lemma check_fields fuel s : same_frame s (fst (check fuel s)).
Proof.
  apply (check_cases (fun s r => same_frame s (fst r))); try (intros; repeat split; fail).
  intros s0 x_i l up x_j r _ _ _. apply same_frame_trans, pivot_and_update_fields.
Qed.

Theorem check_sat_model fuel s s' :
  wf s -> check fuel s = (s', CSat) ->
  (forall i, cb s' i = cb s i) /\ all_atoms s' = all_atoms s /\ exprs s' = exprs s /\
  (forall x, (x < nvars s')%nat -> within (cb s') x (vals s' x)) /\
  ev (fun d => sat_defs (exprs s') (valq d (vals s')) /\ sat_rows (tableau s') (valq d (vals s')) /\
               forall a, In a (all_atoms s') -> sat_atom (valq d (vals s')) a).
Proof.
  intros W H. pose proof (wf_check fuel s W) as W'. destruct (check_fields fuel s) as [_ [Hcb [He [_ [_ [_ [Ht _]]]]]]].
  rewrite H in W', Hcb, He, Ht. simpl in W', Hcb, He, Ht.
  pose proof (all_within s' W' (check_sat_final _ _ _ H)) as A.
  split; [intro i; rewrite Hcb; reflexivity | split; [unfold all_atoms; rewrite Ht; reflexivity | split; [exact He | split; [exact A |]]]].
  apply within_model; auto.
Qed.

Definition viol_b (d : dir) (s : state) (x : var) : bool :=
  match bval (cb s (idx x d)) with Some b => stricter_b d (vals s x) b | None => false end.
(* up: the value of x_i is below its lower bound and the row offers no way to increase it; otherwise above the upper bound *)
Definition conflict_shape (s : state) (c : list lit) : Prop :=
  exists up x_i l, In (x_i, l) (tableau s) /\ viol_b (bdir up) s x_i = true /\ find_pivot s up (lterms l) = None /\
                   c = explain s up (lterms l) ++ [lneg (breason (cb s (idx x_i (bdir up))))].

Lemma check_conflict_shape fuel s s' c : check fuel s = (s', CConflict c) -> conflict_shape s' c.
Proof.
  intro H. cut (forall c, snd (check fuel s) = CConflict c -> conflict_shape (fst (check fuel s)) c); [rewrite H; auto |].
  apply (check_cases (fun s r => forall c, snd r = CConflict c -> conflict_shape (fst r) c)); simpl; auto; try discriminate.
  intros s0 x_i l up FV Eup FP c0 E. injection E as <-. destruct (violated_bound s0 x_i l up FV Eup) as [Hin [b [Eb Vb]]].
  exists up, x_i, l. unfold viol_b. rewrite Eb. auto.
Qed.

Lemma existsb_false_all {A} (f : A -> bool) l : existsb f l = false -> forall x, In x l -> f x = false.
Proof.
  induction l as [| a t IH]; simpl; [tauto |]. rewrite orb_false_iff. intros [H1 H2] x [<- | K]; auto.
Qed.

Lemma lt_ub_false v ob : lt_ub v ob = false -> exists b, ob = Some b /\ qd_le b v.
Proof. destruct ob as [b |]; [| discriminate]. intro H. exists b. split; auto. apply qd_ltb_false, H. Qed.
Lemma gt_lb_false v ob : gt_lb v ob = false -> exists b, ob = Some b /\ qd_le v b.
Proof. destruct ob as [b |]; [| discriminate]. intro H. exists b. split; auto. apply qd_ltb_false, H. Qed.
Lemma qsign c : ~ c == 0 -> (qpos c = true /\ qneg c = false) \/ (qpos c = false /\ qneg c = true).
Proof. intro N. destruct (Qlt_le_dec 0 c); [left | right]; rewrite ?qpos_true, ?qpos_false, ?qneg_true, ?qneg_false; split; lra. Qed.

(* no pivot candidate: every variable of the row sits at, or beyond, the bound that blocks the move
   (for up: the upper bound when the coefficient is positive, the lower bound when it is negative) *)
Lemma find_pivot_none s up ts : find_pivot s up ts = None ->
  forall v c, In (v, c) ts -> ~ c == 0 ->
    exists b, bval (cb s (idx v (sdir (opp (bdir up)) c))) = Some b /\ tighter (sdir (opp (bdir up)) c) (vals s v) b.
Proof.
  induction ts as [| [w e] t IH]; simpl; [tauto |].
  match goal with |- context [if ?b then Some w else _] => destruct b eqn:E end; [discriminate |].
  intros H v c [K | K] Nz; [| apply IH; auto]. injection K as -> ->. unfold sdir.
  destruct (qsign c Nz) as [[P Ng] | [P Ng]]; rewrite P; rewrite P, Ng in E; destruct up; simpl in E; rewrite ?orb_false_r in E;
    first [exact (lt_ub_false _ _ E) | exact (gt_lb_false _ _ E)].
Qed.
Lemma explain_in s up ts v c : In (v, c) ts -> ~ c == 0 ->
  In (lneg (breason (cb s (idx v (sdir (opp (bdir up)) c))))) (explain s up ts).
Proof.
  induction ts as [| [w e] t IH]; simpl; [tauto |]. intros [K | K] Nz.
  - injection K as -> ->. unfold sdir. destruct (qsign c Nz) as [[P Ng] | [P Ng]]; rewrite P, ?Ng; left; destruct up; reflexivity.
  - destruct (qpos e); [right; auto |]. destruct (qneg e); [right |]; auto.
Qed.

Lemma sumq_dle d rho beta ts : (forall v c, In (v, c) ts -> dle d (c * beta v) (c * rho v)) -> dle d (sumq beta ts) (sumq rho ts).
Proof.
  induction ts as [| [v c] t IH]; simpl; intro H; [destruct d; simpl; lra |].
  pose proof (H v c (or_introl eq_refl)) as Hv. specialize (IH (fun v' c' K => H v' c' (or_intror K))). destruct d; simpl in *; lra.
Qed.

(* Farkas along the violated row: the bound of x_i and the blocking bounds of the row's variables cannot hold together with
   the row. For up: every solution of the blocking bounds has sum(c x) at most its value under the current assignment, which
   is below the lower bound of x_i *)
Definition cited (up : bool) (x_i : var) (l : lin) (x : var) (d : dir) : Prop :=
  (x = x_i /\ d = bdir up) \/ exists c, In (x, c) (lterms l) /\ ~ c == 0 /\ d = sdir (opp (bdir up)) c.

Lemma conflict_farkas up s x_i l rho :
  vals_ok s -> In (x_i, l) (tableau s) -> viol_b (bdir up) s x_i = true -> find_pivot s up (lterms l) = None ->
  sat_rows (tableau s) rho ->
  (forall x d v, cited up x_i l x d -> bval (cb s (idx x d)) = Some v -> sat_atom rho (x, d, v)) -> False.
Proof.
  intros W Hin Viol FP Rows HB. set (d := bdir up) in *.
  unfold viol_b in Viol. destruct (bval (cb s (idx x_i d))) as [b |] eqn:Eb; [| discriminate].
  apply (stricter_b_true d _ _ Viol), tighter_ev.
  assert (E : ev (fun e => forall t, In t (lterms l) -> dle (opp d) (snd t * valq e (vals s) (fst t)) (snd t * rho (fst t)))).
  { apply ev_Forall with (P := fun t e => dle (opp d) (snd t * valq e (vals s) (fst t)) (snd t * rho (fst t))). intros [v c] Ht. simpl.
    destruct (Qeq_dec c 0) as [Z | Nz]. { apply ev_all. intros e _. destruct d; simpl; nra. }
    destruct (find_pivot_none s up _ FP v c Ht Nz) as [o [Ho Le]].
    pose proof (HB v _ o (or_intror (ex_intro _ c (conj Ht (conj Nz eq_refl)))) Ho) as So.
    pose proof (term_dle (opp d) c (fun e => qd_at e o) (vals s v) (proj1 (tighter_ev _ _ _) Le)) as K1.
    pose proof (term_dle (opp d) c (fun _ => rho v) o (proj1 (sat_dir_ev _ _ _) So)) as K2.
    eapply ev_mono; [| exact (ev_and _ _ K1 K2)]. intros e _ [L1 L2]. unfold valq. destruct d; simpl in *; lra. }
  pose proof (proj1 (sat_dir_ev d _ _) (HB x_i d b (or_introl (conj eq_refl eq_refl)) Eb)) as Hb.
  eapply ev_mono; [| exact (ev_and _ _ E Hb)]. intros e _ [K1 K2].
  pose proof (sumq_dle (opp d) rho (valq e (vals s)) (lterms l) (fun v c Ht => K1 (v, c) Ht)) as S.
  pose proof (W e x_i l Hin) as Vr. pose proof (Rows x_i l Hin) as Rr. unfold evalq in *. unfold valq at 1 in Vr.
  destruct d; simpl in *; lra.
Qed.

Theorem conflict_valid s c : wf s -> conflict_shape s c -> clause_valid s c.
Proof.
  intros W [up [x_i [l [Hin [Viol [FP Hc]]]]]] al rho M. destruct (existsb (lit_holds al) c) eqn:Ex; auto. exfalso.
  pose proof (existsb_false_all _ _ Ex) as AllF.
  apply (conflict_farkas up s x_i l rho (wf_vals s W) Hin Viol FP (model_rows s al rho W M)). intros x d v Hcit Hb.
  apply (reason_holds s al rho x d v W M Hb). apply neg_false_holds, AllF. rewrite Hc. apply in_or_app.
  destruct Hcit as [[-> ->] | [cf [Ht [Nz ->]]]]; [right; left; reflexivity | left; apply explain_in; auto].
Qed.

(* hence the asserted constraints have no rational solution at all *)
Theorem conflict_infeasible s c rho :
  wf s -> conflict_shape s c -> sat_defs (exprs s) rho -> (forall a, In a (all_atoms s) -> sat_atom rho a) -> False.
Proof.
  intros W [up [x_i [l [Hin [Viol [FP _]]]]]] D H.
  apply (conflict_farkas up s x_i l rho (wf_vals s W) Hin Viol FP); [apply (wf_defs s W); exact D |].
  intros x d v _ Hb. exact (bounds_contain_solutions s rho W D H x d v Hb).
Qed.

Theorem check_conflict fuel s s' c :
  wf s -> check fuel s = (s', CConflict c) ->
  clause_valid s' c /\
  (forall rho, sat_defs (exprs s') rho -> ~ (forall a, In a (all_atoms s') -> sat_atom rho a)) /\
  (forall i, cb s' i = cb s i) /\ all_atoms s' = all_atoms s /\ exprs s' = exprs s /\ asrts s' = asrts s.
Proof.
  intros W H. pose proof (wf_check fuel s W) as W'. destruct (check_fields fuel s) as [_ [Hcb [He [Ha [_ [_ [Ht _]]]]]]].
  rewrite H in W', Hcb, He, Ha, Ht. simpl in W', Hcb, He, Ha, Ht. pose proof (check_conflict_shape _ _ _ _ H) as Sh.
  split; [apply conflict_valid; auto | split; [intros rho D K; exact (conflict_infeasible s' c rho W' Sh D K) |]].
  split; [intro i; rewrite Hcb; reflexivity | split; [unfold all_atoms; rewrite Ht; reflexivity | auto]].
Qed.

(* soundness and completeness of the verdict, given termination *)
Theorem check_complete fuel s s' r :
  wf s -> check fuel s = (s', r) -> r <> COutOfFuel ->
  ((exists c, r = CConflict c) <-> ~ exists rho, sat_defs (exprs s) rho /\ forall a, In a (all_atoms s) -> sat_atom rho a).
Proof.
  intros W H NF. destruct r as [| c |]; [| | congruence].
  - destruct (check_sat_model fuel s s' W H) as [_ [HA [HE [_ K]]]]. apply ev_witness in K. destruct K as [d [_ [D [_ A]]]]. split.
    + intros [c Hc]. discriminate.
    + intro N. exfalso. apply N. exists (valq d (vals s')). rewrite <- HE, <- HA. auto.
  - destruct (check_conflict fuel s s' c W H) as [_ [I [_ [HA [HE _]]]]]. split.
    + intros _ [rho [D A]]. apply (I rho); rewrite ?HE, ?HA; auto.
    + intros _. exists c. reflexivity.
Qed.

Lemma clause_valid_cons s l0 rs :
  (forall al rho, model s al rho -> (forall r, In r rs -> lit_holds al r = false) -> lit_holds al l0 = true) -> clause_valid s (l0 :: rs).
Proof.
  intros H al rho M. simpl. destruct (existsb (lit_holds al) rs) eqn:E; [apply orb_true_r |].
  rewrite (H al rho M (existsb_false_all _ _ E)). reflexivity.
Qed.

(* bnd bounds x in direction d wherever the literals rs are all false *)
Definition entails (d : dir) (s : state) (x : var) (bnd : qd) (rs : list lit) : Prop :=
  forall al rho, model s al rho -> (forall r, In r rs -> lit_holds al r = false) -> sat_dir d (rho x) bnd.

(* What a bound bnd of its variable means for an assertion: the literal is implied when the bound is on the assertion's side
   and at least as tight as its constant, refuted when the bound is on the other side and strictly beyond it. These are the
   comparisons of assertion::propagate_lb / _ub and of the loops over a_watches in row::propagate_lb / _ub; all eight cases
   emit `hit` followed by the reasons of the bound. *)
Definition hit (lower : bool) (a : assertion) (bnd : qd) : option lit :=
  match lower, a_o a with
  | true, Leq => if qd_ltb (a_v a) bnd then Some (lneg (a_b a, true)) else None
  | true, Geq => if qd_leb (a_v a) bnd then Some (a_b a, true) else None
  | false, Leq => if qd_leb bnd (a_v a) then Some (a_b a, true) else None
  | false, Geq => if qd_ltb bnd (a_v a) then Some (lneg (a_b a, true)) else None
  end.
Lemma hit_valid s lower a bnd rs l0 :
  wf s -> In a (asrts s) -> entails (bdir lower) s (a_x a) bnd rs -> hit lower a bnd = Some l0 -> clause_valid s (l0 :: rs).
Proof.
  intros W Ha Ent Hl0. apply clause_valid_cons. intros al rho M Hr. specialize (Ent al rho M Hr).
  assert (Pos : sat_atom rho (asrt_atom a true) -> lit_holds al (a_b a, true) = true) by apply (m_asrts s al rho M a Ha).
  assert (Neg : ~ sat_atom rho (asrt_atom a true) -> lit_holds al (lneg (a_b a, true)) = true).
  { intro N. rewrite lit_holds_neg. apply negb_true_iff. destruct (lit_holds al (a_b a, true)) eqn:Hb; auto.
    destruct N. apply (model_lit_atom s al rho a true W M Ha Hb). }
  unfold hit in Hl0. unfold asrt_atom in Pos, Neg. destruct lower; destruct (a_o a); simpl in *;
    match type of Hl0 with (if ?c then _ else _) = _ => destruct c eqn:Cmp; [injection Hl0 as <- | discriminate] end.
  - apply Neg. intro At. apply qd_ltb_true in Cmp. exact (sat_cross _ _ _ Cmp Ent At).
  - apply Pos. apply qd_leb_true in Cmp. exact (sat_lower_mono _ _ _ Cmp Ent).
  - apply Pos. apply qd_leb_true in Cmp. exact (sat_upper_mono _ _ _ Cmp Ent).
  - apply Neg. intro At. apply qd_ltb_true in Cmp. exact (sat_cross _ _ _ Cmp At Ent).
Qed.

Definition asrt_propagate (lower : bool) := if lower then asrt_propagate_lb else asrt_propagate_ub.
Lemma asrt_propagate_hit lower s al a x c :
  asrt_propagate lower s al a x = WConflict c \/ asrt_propagate lower s al a x = WLemma c ->
  exists b l0, bval (cb s (idx x (bdir lower))) = Some b /\ hit lower a b = Some l0 /\ c = [l0; lneg (breason (cb s (idx x (bdir lower))))].
Proof.
  (* by cases: the side, the operator, the value of the literal, whether the bound is finite, the comparison *)
  unfold asrt_propagate, asrt_propagate_lb, asrt_propagate_ub, hit, lb_gt, lb_ge, ub_le, ub_lt, lbv, ubv, lbr, ubr.
  destruct lower; cbn [bdir idx]; destruct (a_o a); destruct (lvalue al (a_b a, true)) as [[|] |];
    match goal with |- context [bval ?x] => destruct (bval x) as [b |] end; cbv beta iota;
    try match goal with |- context [if ?t then _ else _] => destruct t eqn:Cmp end;
    intros [H | H]; try discriminate; injection H as <-; exists b; eexists; rewrite Cmp; repeat split.
Qed.
Lemma unate_valid lower s al a x c :
  wf s -> In a (asrts s) -> a_x a = x ->
  asrt_propagate lower s al a x = WConflict c \/ asrt_propagate lower s al a x = WLemma c -> clause_valid s c.
Proof.
  intros W Ha <- H. destruct (asrt_propagate_hit _ _ _ _ _ _ H) as [b [l0 [Hb [Hh ->]]]].
  apply (hit_valid s lower a b); auto. intros al' rho M Hr.
  apply (reason_holds s al' rho (a_x a) (bdir lower) b W M Hb). apply neg_false_holds, Hr. left. reflexivity.
Qed.

(* what the loops emit: recorded lemmas and possibly a conflict *)
Definition all_valid (s : state) (r : assign * list (list lit) * option (list lit)) : Prop :=
  (forall c, In c (snd (fst r)) -> clause_valid s c) /\ (forall c, snd r = Some c -> clause_valid s c).
Lemma none_valid s al : all_valid s (al, [], None).
Proof. split; simpl; [intros c [] | discriminate]. Qed.

Lemma unate_loop_valid s f al A :
  (forall al' a c, In a A -> (f al' a = WConflict c \/ f al' a = WLemma c) -> clause_valid s c) -> all_valid s (unate_loop f al A).
Proof.
  revert al. induction A as [| a t IH]; intros al H; simpl; [apply none_valid |].
  assert (Ht := fun al' => IH al' (fun al'' a' c Hin => H al'' a' c (or_intror Hin))).
  destruct (f al a) as [c0 | c0 |] eqn:E; [| | apply Ht].
  - split; simpl; [intros c [] |]. intros c Hc. injection Hc as <-. apply (H al a c0); [left; reflexivity | left; exact E].
  - specialize (Ht (aset al (hd TRUE_lit c0))). destruct (unate_loop f (aset al (hd TRUE_lit c0)) t) as [[al' ls] r].
    destruct Ht as [I1 I2]. split; auto. intros c [<- | Hc]; auto. apply (H al a c0); [left; reflexivity | right; exact E].
Qed.
Lemma rows_loop_valid s f al R :
  (forall al' x l, In (x, l) R -> all_valid s (f al' x l)) -> all_valid s (rows_loop f al R).
Proof.
  revert al. induction R as [| [x l] t IH]; intros al H; simpl; [apply none_valid |].
  destruct (H al x l (or_introl eq_refl)) as [H1 H2]. destruct (f al x l) as [[al1 ls1] c1]. simpl in *.
  destruct c1 as [c1 |]; [split; auto |].
  specialize (IH al1 (fun al' x' l' Hin => H al' x' l' (or_intror Hin))).
  destruct (rows_loop f al1 t) as [[al2 ls2] c2]. destruct IH as [I1 I2]. split; auto.
  intros c Hc. apply in_app_or in Hc. destruct Hc; auto.
Qed.

(* the bound of a row is a sum of bounds (LraInv_Proofs.bsum); its reasons are the reasons of the bounds that went in *)
Definition row_choice (s : state) (d : dir) (v : var) (c : Q) : option (option qd) := if qpos c || qneg c then bound_choice s d v c else Some None.
Lemma row_bound_cons s lower v c t acc rs :
  row_bound s lower ((v, c) :: t) acc rs =
  if qpos c || qneg c then
    match bval (cb s (idx v (sdir (bdir lower) c))) with
    | Some b => row_bound s lower t (qd_add acc (qd_scale c b)) (rs ++ [lneg (breason (cb s (idx v (sdir (bdir lower) c))))])
    | None => None
    end
  else row_bound s lower t acc rs.
Proof. simpl. unfold sdir. destruct (qpos c); [| destruct (qneg c)]; destruct lower; reflexivity. Qed.
Lemma row_bound_spec s lower ts acc rs bnd rs' : row_bound s lower ts acc rs = Some (bnd, rs') ->
  bsum (row_choice s (bdir lower)) ts acc = Some bnd /\ incl rs rs' /\
  forall v c, In (v, c) ts -> qpos c || qneg c = true -> In (lneg (breason (cb s (idx v (sdir (bdir lower) c))))) rs'.
Proof.
  revert acc rs. induction ts as [| [v c] t IH]; intros acc rs H.
  - injection H as <- <-. split; [reflexivity | split; [apply incl_refl | intros v c []]].
  - rewrite row_bound_cons in H. simpl. unfold row_choice at 1, bound_choice. destruct (qpos c || qneg c) eqn:Z.
    + destruct (bval (cb s (idx v (sdir (bdir lower) c)))) as [b |]; [| discriminate]. simpl.
      destruct (IH _ _ H) as [A [B C]]. split; [exact A | split].
      * intros z Hz. apply B, in_or_app. auto.
      * intros v' c' [K | K] Z'; [injection K as <- <-; apply B, in_or_app; right; left; reflexivity | auto].
    + destruct (IH _ _ H) as [A [B C]]. split; [exact A | split; [exact B |]].
      intros v' c' [K | K] Z'; [injection K as <- <-; congruence | auto].
Qed.
(* the guard of row_bound_ub_pos only loses propagations *)
Lemma row_bound_ub_pos_le s g ts acc rs r : row_bound_ub_pos s g ts acc rs = Some r -> row_bound s false ts acc rs = Some r.
Proof.
  revert acc rs. induction ts as [| [v c] t IH]; intros acc rs; simpl; auto.
  destruct (qpos c); [destruct (ubv s v); auto |]. destruct (qneg c); auto.
  destruct (lbv s g); [| discriminate]. destruct (lbv s v); auto.
Qed.

Lemma row_bound_entails s lower x l bnd rs :
  wf s -> In (x, l) (tableau s) -> row_bound s lower (lterms l) (qd_of_q (lconst l)) [] = Some (bnd, rs) -> entails (bdir lower) s x bnd rs.
Proof.
  intros W Hin H al rho M Hr. destruct (row_bound_spec _ _ _ _ _ _ _ H) as [Hs [_ Hrs]]. apply sat_dir_ev.
  eapply ev_mono; [| apply (bsum_ev (bdir lower) _ _ _ _ (fun _ => rho) Hs)].
  - intros e _ K. pose proof (model_rows s al rho W M x l Hin) as R. unfold evalq in R. destruct lower; simpl in *; rewrite qd_at_of_q in K; lra.
  - intros v c Hvc. unfold row_choice. destruct (qpos c || qneg c) eqn:Z; [| apply qzero, Z]. unfold bound_choice.
    destruct (bval (cb s (idx v (sdir (bdir lower) c)))) as [o |] eqn:E; simpl; auto.
    apply sat_dir_ev. apply (reason_holds s al rho v _ o W M E). apply neg_false_holds, Hr, Hrs; auto.
Qed.

(* the loop over the assertions on the row's basic variable *)
Lemma row_watchers_cons lower bnd rs al a t :
  row_watchers lower bnd rs al (a :: t) =
  match hit lower a bnd with
  | Some l0 => match lvalue al l0 with
               | Some false => (al, [], Some (l0 :: rs))
               | None => let '(al', ls, c) := row_watchers lower bnd rs (aset al l0) t in (al', (l0 :: rs) :: ls, c)
               | Some true => row_watchers lower bnd rs al t
               end
  | None => row_watchers lower bnd rs al t
  end.
Proof. reflexivity. Qed.
Lemma row_watchers_valid s x lower bnd rs al A :
  wf s -> (forall a, In a A -> In a (asrts s) /\ a_x a = x) -> entails (bdir lower) s x bnd rs ->
  all_valid s (row_watchers lower bnd rs al A).
Proof.
  intros W HA Ent. revert al. induction A as [| a t IH]; intro al; [apply none_valid |]. rewrite row_watchers_cons.
  assert (IHt := fun al' => IH (fun a' Hin => HA a' (or_intror Hin)) al').
  destruct (HA a (or_introl eq_refl)) as [Ha Hx].
  destruct (hit lower a bnd) as [l0 |] eqn:Hit; [| apply IHt].
  assert (V : clause_valid s (l0 :: rs)) by (apply (hit_valid s lower a bnd); auto; rewrite Hx; exact Ent).
  destruct (lvalue al l0) as [[|] |]; [apply IHt | |].
  - split; simpl; [intros c [] |]. intros c Hc. injection Hc as <-. exact V.
  - specialize (IHt (aset al l0)). destruct (row_watchers lower bnd rs (aset al l0) t) as [[al' ls] r].
    destruct IHt as [I1 I2]. split; auto. intros c [<- | Hc]; auto.
Qed.

Lemma watchers_of_spec s x a : In a (watchers_of s x) -> In a (asrts s) /\ a_x a = x.
Proof. unfold watchers_of. rewrite filter_In. intros [H E]. apply Nat.eqb_eq in E. auto. Qed.
Lemma watching_In T v x l : In (x, l) (watching T v) -> In (x, l) T.
Proof. unfold watching. rewrite filter_In. tauto. Qed.

(* one side of row::propagate_lb / _ub: the row's bound, a test against the current bound of x, the loop *)
Lemma row_side_valid s lower (t : qd -> bool) al x l ob :
  wf s -> In (x, l) (tableau s) -> (forall r, ob = Some r -> row_bound s lower (lterms l) (qd_of_q (lconst l)) [] = Some r) ->
  all_valid s match ob with
              | Some (bnd, rs) => if t bnd then row_watchers lower bnd rs al (watchers_of s x) else (al, [], None)
              | None => (al, [], None)
              end.
Proof.
  intros W Hin H. destruct ob as [[bnd rs] |]; [| apply none_valid]. destruct (t bnd); [| apply none_valid].
  apply (row_watchers_valid s x); auto; [apply watchers_of_spec | eapply row_bound_entails; eauto].
Qed.
Definition row_propagate (lower : bool) := if lower then row_propagate_lb else row_propagate_ub.
Lemma row_propagate_valid lower s al x l v : wf s -> In (x, l) (tableau s) -> all_valid s (row_propagate lower s al x l v).
Proof.
  intros W Hin. unfold row_propagate, row_propagate_lb, row_propagate_ub.
  pose proof (fun ob => row_side_valid s true (fun lo => ge_lbopt lo (lbv s x)) al x l ob W Hin) as Lo.
  pose proof (fun ob => row_side_valid s false (fun hi => le_ubopt hi (ubv s x)) al x l ob W Hin) as Hi.
  destruct lower; (destruct (coef v (lterms l)) as [cv |]; [| apply none_valid]); destruct (qpos cv).
  - apply Lo. auto.
  - apply Hi. auto.
  - apply Hi. apply row_bound_ub_pos_le.
  - apply Lo. auto.
Qed.

(* assert_lower / assert_upper / propagate: everything they emit is valid in the state they return *)
Definition emits_valid (res : state * aresult) : Prop :=
  (forall c, In c (r_lemmas (snd res)) -> clause_valid (fst res) c) /\ (r_ok (snd res) = false -> clause_valid (fst res) (r_cnfl (snd res))).

(* conflicts are stated relative to the asserted atom: valid in every model in which "p true" implies the atom
   (for a theory literal p that is always so; for set_lb / set_ub with the TRUE literal it means: in every model of the
   requested bound) *)
Definition emits_valid_given (p : lit) (a : atom) (res : state * aresult) : Prop :=
  (forall c, In c (r_lemmas (snd res)) -> clause_valid (fst res) c) /\
  (r_ok (snd res) = false -> forall al rho, model (fst res) al rho -> (lit_holds al p = true -> sat_atom rho a) ->
                             existsb (lit_holds al) (r_cnfl (snd res)) = true).

(* assert_lower and assert_upper as one function of the direction *)
Lemma assert_dir_eq lower s al x val p :
  let d := bdir lower in
  assert_dir d s al x val p =
  if match bval (cb s (idx x d)) with Some o => tighter_b d val o | None => false end
  then (al_noop s x d val, mkR true [] [] al)
  else if match bval (cb s (idx x (opp d))) with Some o => stricter_b d o val | None => false end
  then (s, mkR false [lneg p; lneg (breason (cb s (idx x (opp d))))] [] al)
  else
    let s2 := al_state (stricter_b d (vals s x) val && negb (is_basic s x)) s x d val p in
    let '(al1, ls1, c1) := unate_loop (fun al a => asrt_propagate lower s2 al a x) al (watchers_of s2 x) in
    match c1 with
    | Some c => (s2, mkR false c ls1 al1)
    | None =>
        let '(al2, ls2, c2) := rows_loop (fun al y l => row_propagate lower s2 al y l x) al1 (watching (tableau s2) x) in
        match c2 with
        | Some c => (s2, mkR false c (ls1 ++ ls2) al2)
        | None => (s2, mkR true [] (ls1 ++ ls2) al2)
        end
    end.
Proof. destruct lower; reflexivity. Qed.

Lemma assert_dir_sound lower s al x val p :
  wf s -> (x < nvars s)%nat -> sign_ok (x, bdir lower, val) -> justified s p (x, bdir lower, val) ->
  emits_valid_given p (x, bdir lower, val) (assert_dir (bdir lower) s al x val p).
Proof.
  intros W Hx Hs HA. pose proof (wf_assert_dir (bdir lower) s al x val p W Hx Hs HA) as W'. rewrite assert_dir_fst in W'.
  rewrite assert_dir_eq. cbv zeta. set (d := bdir lower) in *.
  destruct (match bval (cb s (idx x d)) with Some o => tighter_b d val o | None => false end).
  { split; simpl; [intros c [] | discriminate]. }
  destruct (match bval (cb s (idx x (opp d))) with Some o => stricter_b d o val | None => false end) eqn:E2.
  { (* the new bound lies strictly beyond the opposite bound o: p and the reason of o cannot both hold *)
    split; simpl; [intros c [] |]. intros _ al' rho M Hp.
    destruct (bval (cb s (idx x (opp d)))) as [o |] eqn:Eo; [| discriminate].
    rewrite !lit_holds_neg. destruct (lit_holds al' p) eqn:Hb; simpl; auto.
    destruct (lit_holds al' (breason (cb s (idx x (opp d))))) eqn:Hr; simpl; auto. exfalso.
    apply (stricter_b_true d _ _ E2). apply (sat_dir_opp d (rho x)); [exact (Hp eq_refl) | exact (reason_holds s al' rho x (opp d) o W M Eo Hr)]. }
  set (s2 := al_state _ s x d val p) in *.
  pose proof (unate_loop_valid s2 (fun al a => asrt_propagate lower s2 al a x) al (watchers_of s2 x)) as U.
  destruct (unate_loop _ al (watchers_of s2 x)) as [[al1 ls1] c1].
  destruct U as [U1 U2].
  { intros al' a c Hin Hc. destruct (watchers_of_spec s2 x a Hin) as [K1 K2]. exact (unate_valid lower s2 al' a x c W' K1 K2 Hc). }
  destruct c1 as [c1 |]. { split; simpl; auto. intros _ al' rho M _. exact (U2 c1 eq_refl al' rho M). }
  pose proof (rows_loop_valid s2 (fun al y l => row_propagate lower s2 al y l x) al1 (watching (tableau s2) x)) as R.
  destruct (rows_loop _ al1 (watching (tableau s2) x)) as [[al2 ls2] c2].
  destruct R as [R1 R2].
  { intros al' y l Hin. apply row_propagate_valid; [exact W' | eapply watching_In; eauto]. }
  destruct c2 as [c2 |]; (split; simpl; [intros c Hc; apply in_app_or in Hc; destruct Hc; auto |]).
  - intros _ al' rho M _. exact (R2 c2 eq_refl al' rho M).
  - discriminate.
Qed.

(* set_lb / set_ub (public, TRUE literal as reason, root level): lemmas valid; a reported conflict is valid in every model
   of the requested bound *)
Theorem set_bound_sound s al d x v :
  wf s -> layers s = [] -> (x < nvars s)%nat -> sign_ok (x, d, v) ->
  emits_valid_given TRUE_lit (x, d, v) (match d with Lower => assert_lower s al x v TRUE_lit | Upper => assert_upper s al x v TRUE_lit end).
Proof.
  intros W R Hx Sg. destruct d; [apply (assert_dir_sound true) | apply (assert_dir_sound false)]; auto; right; auto.
Qed.

(* what assert_lower / assert_upper leave alone *)
Lemma assert_dir_frame d s al x val p :
  let s' := fst (assert_dir d s al x val p) in
  nvars s' = nvars s /\ asrts s' = asrts s /\ snaps s' = snaps s /\ length (layers s') = length (layers s).
Proof.
  rewrite assert_dir_fst. destruct (match bval (cb s (idx x d)) with Some o => tighter_b d val o | None => false end); [repeat split |].
  destruct (match bval (cb s (idx x (opp d))) with Some o => stricter_b d o val | None => false end); [repeat split |].
  unfold al_state. destruct (stricter_b d (vals s x) val && negb (is_basic s x)); simpl; repeat split;
    unfold save_bound; destruct (layers s) as [| L Ls]; auto; destruct (layer_has L (idx x d)); auto.
Qed.
Lemma propagate_frame s al p :
  let s' := fst (propagate s al p) in
  nvars s' = nvars s /\ asrts s' = asrts s /\ snaps s' = snaps s /\ length (layers s') = length (layers s).
Proof.
  rewrite propagate_eq. destruct (find_by_var (asrts s) (fst p)) as [a |]; [| repeat split].
  destruct (al (a_b a)) as [sg |]; [| repeat split]. destruct (asrt_atom a sg) as [[x d] val]. apply assert_dir_frame.
Qed.

Theorem propagate_sound s al p : wf s -> lvalue al p = Some true -> emits_valid (propagate s al p).
Proof.
  intros W Hp. pose proof (wf_propagate s al p W Hp) as W'. destruct (propagate_frame s al p) as [_ [EA _]]. rewrite propagate_eq in *.
  destruct (find_by_var (asrts s) (fst p)) as [a |] eqn:F; [| split; simpl; [intros c [] | discriminate]].
  destruct (al (a_b a)) as [sg |] eqn:Eal; [| split; simpl; [intros c [] | discriminate]].
  destruct (propagate_atom s al p a sg W Hp F Eal) as [Hx [Hs HA]].
  pose proof (asrt_atom_var a sg) as Ev. destruct (asrt_atom a sg) as [[x d] val] eqn:At. simpl in Ev. subst x.
  assert (G : emits_valid_given p (a_x a, d, val) (assert_dir d s al (a_x a) val p)).
  { destruct d; [apply (assert_dir_sound true) | apply (assert_dir_sound false)]; auto; left; exact HA. }
  destruct G as [L C]. split; auto. intros Fl al' rho M. apply (C Fl al' rho M). intro Hb.
  destruct HA as [a0 [sg0 [Ha0 [-> <-]]]]. apply (model_lit_atom _ al' rho a0 sg0 W' M); auto. rewrite EA. exact Ha0.
Qed.

Theorem pop_restores s L Ls B Bs : wf s -> layers s = L :: Ls -> snaps s = B :: Bs -> forall i, cb (pop s) i = B i.
Proof.
  intros W EL EB i. pose proof (wf_stack s W) as H. rewrite EL, EB in H. unfold pop. rewrite EL. simpl.
  destruct (trail s); simpl in H; [tauto |]. destruct H as [_ [H _]]. apply H.
Qed.

Definition is_push_pop (e : event) : bool := match e with EPush | EPop => true | _ => false end.

Lemma new_rel_stack r a b f s : let s1 := fst (fst (new_rel r a b f s)) in snaps s1 = snaps s /\ length (layers s1) = length (layers s).
Proof.
  destruct (new_var_lin_fields s (rel_expr s a b)) as [_ [_ [A [_ [B _]]]]].
  destruct (new_rel_cases r a b f s) as [v D | v s1 slack D2 | bv s1 slack F | s1 slack]; simpl; auto; unfold s1; simpl; rewrite ?A, ?B; auto.
Qed.
Lemma step_stack e s : is_push_pop e = false -> let s' := fst (step e s) in snaps s' = snaps s /\ length (layers s') = length (layers s).
Proof.
  intro H. destruct e; try discriminate; cbn [step].
  - unfold new_var. simpl. auto.
  - destruct (new_var_lin_fields s l) as [_ [_ [A [_ [B _]]]]]. destruct (new_var_lin s l). simpl in *. rewrite A, B. auto.
  - pose proof (new_rel_stack r left right fresh s) as N. destruct (new_rel r left right fresh s) as [[s1 g] n1]. exact N.
  - unfold new_eq.
    pose proof (new_rel_stack Rgeq left right fresh s) as N1. destruct (new_rel Rgeq left right fresh s) as [[s1 g] n1]. simpl in N1.
    pose proof (new_rel_stack Rleq left right (fresh + n1)%nat s1) as N2. destruct (new_rel Rleq left right (fresh + n1) s1) as [[s2 l] n2]. simpl in N2.
    destruct (new_conj2_state al g l (fresh + n1 + n2) s2) as [E | [p' [q' E]]];
      destruct (new_conj2 al g l (fresh + n1 + n2) s2) as [[s3 c] n3]; simpl in *; subst s3; simpl; destruct N1, N2; split; congruence.
  - destruct (propagate_frame s al p) as [_ [_ K]]. destruct (propagate s al p). exact K.
  - fold (assert_dir d s al x v TRUE_lit). destruct (assert_dir_frame d s al x v TRUE_lit) as [_ [_ K]]. destruct (assert_dir d s al x v TRUE_lit). exact K.
  - destruct (check_fields fuel s) as [_ [_ [_ [_ [_ [A [_ B]]]]]]]. destruct (check fuel s). simpl in *. rewrite A, B. auto.
Qed.

Fixpoint ok_run (es : list event) (s : state) : Prop :=
  match es with [] => True | e :: t => ok_event s e /\ ok_run t (fst (step e s)) end.
Lemma run_cons e es s : run (e :: es) s = run es (fst (step e s)).
Proof. reflexivity. Qed.
Lemma run_app es1 es2 s : run (es1 ++ es2) s = run es2 (run es1 s).
Proof. unfold run. apply fold_left_app. Qed.
Lemma ok_run_app es1 es2 s : ok_run (es1 ++ es2) s <-> ok_run es1 s /\ ok_run es2 (run es1 s).
Proof.
  revert s. induction es1 as [| e t IH]; intro s; [simpl; tauto |]. cbn [app ok_run]. rewrite IH. rewrite run_cons. tauto.
Qed.
Lemma wf_run es s : wf s -> ok_run es s -> wf (run es s).
Proof. revert s. induction es as [| e t IH]; intros s W H; simpl in *; auto. apply IH; [apply wf_step; tauto | tauto]. Qed.
Lemma reach_run es s : reach s -> ok_run es s -> reach (run es s).
Proof.
  revert s. induction es as [| e t IH]; intros s R H; simpl in *; auto. destruct H as [H1 H2]. apply IH; auto. apply reach_step; auto.
Qed.

(* histories whose pushes and pops match *)
Inductive balanced : list event -> Prop :=
| bal_nil : balanced []
| bal_ev e es : is_push_pop e = false -> balanced es -> balanced (e :: es)
| bal_nest es1 es2 : balanced es1 -> balanced es2 -> balanced (EPush :: es1 ++ EPop :: es2).

Lemma balanced_stack es : balanced es -> forall s, wf s -> ok_run es s ->
  snaps (run es s) = snaps s /\ length (layers (run es s)) = length (layers s).
Proof.
  induction 1 as [| e es He Hb IH | es1 es2 H1 IH1 H2 IH2]; intros s W Ok.
  - simpl. auto.
  - rewrite run_cons. destruct Ok as [Oe Ot]. destruct (step_stack e s He) as [A B].
    destruct (IH _ (wf_step s e W Oe) Ot) as [A' B']. split; congruence.
  - rewrite run_cons. cbn [step fst]. destruct Ok as [_ Ok]. cbn [step fst] in Ok. apply ok_run_app in Ok. destruct Ok as [O1 O2].
    rewrite run_app. destruct (IH1 _ (wf_push s W) O1) as [A1 B1].
    pose proof (wf_run es1 _ (wf_push s W) O1) as W1. set (s1 := run es1 (push s)) in *.
    rewrite run_cons in *. cbn [step fst] in *. destruct O2 as [_ O2].
    destruct (IH2 _ (wf_pop s1 W1) O2) as [A2 B2]. rewrite A2, B2.
    simpl in A1, B1. unfold pop. destruct (layers s1) as [| L Ls] eqn:EL; [simpl in B1; lia |]. simpl. rewrite A1. simpl. split; auto; simpl in B1; lia.
Qed.

Theorem push_pop_restores es s :
  wf s -> balanced es -> ok_run (EPush :: es ++ [EPop]) s -> forall i, cb (run (EPush :: es ++ [EPop]) s) i = cb s i.
Proof.
  intros W Hb Ok i. rewrite run_cons in *. cbn [step fst] in *. destruct Ok as [_ Ok]. apply ok_run_app in Ok. destruct Ok as [O1 _].
  rewrite run_app. simpl. destruct (balanced_stack es Hb _ (wf_push s W) O1) as [A B].
  pose proof (wf_run es _ (wf_push s W) O1) as W1. set (s1 := run es (push s)) in *. simpl in A, B.
  destruct (layers s1) as [| L Ls] eqn:EL; [simpl in B; lia |].
  apply (pop_restores s1 L Ls (cb s) (snaps s) W1 EL A).
Qed.
