(* Explanations: the walk over _preds terminates within n_vars steps (predecessor chains are acyclic) and collects
   literals that are false, whose negations are exactly the asserted constraints on a path of length _dists[row][cur];
   hence every conflict clause and every recorded lemma is DL-valid: its negated literals contain a negative cycle. *)
From Coq Require Import List Arith Bool Lia.
From ORatio Require Import smt.DlDom smt.Dl proofs.DlOrd_Proofs proofs.DlGraph_Proofs proofs.DlSpec_Proofs.
Import ListNotations.

Section Expl.
Variable O : ogroup.
Variable D : Type.
Variable dm : dom D.
Variable DS : domspec O D dm.
Notation state := (state D).
Notation dval := (dval O D dm DS).
Notation proc := (proc D).
Notation lit_edge := (lit_edge O D dm DS).
Notation true_lit := (true_lit D).
Notation cedge := (cedge O D dm DS).

Section Depth.
Variable pg : nat -> nat -> option nat.
Variable dv : nat -> nat -> xd O.
Variable ce : nat -> nat -> O -> Prop.
Variable n : nat.
Hypothesis ce_lt : forall p j g, ce p j g -> p < n /\ j < n.

Inductive gtree_d (i : nat) : nat -> nat -> Prop :=
| td_root : gtree_d i i 0
| td_step j p g k : j <> i -> pg i j = Some p -> gtree_d i p k -> ce p j g -> dv i j = xadd (dv i p) g -> gtree_d i j (S k).

Lemma gtree_depth i j : gtree O pg dv ce i j -> exists k, gtree_d i j k.
Proof.
  induction 1 as [| j p g Hji Hp _ [k IH] Hc Ev]; [exists 0; constructor | exists (S k); econstructor; eauto].
Qed.

Lemma depth_fun i j k1 : gtree_d i j k1 -> forall k2, gtree_d i j k2 -> k1 = k2.
Proof.
  induction 1 as [| j p g k Hji Hp _ IH Hc Ev]; intros k2 H2; inversion H2; subst; try congruence.
  f_equal. apply IH. congruence.
Qed.

(* the vertices of the chain, with their depths *)
Lemma chain_list i j k : gtree_d i j k -> j < n ->
  exists l, length l = S k /\ forall m x, nth_error l m = Some x -> x < n /\ gtree_d i x (k - m) /\ m <= k.
Proof.
  induction 1 as [| j p g k Hji Hp Ht IH Hc Ev]; intro Hj.
  - exists [i]. split; [reflexivity |]. intros [| m] x E; cbn in E; [injection E as <-; repeat split; [exact Hj | constructor | lia] | destruct m; discriminate].
  - destruct (IH (proj1 (ce_lt _ _ _ Hc))) as [l [Hl Hn]].
    exists (j :: l). split; [cbn; lia |]. intros [| m] x E; cbn in E.
    + injection E as <-. repeat split; [exact Hj | rewrite Nat.sub_0_r; econstructor; eauto | lia].
    + destruct (Hn m x E) as (? & ? & ?). repeat split; [assumption | replace (S k - S m) with (k - m) by lia; assumption | lia].
Qed.

Lemma depth_lt i j k : gtree_d i j k -> j < n -> k < n.
Proof.
  intros H Hj. destruct (chain_list i j k H Hj) as [l [Hl Hn]].
  assert (ND : NoDup l).
  { apply NoDup_nth_error. intros m1 m2 H1 E.
    destruct (nth_error l m1) as [x |] eqn:E1; [| apply nth_error_Some in H1; congruence].
    symmetry in E. destruct (Hn m1 x E1) as (_ & D1 & L1). destruct (Hn m2 x E) as (_ & D2 & L2).
    pose proof (depth_fun _ _ _ D1 _ D2). lia. }
  assert (IN : incl l (seq 0 n)).
  { intros x Hx. apply In_nth_error in Hx. destruct Hx as [m Hm]. apply in_seq. destruct (Hn m x Hm). lia. }
  pose proof (NoDup_incl_length ND IN) as L. rewrite seq_length in L. lia.
Qed.
End Depth.

Definition cl_edges (s : state) (cl : list lit) : edge O -> Prop := fun e => exists l, In l cl /\ lit_edge s (lnot l) e.

Lemma cl_edges_mono s cl cl' e : incl cl cl' -> cl_edges s cl e -> cl_edges s cl' e.
Proof. intros H (l & Hl & He). exists l. split; [apply H; exact Hl | exact He]. Qed.

Lemma expl_lit_proc s c : proc s c ->
  expl_lit D s c = [lnot (true_lit s c)] /\ value s (lnot (true_lit s c)) = LF /\ lnot (lnot (true_lit s c)) = true_lit s c.
Proof.
  intros (_ & Hv & _). unfold expl_lit, DlSpec_Proofs.true_lit, value, lnot. cbn [fst snd].
  destruct (value_var s c) eqn:E; cbn; try congruence; repeat split.
Qed.

Lemma walk_spec s row cur k : gtree_d (pget s) (dval s) (cedge s) row cur k ->
  forall fuel acc, k <= fuel ->
  exists L g, Dl.walk D s fuel row cur row acc = Some (acc ++ L) /\
              DlGraph_Proofs.walk (cl_edges s L) row cur g /\ dval s row cur = xadd (dval s row row) g /\
              (forall l, In l L -> value s l = LF /\ proc s (fst l)).
Proof.
  induction 1 as [| j p g k Hji Hp Ht IH Hc Ev]; intros fuel acc Hk.
  - exists [], g0. split; [| split; [constructor | split; [rewrite xadd_0; reflexivity | intros ? []]]].
    destruct fuel; cbn; rewrite Nat.eqb_refl, app_nil_r; reflexivity.
  - destruct fuel as [| fuel]; [lia |].
    destruct Hc as (c & Hfind & Hproc & Hedge).
    destruct (expl_lit_proc s c Hproc) as (El & Ev' & Enn).
    destruct (IH fuel (acc ++ expl_lit D s c)) as (L & gp & Hw & Hwalk & Hd & HL); [lia |].
    exists (expl_lit D s c ++ L), (gp +o g). split; [| split; [| split]].
    + cbn [Dl.walk]. destruct (Nat.eqb_spec j row); [contradiction |]. rewrite Hp, Hfind. rewrite Hw, app_assoc. reflexivity.
    + eapply walk_snoc.
      * eapply walk_mono; [| exact Hwalk]. intros e He. eapply cl_edges_mono; [| exact He]. apply incl_appr, incl_refl.
      * exists (lnot (true_lit s c)). split; [rewrite El; left; reflexivity | rewrite Enn; exact Hedge].
    + rewrite Ev, Hd, xadd_xadd. reflexivity.
    + intros l Hin. apply in_app_or in Hin. destruct Hin as [Hin | Hin]; [| apply HL; exact Hin].
      rewrite El in Hin. destruct Hin as [<- | []]. split; [exact Ev' | exact Hproc].
Qed.

(* the form used by the model: fuel n_vars, started on a finite cell of a state whose predecessors are in order *)
Theorem walk_total s row cur acc :
  edges_in (n_vars s) (edges O D dm DS s) -> preds_ok O D dm DS s -> diag0 (n_vars s) (dval s) ->
  row < n_vars s -> cur < n_vars s -> dval s row cur <> Inf ->
  exists L g, Dl.walk D s (n_vars s) row cur row acc = Some (acc ++ L) /\
              DlGraph_Proofs.walk (cl_edges s L) row cur g /\ dval s row cur = Fin g /\
              (forall l, In l L -> value s l = LF /\ proc s (fst l)).
Proof.
  intros HE HP HD Hr Hc Hf.
  destruct (gtree_depth _ _ _ _ _ (HP row cur Hr Hc Hf)) as [k Hk].
  assert (Hlt : k < n_vars s).
  { eapply (depth_lt (pget s) (dval s) (cedge s) (n_vars s)); [| exact Hk | exact Hc].
    intros p j g Hce. apply (HE p j g). apply (cedge_edge O D dm DS). exact Hce. }
  destruct (walk_spec s row cur k Hk (n_vars s) acc) as (L & g & H1 & H2 & H3 & H4); [lia |].
  exists L, g. rewrite (HD row Hr) in H3. cbn in H3. rewrite g_0l in H3. auto.
Qed.

End Expl.
