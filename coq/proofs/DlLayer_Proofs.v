(* The undo layers stay well formed (sorted keys, keys inside the matrices) under set_dist / set_pred / set_constr, hence
   under a cell write (wr_lyP) and, by the closure lemmas of DlPhase_Proofs, under the loops of propagate(from, to, dist). *)
From Coq Require Import List Arith Bool Lia.
From ORatio Require Import smt.DlDom smt.Dl proofs.DlOrd_Proofs proofs.DlBase_Proofs proofs.DlGraph_Proofs proofs.DlSpec_Proofs
  proofs.DlNet_Proofs proofs.DlPhase_Proofs.
Import ListNotations.

Section Layer.
Variable D : Type.
Variable dm : dom D.
Notation state := (state D).
Notation layers_ok := (layers_ok D).
Notation cap := (cap D).
Notation sq := (sq D).

Lemma pm_set_range {T} (k : key) (v : T) m c :
  pm_sorted m -> fst k < c /\ snd k < c ->
  (forall k' v', pm_find k' m = Some v' -> fst k' < c /\ snd k' < c) ->
  forall k' v', pm_find k' (pm_set k v m) = Some v' -> fst k' < c /\ snd k' < c.
Proof.
  intros Hs Hk H k' v' E. rewrite (pm_find_set k v m k' Hs) in E.
  destruct (key_eqb_spec k' k) as [-> | Hn]; [exact Hk | eapply H; exact E].
Qed.

Lemma set_dist_layers s i j v : layers_ok s -> i < cap s -> j < cap s -> layers_ok (set_dist D dm s i j v).
Proof.
  intros [L1 L2] Hi Hj. unfold DlNet_Proofs.cap in *.
  assert (Ed : length (dists (set_dist D dm s i j v)) = length (dists s)) by (rewrite set_dist_dists; unfold mset; apply lset_length).
  pose proof (layers_set_dist D dm s i j v) as El.
  constructor; rewrite El, ?Ed.
  - destruct (layers s) as [| l r]; [constructor |]. inversion L1 as [| ? ? (A & B & C) L1']; subst. constructor; [| exact L1'].
    destruct (pm_mem (i, j) (old_dists l)); cbn; [auto |]. split; [apply pm_set_sorted; exact A | auto].
  - destruct (layers s) as [| l r]; [constructor |]. inversion L2 as [| ? ? (A & B) L2']; subst. constructor; [| exact L2'].
    inversion L1 as [| ? ? (S1 & _) _]; subst.
    destruct (pm_mem (i, j) (old_dists l)); cbn; [auto |]. split; [| exact B].
    apply pm_set_range; [exact S1 | cbn; auto | exact A].
Qed.

Lemma set_pred_layers s i j p : layers_ok s -> i < cap s -> j < cap s -> layers_ok (set_pred D s i j p).
Proof.
  intros [L1 L2] Hi Hj. unfold DlNet_Proofs.cap in *. unfold Dl.set_pred. constructor; cbn.
  - destruct (layers s) as [| l r]; [constructor |]. inversion L1 as [| ? ? (A & B & C) L1']; subst. constructor; [| exact L1'].
    destruct (pm_mem (i, j) (old_preds l)); cbn; [auto |]. split; [exact A | split; [apply pm_set_sorted; exact B | exact C]].
  - destruct (layers s) as [| l r]; [constructor |]. inversion L2 as [| ? ? (A & B) L2']; subst. constructor; [| exact L2'].
    inversion L1 as [| ? ? (_ & S2 & _) _]; subst.
    destruct (pm_mem (i, j) (old_preds l)); cbn; [auto |]. split; [exact A |].
    apply pm_set_range; [exact S2 | cbn; auto | exact B].
Qed.

Lemma set_constr_layers s k c : layers_ok s -> layers_ok (set_constr D s k c).
Proof.
  intros [L1 L2]. unfold Dl.set_constr. constructor; cbn.
  - destruct (layers s) as [| l r]; [constructor |]. inversion L1 as [| ? ? (A & B & C) L1']; subst. constructor; [| exact L1'].
    destruct (pm_mem k (old_constrs l)); cbn; [auto |]. split; [exact A | split; [exact B | apply pm_set_sorted; exact C]].
  - destruct (layers s) as [| l r]; [constructor |]. inversion L2 as [| ? ? (A & B) L2']; subst. constructor; [| exact L2'].
    destruct (pm_mem k (old_constrs l)); cbn; auto.
Qed.

(* a state with square matrices of side c0 and well-formed layers *)
Definition lyP (c0 : nat) (s : state) : Prop := sq s /\ cap s = c0 /\ layers_ok s.

Lemma wr_lyP c0 s i j v p : lyP c0 s -> i < c0 -> j < c0 -> lyP c0 (wr D dm s i j v p).
Proof.
  intros (Q & C & L) Hi Hj. unfold wr.
  destruct (set_dist_sq D dm s i j v Q) as [Q1 C1].
  destruct (set_pred_sq D (set_dist D dm s i j v) i j p Q1) as [Q2 C2].
  split; [exact Q2 |]. split; [congruence |].
  apply set_pred_layers; [apply set_dist_layers; [exact L | lia | lia] | lia | lia].
Qed.

Lemma push_layers s : layers_ok s -> layers_ok (do_push D s).
Proof.
  intros [A1 A2]. constructor; unfold do_push, theory_push, set_sat, set_net; cbn.
  - constructor; [repeat split; constructor | exact A1].
  - constructor; [split; intros k v E; discriminate | exact A2].
Qed.

End Layer.

Lemma shape_sq O D dm DS (s : state D) : shape_ok O D dm DS s -> sq D s.
Proof. intros [A1 A2 _ _ _]. split; assumption. Qed.

