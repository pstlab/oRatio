(* C15, part 2: the generated model of smt/arith/inf_rational.h (gen/Gen_arith.v, functions irat_* and the scalar
   friends) against exact arithmetic on pairs (r, i) standing for r + i*eps, ordered lexicographically.
   Every theorem is about the *generated* definitions and is derived from the rational theorems of Rat_Proofs.v; the
   lemmas in between are about the specification side (base/RatSpec.v). *)
From Coq Require Import ZArith QArith Bool Lia.
From ORatio Require Import gen.Gen_arith base.RatSpec proofs.Rat_Proofs.
Local Open Scope Z_scope.

(* the value 0 + 0*eps, against which the predicates of inf_rational are stated *)
Definition izero : ext * ext := (Fin 0, Fin 0).

Lemma obind_some a f e : obind a f = Some e -> exists x, a = Some x /\ f x = Some e.
Proof. destruct a as [x|]; cbn; [eauto|discriminate]. Qed.

(* every operator of inf_rational builds its result from two rational results, each right where its component of the
   exact operation is defined *)
Lemma pair_spec r i o1 o2 e : opt2 o1 o2 = Some e ->
  (forall x, o1 = Some x -> ok r x) -> (forall y, o2 = Some y -> ok i y) ->
  iwf (irat_ctor_rat_rat r i) /\ lex_eq (ival (irat_ctor_rat_rat r i)) e.
Proof.
  destruct o1 as [x|], o2 as [y|]; try discriminate. intros E H1 H2. apply Some_inj in E. subst e.
  destruct (H1 x eq_refl), (H2 y eq_refl). repeat split; assumption.
Qed.

Lemma ext_inv_compat x x' i : ext_eq x x' -> ext_inv x = Some i -> exists i', ext_inv x' = Some i' /\ ext_eq i i'.
Proof.
  intros H. pose proof (ext_sgn_compat _ _ H) as S.
  destruct x as [p| |], x' as [q| |]; cbn in H; try tauto; cbn [ext_inv].
  - cbn in S. destruct (Z.eqb_spec (Qnum p) 0) as [E|E]; [discriminate|]. intros Hi; apply Some_inj in Hi; subst i.
    destruct (Z.eqb_spec (Qnum q) 0) as [E'|E']; [rewrite E' in S; destruct (Qnum p); cbn in S; lia|].
    eexists; split; [reflexivity|]. cbn. now rewrite H.
  - intros Hi. exists i. split; [exact Hi|apply ext_eq_refl].
  - intros Hi. exists i. split; [exact Hi|apply ext_eq_refl].
Qed.

Lemma ext_div_compat x x' y y' e : ext_eq x x' -> ext_eq y y' -> ext_div x y = Some e ->
  exists e', ext_div x' y' = Some e' /\ ext_eq e e'.
Proof.
  intros Hx Hy. unfold ext_div. destruct (ext_inv y) as [i|] eqn:Ei; [|discriminate]. intros H.
  destruct (ext_inv_compat y y' i Hy Ei) as (i' & Ei' & Hii). rewrite Ei'.
  exact (ext_mul_compat x x' i i' e Hx Hii H).
Qed.

Lemma zero_wf_val : wf rat_ctor /\ ext_eq (val rat_ctor) (Fin 0).
Proof. split; [apply ctor0_spec|cbn; reflexivity]. Qed.

Theorem ictors_spec :
  (forall k, iwf (irat_ctor_int k) /\ ival (irat_ctor_int k) = iext_of (ext_of_Z k)) /\
  (forall n d, ~ (n = 0 /\ d = 0) -> iwf (irat_ctor_int_int n d) /\ lex_eq (ival (irat_ctor_int_int n d)) (iext_of (val_frac n d))) /\
  (forall r, wf r -> iwf (irat_ctor_rat r) /\ ival (irat_ctor_rat r) = iext_of (val r)) /\
  (forall r k, wf r -> iwf (irat_ctor_rat_int r k) /\ ival (irat_ctor_rat_int r k) = (val r, ext_of_Z k)) /\
  (forall r i, wf r -> wf i -> iwf (irat_ctor_rat_rat r i) /\ ival (irat_ctor_rat_rat r i) = (val r, val i)).
Proof.
  pose proof (proj1 ctor0_spec) as W0. split; [|split; [|split; [|split]]].
  - intros k. split; [split; [apply wf_int|exact W0]|reflexivity].
  - intros n d H. destruct (ctor2_spec n d H) as [W V]. split; [split; [exact W|exact W0]|split; [exact V|apply ext_eq_refl]].
  - intros r H. split; [split; [exact H|exact W0]|reflexivity].
  - intros r k H. split; [split; [exact H|apply wf_int]|reflexivity].
  - intros r i H1 H2. split; [split; assumption|reflexivity].
Qed.

(* addition and subtraction are component-wise; a scalar operand r stands for r + 0*eps and leaves the infinitesimal part
   alone (x + 0 and x - 0 are x up to ext_eq, by the same lemma since -0 is 0 in Q) *)
Theorem iadd_spec a b e : iwf a -> iwf b -> iext_add (ival a) (ival b) = Some e ->
  iwf (irat_add_irat a b) /\ lex_eq (ival (irat_add_irat a b)) e.
Proof. intros [A1 A2] [B1 B2] H. apply (pair_spec _ _ _ _ _ H); intros x; now apply add_spec. Qed.

Theorem isub_spec a b e : iwf a -> iwf b -> iext_sub (ival a) (ival b) = Some e ->
  iwf (irat_sub_irat a b) /\ lex_eq (ival (irat_sub_irat a b)) e.
Proof. intros [A1 A2] [B1 B2] H. apply (pair_spec _ _ _ _ _ H); intros x; now apply sub_spec. Qed.

Theorem iadd_rat_spec a r e : iwf a -> wf r -> iext_add (ival a) (iext_of (val r)) = Some e ->
  iwf (irat_add_rat a r) /\ lex_eq (ival (irat_add_rat a r)) e.
Proof.
  intros [A1 A2] R H. apply (pair_spec _ _ _ _ _ H); intros x Hx; [now apply add_spec|exact (conj A2 (ext_add_0_r _ _ Hx))].
Qed.

Theorem iadd_int_spec a k e : iwf a -> iext_add (ival a) (iext_of (ext_of_Z k)) = Some e ->
  iwf (irat_add_int a k) /\ lex_eq (ival (irat_add_int a k)) e.
Proof.
  intros [A1 A2] H. apply (pair_spec _ _ _ _ _ H); intros x Hx; [now apply add_int_spec|exact (conj A2 (ext_add_0_r _ _ Hx))].
Qed.

Theorem rat_add_irat_spec r b e : wf r -> iwf b -> iext_add (iext_of (val r)) (ival b) = Some e ->
  iwf (rat_add_irat r b) /\ lex_eq (ival (rat_add_irat r b)) e.
Proof.
  intros R [B1 B2] H. apply (pair_spec _ _ _ _ _ H); intros x Hx; [now apply add_spec|exact (conj B2 (ext_add_0_l _ _ Hx))].
Qed.

Theorem int_add_irat_spec k b e : iwf b -> iext_add (iext_of (ext_of_Z k)) (ival b) = Some e ->
  iwf (int_add_irat k b) /\ lex_eq (ival (int_add_irat k b)) e.
Proof.
  intros [B1 B2] H. apply (pair_spec _ _ _ _ _ H); intros x Hx; [now apply int_add_spec|exact (conj B2 (ext_add_0_l _ _ Hx))].
Qed.

Theorem isub_rat_spec a r e : iwf a -> wf r -> iext_sub (ival a) (iext_of (val r)) = Some e ->
  iwf (irat_sub_rat a r) /\ lex_eq (ival (irat_sub_rat a r)) e.
Proof.
  intros [A1 A2] R H. apply (pair_spec _ _ _ _ _ H); intros x Hx; [now apply sub_spec|exact (conj A2 (ext_add_0_r _ _ Hx))].
Qed.

Theorem isub_int_spec a k e : iwf a -> iext_sub (ival a) (iext_of (ext_of_Z k)) = Some e ->
  iwf (irat_sub_int a k) /\ lex_eq (ival (irat_sub_int a k)) e.
Proof.
  intros [A1 A2] H. apply (pair_spec _ _ _ _ _ H); intros x Hx; [now apply sub_int_spec|exact (conj A2 (ext_add_0_r _ _ Hx))].
Qed.

(* scalar - (r + i eps) = (scalar - r) + (-i) eps *)
Lemma neg_inf_part i y : wf i -> ext_sub (Fin 0) (val i) = Some y -> ok (rat_neg i) y.
Proof. intros I H. destruct (neg_spec i I) as [N1 N2]. split; [exact N1|]. rewrite N2. exact (ext_add_0_l _ _ H). Qed.

Theorem rat_sub_irat_spec r b e : wf r -> iwf b -> iext_sub (iext_of (val r)) (ival b) = Some e ->
  iwf (rat_sub_irat r b) /\ lex_eq (ival (rat_sub_irat r b)) e.
Proof.
  intros R [B1 B2] H. apply (pair_spec _ _ _ _ _ H); intros x Hx; [now apply sub_spec|now apply neg_inf_part].
Qed.

Theorem int_sub_irat_spec k b e : iwf b -> iext_sub (iext_of (ext_of_Z k)) (ival b) = Some e ->
  iwf (int_sub_irat k b) /\ lex_eq (ival (int_sub_irat k b)) e.
Proof.
  intros [B1 B2] H. apply (pair_spec _ _ _ _ _ H); intros x Hx; [now apply int_sub_spec|now apply neg_inf_part].
Qed.

Theorem ineg_spec a : iwf a -> iwf (irat_neg a) /\ ival (irat_neg a) = iext_opp (ival a).
Proof.
  intros [A1 A2]. destruct (neg_spec _ A1) as [N1 N2]. destruct (neg_spec _ A2) as [M1 M2].
  split; [split; assumption|]. unfold ival, iext_opp, irat_neg; cbn [irat_ctor_rat_rat irat_rat irat_inf fst snd]. now rewrite N2, M2.
Qed.

Theorem imul_rat_spec a r e : iwf a -> wf r -> iext_scale (ival a) (val r) = Some e ->
  iwf (irat_mul_rat a r) /\ lex_eq (ival (irat_mul_rat a r)) e.
Proof. intros [A1 A2] R H. apply (pair_spec _ _ _ _ _ H); intros x; now apply mul_spec. Qed.

Theorem imul_int_spec a k e : iwf a -> iext_scale (ival a) (ext_of_Z k) = Some e ->
  iwf (irat_mul_int a k) /\ lex_eq (ival (irat_mul_int a k)) e.
Proof. intros [A1 A2] H. apply (pair_spec _ _ _ _ _ H); intros x; now apply mul_int_spec. Qed.

Theorem rat_mul_irat_spec r b e : wf r -> iwf b -> iext_lscale (val r) (ival b) = Some e ->
  iwf (rat_mul_irat r b) /\ lex_eq (ival (rat_mul_irat r b)) e.
Proof. intros R [B1 B2] H. apply (pair_spec _ _ _ _ _ H); intros x; now apply mul_spec. Qed.

Theorem int_mul_irat_spec k b e : iwf b -> iext_lscale (ext_of_Z k) (ival b) = Some e ->
  iwf (int_mul_irat k b) /\ lex_eq (ival (int_mul_irat k b)) e.
Proof. intros [B1 B2] H. apply (pair_spec _ _ _ _ _ H); intros x; now apply int_mul_spec. Qed.

Theorem idiv_rat_spec a r e : iwf a -> wf r -> iext_divs (ival a) (val r) = Some e ->
  iwf (irat_div_rat a r) /\ lex_eq (ival (irat_div_rat a r)) e.
Proof. intros [A1 A2] R H. apply (pair_spec _ _ _ _ _ H); intros x; now apply div_spec. Qed.

Theorem idiv_int_spec a k e : iwf a -> iext_divs (ival a) (ext_of_Z k) = Some e ->
  iwf (irat_div_int a k) /\ lex_eq (ival (irat_div_int a k)) e.
Proof. intros [A1 A2] H. apply (pair_spec _ _ _ _ _ H); intros x; now apply div_int_spec. Qed.

(* k / (r + i eps) = k/r - (k*i / r^2) eps, the first-order quotient *)
Lemma ldiv_inf_part k r i e : wf k -> wf r -> wf i ->
  obind (ext_mul (val k) (val i)) (fun ki => obind (ext_mul (val r) (val r)) (fun r2 => ext_div (ext_opp ki) r2)) = Some e ->
  ok (rat_div_rat (rat_neg (rat_mul_rat k i)) (rat_mul_rat r r)) e.
Proof.
  intros K R I H. apply obind_some in H as (ki & Hki & H). apply obind_some in H as (r2 & Hr2 & H).
  destruct (mul_spec k i ki K I Hki) as [W1 V1]. destruct (mul_spec r r r2 R R Hr2) as [W2 V2].
  destruct (neg_spec _ W1) as [W3 V3].
  assert (V4 : ext_eq (ext_opp ki) (val (rat_neg (rat_mul_rat k i)))) by (rewrite V3; apply ext_opp_compat, ext_eq_sym; exact V1).
  destruct (ext_div_compat _ _ _ _ e V4 (ext_eq_sym _ _ V2) H) as (e' & He' & Hee).
  exact (ok_eq _ _ _ (div_spec _ _ e' W3 W2 He') (ext_eq_sym _ _ Hee)).
Qed.

Theorem rat_div_irat_spec k b e : wf k -> iwf b -> iext_ldiv (val k) (ival b) = Some e ->
  iwf (rat_div_irat k b) /\ lex_eq (ival (rat_div_irat k b)) e.
Proof.
  intros K [B1 B2] H. apply (pair_spec _ _ _ _ _ H); intros x Hx; [now apply div_spec|now apply ldiv_inf_part].
Qed.

Theorem int_div_irat_spec k b e : iwf b -> iext_ldiv (ext_of_Z k) (ival b) = Some e ->
  iwf (int_div_irat k b) /\ lex_eq (ival (int_div_irat k b)) e.
Proof.
  intros [B1 B2] H. apply (pair_spec _ _ _ _ _ H); intros x Hx; [now apply int_div_spec|].
  exact (ldiv_inf_part (rat_ctor_int k) _ _ x (wf_int k) B1 B2 Hx).
Qed.

(* compound assignments = binary operators (on canonical operands, where the operation is defined): the same rational
   operations on the same components *)
Lemma opt2_defined a b : opt2 a b <> None -> a <> None /\ b <> None.
Proof. destruct a, b; cbn; intros H; split; congruence. Qed.

Lemma ext_add_fin_defined x q : ext_add x (Fin q) <> None.
Proof. destruct x; cbn; discriminate. Qed.

Lemma ext_sub_fin_defined x q : ext_sub x (Fin q) <> None.
Proof. destruct x; cbn; discriminate. Qed.

Theorem iaddeq_irat_is_add a b : iwf a -> iwf b -> iext_add (ival a) (ival b) <> None -> irat_addeq_irat a b = irat_add_irat a b.
Proof.
  intros [A1 A2] [B1 B2] [H1 H2]%opt2_defined. unfold irat_addeq_irat, set_irat_rat, set_irat_inf; cbn [irat_rat irat_inf].
  now rewrite !addeq_rat_is_add.
Qed.

Theorem iaddeq_rat_is_add a r : iwf a -> wf r -> iext_add (ival a) (iext_of (val r)) <> None -> irat_addeq_rat a r = irat_add_rat a r.
Proof. intros [A1 A2] R [H1 _]%opt2_defined. unfold irat_addeq_rat, set_irat_rat. now rewrite addeq_rat_is_add. Qed.

Theorem iaddeq_int_is_add a k : iwf a -> irat_addeq_int a k = irat_add_int a k.
Proof. intros [A _]. unfold irat_addeq_int, set_irat_rat. now rewrite addeq_int_is_add. Qed.

Theorem isubeq_irat_is_sub a b : iwf a -> iwf b -> iext_sub (ival a) (ival b) <> None -> irat_subeq_irat a b = irat_sub_irat a b.
Proof.
  intros [A1 A2] [B1 B2] [H1 H2]%opt2_defined. unfold irat_subeq_irat, set_irat_rat, set_irat_inf; cbn [irat_rat irat_inf].
  now rewrite !subeq_rat_is_sub.
Qed.

Theorem isubeq_rat_is_sub a r : iwf a -> wf r -> iext_sub (ival a) (iext_of (val r)) <> None -> irat_subeq_rat a r = irat_sub_rat a r.
Proof. intros [A1 A2] R [H1 _]%opt2_defined. unfold irat_subeq_rat, set_irat_rat. now rewrite subeq_rat_is_sub. Qed.

Theorem isubeq_int_is_sub a k : iwf a -> irat_subeq_int a k = irat_sub_int a k.
Proof. intros [A _]. unfold irat_subeq_int, set_irat_rat. now rewrite subeq_int_is_sub. Qed.

Theorem imuleq_rat_is_mul a r : iwf a -> wf r -> iext_scale (ival a) (val r) <> None -> irat_muleq_rat a r = irat_mul_rat a r.
Proof.
  intros [A1 A2] R [H1 H2]%opt2_defined. unfold irat_muleq_rat, set_irat_rat, set_irat_inf; cbn [irat_rat irat_inf].
  now rewrite !muleq_rat_is_mul.
Qed.

Theorem imuleq_int_is_mul a k : iwf a -> iext_scale (ival a) (ext_of_Z k) <> None -> irat_muleq_int a k = irat_mul_int a k.
Proof.
  intros [A1 A2] [H1 H2]%opt2_defined. unfold irat_muleq_int, set_irat_rat, set_irat_inf; cbn [irat_rat irat_inf].
  now rewrite !muleq_int_is_mul.
Qed.

Theorem idiveq_rat_is_div a r : iwf a -> wf r -> iext_divs (ival a) (val r) <> None -> irat_diveq_rat a r = irat_div_rat a r.
Proof.
  intros [A1 A2] R [H1 H2]%opt2_defined. unfold irat_diveq_rat, set_irat_rat, set_irat_inf; cbn [irat_rat irat_inf].
  now rewrite !diveq_rat_is_div.
Qed.

Theorem idiveq_int_is_div a k : iwf a -> iext_divs (ival a) (ext_of_Z k) <> None -> irat_diveq_int a k = irat_div_int a k.
Proof.
  intros [A1 A2] [H1 H2]%opt2_defined. unfold irat_diveq_int, set_irat_rat, set_irat_inf; cbn [irat_rat irat_inf].
  now rewrite !diveq_int_is_div.
Qed.

Lemma lex_le_alt x y : lex_le x y <-> ext_lt (fst x) (fst y) \/ ext_eq (fst x) (fst y) /\ ext_le (snd x) (snd y).
Proof. unfold lex_le, lex_lt, lex_eq, ext_le. tauto. Qed.

Theorem ilt_spec a b : iwf a -> iwf b -> (irat_lt_irat a b = true <-> lex_lt (ival a) (ival b)).
Proof. intros [A1 A2] [B1 B2]. apply lex_test; [apply lt_spec|apply eq_spec|apply lt_spec]; assumption. Qed.

Theorem ile_spec a b : iwf a -> iwf b -> (irat_le_irat a b = true <-> lex_le (ival a) (ival b)).
Proof. intros [A1 A2] [B1 B2]. rewrite lex_le_alt. apply lex_test; [apply lt_spec|apply eq_spec|apply le_spec]; assumption. Qed.

Theorem ieq_spec a b : iwf a -> iwf b -> (irat_eq_irat a b = true <-> lex_eq (ival a) (ival b)).
Proof. intros [A1 A2] [B1 B2]. apply and_test; apply eq_spec; assumption. Qed.

Theorem ine_spec a b : iwf a -> iwf b -> (irat_ne_irat a b = true <-> ~ lex_eq (ival a) (ival b)).
Proof. intros Ha Hb. unfold irat_ne_irat. rewrite !rat_ne_as_eq, <- negb_andb. now apply negb_test, ieq_spec. Qed.

Theorem ige_spec a b : iwf a -> iwf b -> (irat_ge_irat a b = true <-> lex_le (ival b) (ival a)).
Proof. intros [A1 A2] [B1 B2]. rewrite lex_le_alt. apply lex_test; [apply gt_spec|apply eq_spec_sym|apply ge_spec]; assumption. Qed.

Theorem igt_spec a b : iwf a -> iwf b -> (irat_gt_irat a b = true <-> lex_lt (ival b) (ival a)).
Proof. intros [A1 A2] [B1 B2]. apply lex_test; [apply gt_spec|apply eq_spec_sym|apply gt_spec]; assumption. Qed.

(* against a rational r, which stands for r + 0*eps: the infinitesimal part is compared with 0 by the sign predicates *)
Theorem irat_rat_cmp_spec a r : iwf a -> wf r ->
  (irat_lt_rat a r = true <-> lex_lt (ival a) (iext_of (val r))) /\
  (irat_le_rat a r = true <-> lex_le (ival a) (iext_of (val r))) /\
  (irat_eq_rat a r = true <-> lex_eq (ival a) (iext_of (val r))) /\
  (irat_ne_rat a r = true <-> ~ lex_eq (ival a) (iext_of (val r))) /\
  (irat_ge_rat a r = true <-> lex_le (iext_of (val r)) (ival a)) /\
  (irat_gt_rat a r = true <-> lex_lt (iext_of (val r)) (ival a)).
Proof.
  intros [A1 A2] R.
  assert (E : irat_eq_rat a r = true <-> lex_eq (ival a) (iext_of (val r))) by (apply and_test; [now apply eq_spec|now apply is_zero_spec]).
  split; [|split; [|split; [exact E|split; [|split]]]].
  - apply lex_test; [now apply lt_spec|now apply eq_spec|now apply is_negative_spec].
  - rewrite lex_le_alt. apply lex_test; [now apply lt_spec|now apply eq_spec|now apply is_negative_or_zero_spec].
  - unfold irat_ne_rat. rewrite rat_ne_as_eq, <- negb_andb. now apply negb_test.
  - rewrite lex_le_alt. apply lex_test; [now apply gt_spec|now apply eq_spec_sym|now apply is_positive_or_zero_spec].
  - apply lex_test; [now apply gt_spec|now apply eq_spec_sym|now apply is_positive_spec].
Qed.

Theorem irat_int_cmp_spec a k : iwf a ->
  (irat_lt_int a k = true <-> lex_lt (ival a) (iext_of (ext_of_Z k))) /\
  (irat_le_int a k = true <-> lex_le (ival a) (iext_of (ext_of_Z k))) /\
  (irat_eq_int a k = true <-> lex_eq (ival a) (iext_of (ext_of_Z k))) /\
  (irat_ne_int a k = true <-> ~ lex_eq (ival a) (iext_of (ext_of_Z k))) /\
  (irat_ge_int a k = true <-> lex_le (iext_of (ext_of_Z k)) (ival a)) /\
  (irat_gt_int a k = true <-> lex_lt (iext_of (ext_of_Z k)) (ival a)).
Proof.
  intros [A1 A2]. pose proof (eq_int_spec _ k A1) as E1.
  assert (E1' : rat_eq_int (irat_rat a) k = true <-> ext_eq (ext_of_Z k) (val (irat_rat a))) by now rewrite ext_eq_sym_iff.
  assert (E : irat_eq_int a k = true <-> lex_eq (ival a) (iext_of (ext_of_Z k))) by (apply and_test; [exact E1|now apply is_zero_spec]).
  split; [|split; [|split; [exact E|split; [|split]]]].
  - apply lex_test; [now apply lt_int_spec|exact E1|now apply is_negative_spec].
  - rewrite lex_le_alt. apply lex_test; [now apply lt_int_spec|exact E1|now apply is_negative_or_zero_spec].
  - unfold irat_ne_int, rat_ne_int. rewrite <- !negb_andb. now apply negb_test.
  - rewrite lex_le_alt. apply lex_test; [now apply gt_int_spec|exact E1'|now apply is_positive_or_zero_spec].
  - apply lex_test; [now apply gt_int_spec|exact E1'|now apply is_positive_spec].
Qed.

Lemma lex_trichotomy x y : lex_lt x y \/ lex_eq x y \/ lex_lt y x.
Proof.
  unfold lex_lt, lex_eq. destruct (ext_trichotomy (fst x) (fst y)) as [H|[H|H]]; auto.
  destruct (ext_trichotomy (snd x) (snd y)) as [G|[G|G]]; auto.
  right; right; right. split; [apply ext_eq_sym; exact H|exact G].
Qed.

Lemma lex_lt_eq_excl x y : lex_lt x y -> lex_eq x y -> False.
Proof. intros [H|[_ H]] [E1 E2]; eapply ext_lt_eq_excl; eauto. Qed.

Lemma lex_lt_asym x y : lex_lt x y -> lex_lt y x -> False.
Proof.
  intros [H|[E H]] [G|[F G]].
  - eapply ext_lt_asym; eauto.
  - eapply ext_lt_eq_excl; [exact H|apply ext_eq_sym; exact F].
  - eapply ext_lt_eq_excl; [exact G|apply ext_eq_sym; exact E].
  - eapply ext_lt_asym; eauto.
Qed.

Lemma lex_lt_trans x y z : lex_lt x y -> lex_lt y z -> lex_lt x z.
Proof.
  unfold lex_lt. intros [H|[E H]] [G|[F G]].
  - left. eapply ext_lt_trans; eauto.
  - left. eapply ext_lt_compat; [apply ext_eq_refl|exact F|exact H].
  - left. eapply ext_lt_compat; [apply ext_eq_sym; exact E|apply ext_eq_refl|exact G].
  - right. split; [eapply ext_eq_trans; eauto|eapply ext_lt_trans; eauto].
Qed.

Theorem irat_order_total a b : iwf a -> iwf b ->
  (irat_lt_irat a b = true /\ irat_eq_irat a b = false /\ irat_gt_irat a b = false) \/
  (irat_lt_irat a b = false /\ irat_eq_irat a b = true /\ irat_gt_irat a b = false) \/
  (irat_lt_irat a b = false /\ irat_eq_irat a b = false /\ irat_gt_irat a b = true).
Proof.
  intros Ha Hb. apply (one_of_three _ _ _ _ _ _ (ilt_spec a b Ha Hb) (ieq_spec a b Ha Hb) (igt_spec a b Ha Hb)).
  - apply lex_trichotomy.
  - apply lex_lt_eq_excl.
  - apply lex_lt_asym.
  - intros G [E1 E2]. apply (lex_lt_eq_excl _ _ G). split; apply ext_eq_sym; assumption.
Qed.

Theorem irat_lt_trans a b c : iwf a -> iwf b -> iwf c ->
  irat_lt_irat a b = true -> irat_lt_irat b c = true -> irat_lt_irat a c = true.
Proof.
  intros Ha Hb Hc. rewrite (ilt_spec a b), (ilt_spec b c), (ilt_spec a c) by assumption. apply lex_lt_trans.
Qed.

Theorem irat_predicates_spec a : iwf a ->
  (is_zero_irat a = true <-> lex_eq (ival a) izero) /\
  (is_positive_irat a = true <-> lex_lt izero (ival a)) /\
  (is_negative_irat a = true <-> lex_lt (ival a) izero) /\
  (is_positive_or_zero_irat a = true <-> lex_le izero (ival a)) /\
  (is_negative_or_zero_irat a = true <-> lex_le (ival a) izero) /\
  (is_infinite_irat a = true <-> fst (ival a) = PInf \/ fst (ival a) = NInf) /\
  (is_positive_infinite_irat a = true <-> fst (ival a) = PInf) /\
  (is_negative_infinite_irat a = true <-> fst (ival a) = NInf).
Proof.
  intros [A1 A2]. pose proof (is_zero_spec _ A1) as Z1.
  assert (Z1' : is_zero_rat (irat_rat a) = true <-> ext_eq (Fin 0) (val (irat_rat a))) by now rewrite ext_eq_sym_iff.
  assert (P : is_positive_irat a = true <-> lex_lt izero (ival a))
    by (apply lex_test; [now apply is_positive_spec|exact Z1'|now apply is_positive_spec]).
  assert (N : is_negative_irat a = true <-> lex_lt (ival a) izero)
    by (apply lex_test; [now apply is_negative_spec|exact Z1|now apply is_negative_spec]).
  assert (I : is_infinite_irat a = true <-> fst (ival a) = PInf \/ fst (ival a) = NInf) by now apply is_infinite_spec.
  split; [|split; [exact P|split; [exact N|split; [|split; [|split; [exact I|split]]]]]].
  - apply and_test; [exact Z1|now apply is_zero_spec].
  - rewrite lex_le_alt. apply lex_test; [now apply is_positive_spec|exact Z1'|now apply is_positive_or_zero_spec].
  - rewrite lex_le_alt. apply lex_test; [now apply is_negative_spec|exact Z1|now apply is_negative_or_zero_spec].
  - unfold is_positive_infinite_irat. rewrite andb_true_iff, P, I. clear. unfold lex_lt; cbn [izero ival fst snd].
    destruct (val (irat_rat a)); cbn; intuition discriminate.
  - unfold is_negative_infinite_irat. rewrite andb_true_iff, N, I. clear. unfold lex_lt; cbn [izero ival fst snd].
    destruct (val (irat_rat a)); cbn; intuition discriminate.
Qed.

Theorem iget_spec a : a = mk_irat (irat_get_rational a) (irat_get_infinitesimal a).
Proof. now destruct a. Qed.

(* non-vacuity: 5 - (1 + 2 eps) = 4 - 2 eps ;  6 / (2 + eps) = 3 - 3/2 eps ;  (1 + eps) < (1 + 2 eps) *)
Example irat_example :
  iwf (mk_irat (mk_rat 1 1) (mk_rat 2 1)) /\
  int_sub_irat 5 (mk_irat (mk_rat 1 1) (mk_rat 2 1)) = mk_irat (mk_rat 4 1) (mk_rat (-2) 1) /\
  int_div_irat 6 (mk_irat (mk_rat 2 1) (mk_rat 1 1)) = mk_irat (mk_rat 3 1) (mk_rat (-3) 2) /\
  irat_lt_irat (mk_irat (mk_rat 1 1) (mk_rat 1 1)) (mk_irat (mk_rat 1 1) (mk_rat 2 1)) = true.
Proof. repeat split; try (left; cbn; split; [lia|reflexivity]). Qed.
