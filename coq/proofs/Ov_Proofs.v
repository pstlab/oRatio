(* Proofs about the model coq/smt/Ov.v of ov_theory (property C14), on top of proofs/SatEnc_Proofs.v (C13).

   takes a d v      under the total assignment a the object variable with domain d takes the allowed value v
   one_value a d    ... takes exactly one allowed value
   same_value       two variables take a common value
   ov_wf o          invariant of reachable ov_theory states: the sat_core is well-formed (C13), every domain is a non-empty
                    map (no repeated key) to existing literals, every cached equality literal means "same value" for the
                    assignments in which both variables take exactly one value.
   All statements hold for every iteration order of the unordered containers inside new_eq (`iteration`: permutations),
   every std::sort and every ceiling root (`externals`, C13). *)
From Coq Require Import List Bool Arith Lia Permutation.
From ORatio Require Import smt.SatEnc smt.Ov proofs.SatEnc_Proofs.
Import ListNotations.

Lemma dom_find_in : forall d k l, dom_find d k = Some l -> In (k, l) d.
Proof.
  induction d as [|[k' l'] d IH]; cbn; intros k l H; [discriminate|].
  destruct (Nat.eqb k k') eqn:E; [apply Nat.eqb_eq in E; inversion H; subst; left; reflexivity | right; apply IH, H].
Qed.

Lemma dom_find_none : forall d k, dom_find d k = None <-> ~ In k (map fst d).
Proof.
  induction d as [|[k' l'] d IH]; cbn; intros k; [tauto|].
  destruct (Nat.eqb k k') eqn:E.
  - apply Nat.eqb_eq in E; subst. split; [discriminate | intros H; exfalso; apply H; left; reflexivity].
  - apply Nat.eqb_neq in E. rewrite IH. split; [intros H [H1|H1]; [congruence | contradiction] | intros H H1; apply H; right; exact H1].
Qed.

Lemma in_dom_find : forall d k l, NoDup (map fst d) -> In (k, l) d -> dom_find d k = Some l.
Proof.
  induction d as [|[k' l'] d IH]; cbn; intros k l ND H; [contradiction|]. inversion ND as [|? ? Nk NDr]; subst.
  destruct H as [E|H].
  - inversion E; subst. rewrite Nat.eqb_refl; reflexivity.
  - destruct (Nat.eqb k k') eqn:E; [|apply IH; assumption]. apply Nat.eqb_eq in E; subst. exfalso; apply Nk.
    apply in_map_iff. exists (k', l); auto.
Qed.

Lemma dom_mem_true : forall d k, dom_mem d k = true <-> exists l, dom_find d k = Some l.
Proof. intros d k; unfold dom_mem; destruct (dom_find d k) as [l|]; split; intros H; eauto; try discriminate. destruct H; discriminate. Qed.

Lemma dom_mem_false : forall d k, dom_mem d k = false <-> dom_find d k = None.
Proof. intros d k; unfold dom_mem; destruct (dom_find d k); split; intros H; congruence. Qed.

Lemma dom_lit_found : forall d k, dom_mem d k = true -> dom_find d k = Some (dom_lit d k).
Proof. intros d k M. apply dom_mem_true in M as [l F]. unfold dom_lit. rewrite F. reflexivity. Qed.

Lemma dom_find_app : forall d1 d2 k, dom_find (d1 ++ d2) k = match dom_find d1 k with Some l => Some l | None => dom_find d2 k end.
Proof. induction d1 as [|[k' l'] d1 IH]; cbn; intros d2 k; [reflexivity|]. destruct (Nat.eqb k k'); [reflexivity | apply IH]. Qed.

Lemma dom_emplace_find : forall d k l k', dom_find (dom_emplace d k l) k' =
  match dom_find d k' with Some x => Some x | None => if Nat.eqb k' k then Some l else None end.
Proof.
  intros d k l k'; unfold dom_emplace. destruct (dom_mem d k) eqn:M.
  - destruct (dom_find d k') eqn:F; [reflexivity|]. destruct (Nat.eqb k' k) eqn:E; [|reflexivity].
    apply Nat.eqb_eq in E; subst. apply dom_mem_true in M as [x Hx]. congruence.
  - rewrite dom_find_app. cbn. destruct (dom_find d k'); reflexivity.
Qed.

Lemma dom_emplace_nodup : forall d k l, NoDup (map fst d) -> NoDup (map fst (dom_emplace d k l)).
Proof.
  intros d k l ND; unfold dom_emplace. destruct (dom_mem d k) eqn:M; [exact ND|].
  rewrite map_app. cbn. apply dom_mem_false, dom_find_none in M.
  eapply Permutation_NoDup; [apply Permutation_cons_append|]. constructor; assumption.
Qed.

Lemma dom_emplace_forall : forall (P : nat * lit -> Prop) d k l, Forall P d -> P (k, l) -> Forall P (dom_emplace d k l).
Proof. intros P d k l F H. unfold dom_emplace. destruct (dom_mem d k); [exact F|]. apply Forall_app. split; [exact F | repeat constructor; exact H]. Qed.

Definition dom_ok (n : nat) (d : dom) : Prop :=
  NoDup (map fst d) /\ d <> [] /\ Forall (fun p => lit_below n (snd p)) d.

Definition eq_means (o : ov_state) (l r : nat) (c : lit) : Prop :=
  forall a, models a (sat o) -> one_value a (get_dom o l) -> one_value a (get_dom o r) ->
    (eval a c = true <-> same_value a (get_dom o l) (get_dom o r)).

Record ov_wf (o : ov_state) : Prop := mkOvWf {
  ow_sat : wf (sat o);
  ow_doms : Forall (dom_ok (nvars (sat o))) (doms o);
  ow_exprs : forall l r c, In (l, r, c) (oexprs o) ->
    l < r /\ r < length (doms o) /\ lit_below (nvars (sat o)) c /\ eq_means o l r c }.

Lemma same_value_sym : forall a d1 d2, same_value a d1 d2 <-> same_value a d2 d1.
Proof. intros a d1 d2; unfold same_value; split; intros [v [H1 H2]]; exists v; auto. Qed.

Lemma dom_ok_le : forall n m d, n <= m -> dom_ok n d -> dom_ok m d.
Proof.
  intros n m d L [ND [NE B]]. split; [exact ND|]. split; [exact NE|].
  eapply Forall_impl; [|exact B]. intros p; apply lit_below_le; exact L.
Qed.

Lemma dom_ok_find : forall n d k l, dom_ok n d -> dom_find d k = Some l -> lit_below n l.
Proof. intros n d k l [_ [_ B]] F. rewrite Forall_forall in B. apply (B _ (dom_find_in _ _ _ F)). Qed.

Lemma get_dom_ok : forall o v, ov_wf o -> v < length (doms o) -> dom_ok (nvars (sat o)) (get_dom o v).
Proof.
  intros o v W L. pose proof (ow_doms _ W) as F. rewrite Forall_forall in F. apply F. unfold get_dom. apply nth_In, L.
Qed.

Lemma get_dom_app_old : forall o d v, v < length (doms o) -> nth v (doms o ++ [d]) [] = get_dom o v.
Proof. intros o d v L; unfold get_dom. apply app_nth1, L. Qed.

Lemma oexpr_find_in : forall m l r c, oexpr_find m l r = Some c -> In (l, r, c) m.
Proof.
  induction m as [|[[l' r'] c'] m IH]; cbn; intros l r c H; [discriminate|].
  destruct (Nat.eqb l l' && Nat.eqb r r') eqn:E.
  - apply andb_true_iff in E as [E1 E2]. apply Nat.eqb_eq in E1, E2. inversion H; subst. left; reflexivity.
  - right; apply IH, H.
Qed.

(* assignments that agree on the existing variables see the same values *)
Lemma takes_agree : forall n a a' d v, agree_below n a a' -> dom_ok n d -> (takes a d v <-> takes a' d v).
Proof.
  intros n a a' d v A D. unfold takes.
  split; intros [l [F E]]; exists l; (split; [exact F|]); [rewrite <- (eval_agree _ _ _ l A) | rewrite (eval_agree _ _ _ l A)];
    eauto using dom_ok_find.
Qed.

Lemma one_value_agree : forall n a a' d, agree_below n a a' -> dom_ok n d -> (one_value a d <-> one_value a' d).
Proof.
  intros n a a' d A D. pose proof (fun v => takes_agree n a a' d v A D) as T. unfold one_value.
  split; intros [v [Tv U]]; exists v; (split; [apply T, Tv|]); intros w Tw; apply U, T, Tw.
Qed.

Lemma same_value_agree : forall n a a' d1 d2, agree_below n a a' -> dom_ok n d1 -> dom_ok n d2 -> (same_value a d1 d2 <-> same_value a' d1 d2).
Proof.
  intros n a a' d1 d2 A D1 D2. unfold same_value.
  split; intros [v [T1 T2]]; exists v; (split; [apply (takes_agree n a a' d1 v A D1), T1 | apply (takes_agree n a a' d2 v A D2), T2]).
Qed.

Lemma takes_fun : forall a d v l, dom_find d v = Some l -> (takes a d v <-> eval a l = true).
Proof. intros a d v l F; unfold takes; split; [intros [l' [F' E]]; congruence | intros E; exists l; auto]. Qed.

Lemma taken_lit : forall a d v0 v l, takes a d v0 -> (forall w, takes a d w -> w = v0) -> dom_find d v = Some l ->
  eval a l = Nat.eqb v v0.
Proof.
  intros a d v0 v l T U F. apply eq_iff_eq_true. rewrite Nat.eqb_eq, <- (takes_fun a d v l F). split; [apply U | intros ->; exact T].
Qed.

Theorem ov_value_spec : forall o v k, NoDup (map fst (get_dom o v)) ->
  (In k (ov_value o v) <-> exists l, dom_find (get_dom o v) k = Some l /\ value (sat o) l <> LFalse).
Proof.
  intros o v k ND; unfold ov_value. rewrite in_map_iff. split.
  - intros [[k' l] [E H]]. cbn in E; subst k'. apply filter_In in H as [Hin Hv]. cbn in Hv.
    exists l. split; [apply in_dom_find; assumption|]. intros F. rewrite F in Hv. discriminate.
  - intros [l [F Hv]]. exists (k, l). split; [reflexivity|]. apply filter_In. split; [apply dom_find_in, F|].
    cbn. destruct (value (sat o) l); try reflexivity. congruence.
Qed.

(* the value actually taken is never missing from the reported domain *)
Theorem ov_value_sound : forall o v a k, NoDup (map fst (get_dom o v)) -> models a (sat o) -> takes a (get_dom o v) k -> In k (ov_value o v).
Proof.
  intros o v a k ND [Ha _] [l [F E]]. apply ov_value_spec; [exact ND|]. exists l. split; [exact F|].
  intros Vf. rewrite (value_false_eval _ _ _ Ha Vf) in E. discriminate.
Qed.

(* once every value literal of the variable is decided, the reported domain is exactly the value taken *)
Theorem ov_value_taken : forall o v a, NoDup (map fst (get_dom o v)) -> models a (sat o) ->
  (forall k l, dom_find (get_dom o v) k = Some l -> value (sat o) l <> LUndef) ->
  forall k, In k (ov_value o v) <-> takes a (get_dom o v) k.
Proof.
  intros o v a ND M Dec k. split; [|apply ov_value_sound; assumption].
  intros H. apply ov_value_spec in H as [l [F Hv]]; [|exact ND]. exists l. split; [exact F|].
  specialize (Dec k l F). destruct (value (sat o) l) eqn:V; try congruence. apply (value_true_eval _ _ _ (proj1 M) V).
Qed.

Corollary ov_value_singleton : forall o v a, NoDup (map fst (get_dom o v)) -> models a (sat o) -> one_value a (get_dom o v) ->
  (forall k l, dom_find (get_dom o v) k = Some l -> value (sat o) l <> LUndef) ->
  exists k, forall k', In k' (ov_value o v) <-> k' = k.
Proof.
  intros o v a ND M [k [T U]] Dec. exists k. intros k'. rewrite (ov_value_taken o v a ND M Dec). split; [apply U | intros ->; exact T].
Qed.

Lemma ov_new_eq_refl : forall sortv iterd iters o v, ov_new_eq sortv iterd iters o v v = (o, TRUE_lit, true).
Proof. intros. unfold ov_new_eq. rewrite Nat.eqb_refl. reflexivity. Qed.

(* a variable is added: the sat state only grows conservatively (or by one asserted literal), old domains are untouched *)
Lemma ov_wf_extend : forall o s' d, ov_wf o -> wf s' -> nvars (sat o) <= nvars s' -> (forall a, models a s' -> models a (sat o)) ->
  dom_ok (nvars s') d -> ov_wf (mkOv s' (doms o ++ [d]) (oexprs o)).
Proof.
  intros o s' d W W' N Mo D. constructor; cbn.
  - exact W'.
  - apply Forall_app. split; [|constructor; [exact D | constructor]].
    pose proof (ow_doms _ W) as FD. eapply Forall_impl; [|exact FD]. intros d0; apply dom_ok_le, N.
  - intros l r c Hin. destruct (ow_exprs _ W _ _ _ Hin) as [A1 [A2 [A3 A4]]]. split; [exact A1|]. split; [rewrite app_length; cbn; lia|].
    split; [eapply lit_below_le; eauto|]. intros a M. unfold get_dom; cbn. rewrite !app_nth1 by lia. apply (A4 a (Mo a M)).
Qed.

(* the sat state is replaced by one over the same variables with fewer (or the same) models *)
Lemma ov_wf_shrink : forall o s', ov_wf o -> wf s' -> nvars s' = nvars (sat o) -> (forall a, models a s' -> models a (sat o)) ->
  ov_wf (mkOv s' (doms o) (oexprs o)).
Proof.
  intros o s' W W' N Mo. constructor; cbn.
  - exact W'.
  - rewrite N. apply (ow_doms _ W).
  - intros l r c Hin. destruct (ow_exprs _ W _ _ _ Hin) as [A1 [A2 [A3 A4]]]. split; [exact A1|]. split; [exact A2|].
    split; [rewrite N; exact A3|]. intros a M. apply (A4 a (Mo a M)).
Qed.

Lemma get_dom_last : forall o s' d x, get_dom (mkOv s' (doms o ++ [d]) x) (length (doms o)) = d.
Proof. intros; unfold get_dom; cbn. rewrite app_nth2 by lia. rewrite Nat.sub_diag. reflexivity. Qed.

(* the contract assumed of the iteration order of the unordered containers inside ov_theory::new_eq *)
Record iteration (iterd : dom -> dom) (iters : list nat -> list nat) : Prop := mkIteration {
  it_dom : forall d, Permutation (iterd d) d;
  it_set : forall l, Permutation (iters l) l }.

Lemma iteration_instance : iteration id_dom id_set.
Proof. constructor; intros; apply Permutation_refl. Qed.

Definition different_values (a : asg) (d1 d2 : dom) : Prop := exists v w, takes a d1 v /\ takes a d2 w /\ v <> w.

Lemma not_same_different : forall a d1 d2, one_value a d1 -> one_value a d2 -> (~ same_value a d1 d2 <-> different_values a d1 d2).
Proof.
  intros a d1 d2 [v [T1 U1]] [w [T2 U2]]. split.
  - intros N. exists v, w. split; [exact T1|]. split; [exact T2|]. intros ->. apply N. exists w; auto.
  - intros [v' [w' [T1' [T2' Ne]]]] [u [S1 S2]]. apply Ne. rewrite (U1 _ T1'), (U2 _ T2'), <- (U1 _ S1), <- (U2 _ S2). reflexivity.
Qed.

(* "both variables take the value v" as a boolean, to choose the fresh equality variable *)
Definition same_b (a : asg) (d1 d2 : dom) : bool :=
  existsb (fun p => eval a (snd p) && match dom_find d2 (fst p) with Some l' => eval a l' | None => false end) d1.

Lemma same_b_true : forall a d1 d2, NoDup (map fst d1) -> (same_b a d1 d2 = true <-> same_value a d1 d2).
Proof.
  intros a d1 d2 ND. unfold same_b. rewrite existsb_exists. split.
  - intros [[v l] [Hin H]]. cbn in H. apply andb_true_iff in H as [E1 E2]. destruct (dom_find d2 v) as [l'|] eqn:F; [|discriminate].
    exists v. split; [exists l; split; [apply in_dom_find; assumption | exact E1] | exists l'; auto].
  - intros [v [[l [F1 E1]] [l' [F2 E2]]]]. exists (v, l). split; [apply dom_find_in, F1|]. cbn. rewrite E1, F2, E2. reflexivity.
Qed.

(* what new_eq promises of its answer x for two variables with domains d1, d2 *)
Definition eq_result (o o' : ov_state) (x : lit) (ok : bool) (d1 d2 : dom) : Prop :=
  doms o' = doms o /\ nvars (sat o) <= nvars (sat o') /\ lit_below (nvars (sat o')) x /\
  (forall a, models a (sat o') -> models a (sat o)) /\
  (ok = true -> ov_wf o' /\
     forall a, models a (sat o') -> one_value a d1 -> one_value a d2 -> (eval a x = true <-> same_value a d1 d2)) /\
  (forall a, exact a (sat o) -> one_value a d1 -> one_value a d2 ->
     ok = true /\ exists a', agree_below (nvars (sat o)) a a' /\ exact a' (sat o') /\ (eval a' x = true <-> same_value a d1 d2)).

Lemma eq_result_sym : forall o o' x ok d1 d2, eq_result o o' x ok d1 d2 -> eq_result o o' x ok d2 d1.
Proof.
  intros o o' x ok d1 d2 [A1 [A2 [A3 [A4 [A5 A6]]]]]. do 4 (split; [assumption|]). split.
  - intros Hok. destruct (A5 Hok) as [Wf M]. split; [exact Wf|]. intros a Ma O1 O2. rewrite same_value_sym. apply M; assumption.
  - intros a Ea O1 O2. destruct (A6 a Ea O2 O1) as [Hok [a' [A [E' Q]]]]. split; [exact Hok|]. exists a'. rewrite same_value_sym. auto.
Qed.

(* the answer is x and nothing changes *)
Lemma eq_unchanged : forall o x d1 d2, ov_wf o -> lit_below (nvars (sat o)) x ->
  (forall a, models a (sat o) -> one_value a d1 -> one_value a d2 -> (eval a x = true <-> same_value a d1 d2)) ->
  eq_result o o x true d1 d2.
Proof.
  intros o x d1 d2 W B M. split; [reflexivity|]. split; [lia|]. split; [exact B|]. split; [auto|]. split; [auto|].
  intros a Ea O1 O2. split; [reflexivity|]. exists a. split; [apply agree_below_refl|]. split; [exact Ea | apply (M a (proj1 Ea) O1 O2)].
Qed.

(* the domain built by the loop of new_var: distinct values, distinct positive literals over the variables n0 .. n-1 *)
Definition dom_inj (d : dom) : Prop := forall k k' l, dom_find d k = Some l -> dom_find d k' = Some l -> k = k'.
Definition fresh_dom (n0 n : nat) (d : dom) : Prop :=
NoDup (map fst d) /\ dom_inj d /\ Forall (fun p => lsign (snd p) = true /\ n0 <= lvar (snd p) < n) d.

Lemma fresh_dom_find : forall n0 n d k l, fresh_dom n0 n d -> dom_find d k = Some l -> lsign l = true /\ n0 <= lvar l < n.
Proof. intros n0 n d k l [_ [_ F]] Fk. rewrite Forall_forall in F. apply (F _ (dom_find_in _ _ _ Fk)). Qed.

Lemma fresh_dom_emplace : forall n0 n d i, n0 <= n -> fresh_dom n0 n d -> fresh_dom n0 (S n) (dom_emplace d i (L n true)).
Proof.
intros n0 n d i L0 D. pose proof D as [ND [INJ F]]. split; [apply dom_emplace_nodup, ND|]. split.
- intros k k' l H1 H2. rewrite dom_emplace_find in H1, H2.
  destruct (dom_find d k) as [x|] eqn:E1, (dom_find d k') as [x'|] eqn:E2.
  + inversion H1; inversion H2; subst. eapply INJ; eauto.
  + inversion H1; subst. destruct (Nat.eqb k' i); [|discriminate]. inversion H2; subst.
    destruct (fresh_dom_find _ _ _ _ _ D E1) as [_ Bx]. cbn in Bx; lia.
  + inversion H2; subst. destruct (Nat.eqb k i); [|discriminate]. inversion H1; subst.
    destruct (fresh_dom_find _ _ _ _ _ D E2) as [_ Bx]. cbn in Bx; lia.
  + destruct (Nat.eqb k i) eqn:K1; [|discriminate]. destruct (Nat.eqb k' i) eqn:K2; [|discriminate].
    apply Nat.eqb_eq in K1, K2. congruence.
- apply dom_emplace_forall; [|cbn; split; [reflexivity | lia]]. eapply Forall_impl; [|exact F]. cbn. intros p [S B]. split; [exact S | lia].
Qed.

(* under a domain of fresh positive literals any value k can be chosen: make exactly the variable of its literal true *)
Lemma pick_value : forall n0 n d a k, fresh_dom n0 n d -> dom_mem d k = true ->
let a1 := fun w => if w <? n0 then a w else Nat.eqb w (lvar (dom_lit d k)) in
agree_below n0 a a1 /\ takes a1 d k /\ one_value a1 d.
Proof.
intros n0 n d a k D Mk a1. pose proof (dom_lit_found d k Mk) as Fk. set (l0 := dom_lit d k) in *.
destruct (fresh_dom_find _ _ _ _ _ D Fk) as [Sg0 _].
assert (EV : forall k' l, dom_find d k' = Some l -> (eval a1 l = true <-> k' = k)).
{ intros k' l F. destruct (fresh_dom_find _ _ _ _ _ D F) as [Sg Lv].
  unfold eval. rewrite Sg. unfold a1. destruct (Nat.ltb_spec (lvar l) n0); [lia|]. rewrite Nat.eqb_eq. split.
  - intros E. assert (l = l0) by (apply lit_pos_eq; assumption). subst l. destruct D as [_ [INJ _]]. eapply INJ; eauto.
  - intros ->. rewrite F in Fk. inversion Fk; reflexivity. }
assert (T : takes a1 d k) by (exists l0; split; [exact Fk | apply (EV k l0 Fk); reflexivity]).
split; [intros w Hw; unfold a1; apply Nat.ltb_lt in Hw; rewrite Hw; reflexivity|]. split; [exact T|].
exists k. split; [exact T|]. intros w [lw [Fw Ew]]. apply (EV w lw Fw), Ew.
Qed.

Lemma exct_one_value : forall a d items, (forall k, dom_mem d k = true <-> In k items) -> dom_inj d ->
(exct_sem a (map (dom_lit d) items) = true <-> one_value a d).
Proof.
intros a d items MEM INJ. rewrite P_exct_sem. split.
- intros [[p [Hp Ep]] U]. apply in_map_iff in Hp as [i [<- Hi]]. pose proof (dom_lit_found d i (proj2 (MEM i) Hi)) as Fi.
  exists i. split; [exists (dom_lit d i); auto|]. intros w [lw [Fw Ew]].
  assert (Hw : In w items) by (apply MEM, dom_mem_true; eauto).
  assert (lw = dom_lit d w) by (unfold dom_lit; rewrite Fw; reflexivity). subst lw.
  assert (E : dom_lit d w = dom_lit d i) by (apply U; auto; apply in_map; assumption).
  rewrite E in Fw. eapply INJ; eauto.
- intros [v [[lv [Fv Ev]] U]].
  assert (Hv : In v items) by (apply MEM, dom_mem_true; eauto).
  assert (Lv : lv = dom_lit d v) by (unfold dom_lit; rewrite Fv; reflexivity).
  split; [exists lv; split; [subst lv; apply in_map, Hv | exact Ev]|].
  intros p q Hp Hq Ep Eq. apply in_map_iff in Hp as [i [<- Hi]]. apply in_map_iff in Hq as [j [<- Hj]].
  assert (i = v) by (apply U; exists (dom_lit d i); split; [apply dom_lit_found, MEM, Hi | exact Ep]).
  assert (j = v) by (apply U; exists (dom_lit d j); split; [apply dom_lit_found, MEM, Hj | exact Eq]). congruence.
Qed.

Lemma fresh_values_spec : forall items n0 s d0 s1 d, wf s -> n0 <= nvars s -> fresh_dom n0 (nvars s) d0 ->
fresh_values s d0 items = (s1, d) ->
ext s s1 /\ (forall a, exact a s1 <-> exact a s) /\ fresh_dom n0 (nvars s1) d /\
(forall k, dom_mem d k = true <-> dom_mem d0 k = true \/ In k items).
Proof.
induction items as [|i items IH]; intros n0 s d0 s1 d W L0 D H; cbn [fresh_values] in H.
- injection H as <- <-. split; [apply ext_refl, W|]. split; [reflexivity|]. split; [exact D|]. intros k; cbn; tauto.
- rewrite new_var_eq in H.
  destruct (IH n0 _ _ _ _ (new_var_wf s W) (Nat.le_trans _ _ _ L0 (Nat.le_succ_diag_r _)) (fresh_dom_emplace n0 (nvars s) d0 i L0 D) H) as [E [EX [D' MEM]]].
  split; [eapply ext_trans; [apply new_var_ext, W | exact E]|]. split; [intros a; rewrite EX; apply new_var_exact|]. split; [exact D'|].
  intros k. rewrite MEM. unfold dom_mem at 1. rewrite dom_emplace_find. fold (dom_mem d0 k). unfold dom_mem. destruct (dom_find d0 k).
  + tauto.
  + destruct (Nat.eqb_spec k i) as [->|Ne]; cbn; [tauto|]. split; [intros [C|C]; [discriminate | auto] | intros [C|[C|C]]; [discriminate | congruence | auto]].
Qed.

(* what new_var promises of the variable id it adds: the frame (one more domain, the others and the equality cache untouched,
   no new model), its domain, exactly one value when enforced, and every value possible *)
Definition var_result (enforce : bool) (o : ov_state) (items : list nat) (o' : ov_state) (id : nat) (ok : bool) : Prop :=
  id = length (doms o) /\ length (doms o') = S (length (doms o)) /\ oexprs o' = oexprs o /\
  (forall v, v < length (doms o) -> get_dom o' v = get_dom o v) /\
  nvars (sat o) <= nvars (sat o') /\ (forall a, models a (sat o') -> models a (sat o)) /\
  (forall k, dom_mem (get_dom o' id) k = true <-> In k items) /\
  (ok = true -> ov_wf o' /\
     (enforce = true \/ length items = 1 -> forall a, models a (sat o') -> one_value a (get_dom o' id))) /\
  (forall a, exact a (sat o) -> forall k, In k items ->
     ok = true /\ exists a', agree_below (nvars (sat o)) a a' /\ exact a' (sat o') /\
                             takes a' (get_dom o' id) k /\ one_value a' (get_dom o' id)).

Lemma dom_of_spec : forall n lits vals d0, NoDup (map fst d0) -> Forall (fun p => lit_below n (snd p)) d0 -> Forall (lit_below n) lits ->
NoDup (map fst (dom_of d0 lits vals)) /\ Forall (fun p => lit_below n (snd p)) (dom_of d0 lits vals) /\ (d0 <> [] -> dom_of d0 lits vals <> []).
Proof.
intros n; induction lits as [|l lits IH]; intros vals d0 ND B F; cbn.
- auto.
- destruct vals as [|v vals]; [auto|]. inversion F as [|? ? Bl Fr]; subst.
  assert (NE1 : dom_emplace d0 v l <> []).
  { unfold dom_emplace. destruct (dom_mem d0 v) eqn:M; [intros ->; discriminate | destruct d0; discriminate]. }
  destruct (IH vals _ (dom_emplace_nodup d0 v l ND) (dom_emplace_forall _ d0 v l B Bl) Fr) as [A1 [A2 A3]]. auto.
Qed.

Theorem ov_new_var_lits_spec : forall o lits vals, ov_wf o -> lits <> [] -> vals <> [] -> Forall (lit_below (nvars (sat o))) lits ->
let (o', id) := ov_new_var_lits o lits vals in
ov_wf o' /\ id = length (doms o) /\ sat o' = sat o /\ (forall v, v < length (doms o) -> get_dom o' v = get_dom o v).
Proof.
intros o lits vals W NL NV B. unfold ov_new_var_lits.
destruct lits as [|l lits]; [congruence|]. destruct vals as [|v vals]; [congruence|].
destruct (dom_of_spec (nvars (sat o)) (l :: lits) (v :: vals) [] (NoDup_nil _) (Forall_nil _) B) as [A1 [A2 _]].
assert (A3 : dom_of [] (l :: lits) (v :: vals) <> []).
{ cbn [dom_of]. inversion B as [|? ? Bl Fr]; subst.
  destruct (dom_of_spec (nvars (sat o)) lits vals (dom_emplace [] v l)) as [_ [_ A]]; [repeat constructor; intros [] | repeat constructor; exact Bl | exact Fr|].
  apply A. discriminate. }
split; [apply ov_wf_extend; auto; [apply (ow_sat _ W) | split; [exact A1 | split; [exact A3 | exact A2]]]|].
split; [reflexivity|]. split; [reflexivity|]. intros v0 L. apply get_dom_app_old, L.
Qed.

Lemma restore_same : forall s s', nvars s' = nvars s -> clauses s' = clauses s -> exprs s' = exprs s -> restore s' (root s) = s.
Proof. intros [n rt c e] [n' rt' c' e']; cbn; intros -> -> ->; reflexivity. Qed.

Theorem ov_assume_spec : forall h p h', ov_wf (cur h) -> lit_below (nvars (sat (cur h))) p -> ov_assume h p = AOk h' ->
ov_wf (cur h') /\ doms (cur h') = doms (cur h) /\ oexprs (cur h') = oexprs (cur h) /\
(forall a, models a (sat (cur h')) <-> models a (sat (cur h)) /\ eval a p = true) /\
ov_pop h' = h /\ saved h' = root (sat (cur h)) :: saved h /\
(forall rt, restore (sat (cur h')) rt = restore (sat (cur h)) rt).
Proof.
intros [[s ds xs] sv] p h' W B H. unfold ov_assume in H. cbn [cur sat doms oexprs saved] in *.
pose proof (ow_sat _ W) as Ws. cbn in Ws.
destruct (value s p) eqn:V; [discriminate| |].
- injection H as <-. cbn. split; [exact W|]. do 2 (split; [reflexivity|]). split.
  + intros a; split; [intros M; split; [exact M | apply (value_true_eval _ _ _ (proj1 M) V)] | intros [M _]; exact M].
  + split; [unfold ov_pop; cbn; rewrite (restore_same s s) by reflexivity; reflexivity|]. split; reflexivity.
- destruct (set_root_spec s p Ws V B) as [W1 M1].
  destruct (propagate_root (S (nvars s)) (set_root s (lvar p) (lsign p))) as [[s' b]|] eqn:PR; [|discriminate].
  destruct b; [|discriminate]. injection H as <-. cbn.
  destruct (propagate_root_spec _ _ _ _ W1 PR) as [W' [N' [C' [X' [M' _]]]]].
  split; [apply (ov_wf_shrink (mkOv s ds xs) s' W W' N'); intros a M; apply M', M1 in M as [M _]; exact M|].
  do 2 (split; [reflexivity|]). split; [intros a; rewrite M'; apply M1|].
  split; [unfold ov_pop; cbn; rewrite (restore_same s s') by assumption; reflexivity|]. split; [reflexivity|].
  intros rt. unfold restore. rewrite N', C', X'. reflexivity.
Qed.

Theorem ov_propagate_spec : forall o o' b, ov_wf o -> ov_propagate o = Ok (o', b) ->
ov_wf o' /\ doms o' = doms o /\ oexprs o' = oexprs o /\ (forall a, models a (sat o') <-> models a (sat o)) /\
(b = false -> forall a, ~ models a (sat o)).
Proof.
intros o o' b W H. unfold ov_propagate in H.
destruct (propagate_root (S (nvars (sat o))) (sat o)) as [[s' b']|] eqn:PR; [|discriminate]. injection H as <- <-.
destruct (propagate_root_spec _ _ _ _ (ow_sat _ W) PR) as [W' [N' [C' [X' [M' F']]]]].
split; [apply (ov_wf_shrink o s' W W' N'); intros a; apply M'|]. do 2 (split; [reflexivity|]). split; [exact M' | exact F'].
Qed.

Lemma ov_init_wf : ov_wf ov_init.
Proof. constructor; cbn; [apply init_wf | constructor | intros l r c []]. Qed.

Definition with_root (o : ov_state) (rt : nat -> lbool) : ov_state := mkOv (restore (sat o) rt) (doms o) (oexprs o).
Definition hist_wf (h : ov_hist) : Prop := ov_wf (cur h) /\ Forall (fun rt => ov_wf (with_root (cur h) rt)) (saved h).

(* domains of existing variables never change; the number of variables only grows *)
Definition doms_extend (o o' : ov_state) : Prop :=
length (doms o) <= length (doms o') /\ forall v, v < length (doms o) -> get_dom o' v = get_dom o v.

Lemma doms_extend_same : forall o o', doms o' = doms o -> doms_extend o o'.
Proof. intros o o' D. unfold doms_extend, get_dom. rewrite D. auto. Qed.

Lemma forallb_below : forall n ls, forallb (below_b n) ls = true -> Forall (lit_below n) ls.
Proof. intros n ls H. rewrite forallb_forall in H. apply Forall_forall. intros p Hp. apply H in Hp. apply Nat.ltb_lt in Hp. exact Hp. Qed.

Lemma cons_neq : forall (A : Type) (x : A) l, x :: l <> [].
Proof. intros A x l E; discriminate. Qed.

(* a root-level operation replaces the current state *)
Lemma hist_wf_root : forall h o', at_root h = true -> ov_wf o' -> hist_wf (set_cur h o').
Proof. intros [o [|rt r]] o' R W; [split; [exact W | constructor] | discriminate]. Qed.

Section OvEnc.
  Variables (sortv sortl : list lit -> list lit) (csqrt : nat -> nat).
  Variable iterd : dom -> dom.
  Variable iters : list nat -> list nat.
  Hypothesis X : externals sortv sortl csqrt.
  Hypothesis I : iteration iterd iters.

  (* a run of new_clause calls whose results are only assert()ed *)
  Lemma add_all_spec : forall cs s s' ok, wf s -> (forall c, In c cs -> Forall (lit_below (nvars s)) c) ->
    add_all sortv s cs = (s', ok) ->
    wf s' /\ nvars s' = nvars s /\ exprs s' = exprs s /\
    (forall a, models a s' -> models a s) /\
    (ok = true -> forall a, models a s' <-> models a s /\ forall c, In c cs -> sat_clause a c = true) /\
    ((exists a, models a s /\ forall c, In c cs -> sat_clause a c = true) -> ok = true).
  Proof.
    induction cs as [|c cs IH]; intros s s' ok W B H; cbn [add_all] in H.
    - injection H as <- <-. split; [exact W|]. do 2 (split; [reflexivity|]). split; [auto|]. split.
      + intros _ a; split; [intros M; split; [exact M | intros c []] | intros [M _]; exact M].
      + reflexivity.
    - destruct (new_clause sortv s c) as [s1 b] eqn:E1. destruct (add_all sortv s1 cs) as [s2 b2] eqn:E2. injection H as <- <-.
      destruct (new_clause_spec sortv sortl csqrt X _ _ _ _ W (B c (or_introl eq_refl)) E1) as [W1 [N1 [X1 [T1 F1]]]].
      assert (B1 : forall c0, In c0 cs -> Forall (lit_below (nvars s1)) c0) by (intros c0 H0; rewrite N1; apply B; right; exact H0).
      destruct (IH _ _ _ W1 B1 E2) as [W2 [N2 [X2 [Mo [T2 Wi]]]]].
      pose proof (new_clause_mono sortv sortl csqrt X _ _ _ _ W (B c (or_introl eq_refl)) E1) as Mo1.
      split; [exact W2|]. split; [lia|]. split; [congruence|]. split; [intros a M; apply Mo1, Mo, M|]. split.
      + intros Hb a. apply andb_true_iff in Hb as [-> ->]. rewrite (T2 eq_refl a), (T1 eq_refl a). split.
        * intros [[M Sc] Hs]. split; [exact M|]. intros c0 [<-|H0]; auto.
        * intros [M Hs]. split; [split; [exact M | apply Hs; left; reflexivity]|]. intros c0 H0; apply Hs; right; exact H0.
      + intros [a [M Hs]]. destruct b.
        * cbn. apply Wi. exists a. split; [apply (T1 eq_refl a); split; [exact M | apply Hs; left; reflexivity]|].
          intros c0 H0; apply Hs; right; exact H0.
        * exfalso. destruct (F1 eq_refl) as [_ Fc]. specialize (Hs c (or_introl eq_refl)). rewrite (Fc a M) in Hs. discriminate.
  Qed.

  Definition eq_cs (eq : lit) (dl dr : dom) : list (list lit) :=
    prune_clauses iterd eq dl dr ++ prune_clauses iterd eq dr dl ++
    flat_map (eq_value_clauses eq dl dr) (iters (map fst (filter (fun p => dom_mem dr (fst p)) (iterd dl)))).

  Lemma in_prune : forall eq d other c, In c (prune_clauses iterd eq d other) <->
    exists v l, In (v, l) d /\ dom_mem other v = false /\ c = [lneg eq; lneg l].
  Proof.
    intros eq d other c; unfold prune_clauses. rewrite in_map_iff. split.
    - intros [[v l] [<- H]]. apply filter_In in H as [Hin Hm]. cbn in Hm. apply negb_true_iff in Hm.
      exists v, l. split; [apply (perm_in_iff _ _ _ (it_dom _ _ I d)), Hin|]. auto.
    - intros [v [l [Hin [Hm ->]]]]. exists (v, l). split; [reflexivity|]. apply filter_In.
      split; [apply (perm_in_iff _ _ _ (it_dom _ _ I d)), Hin | cbn; rewrite Hm; reflexivity].
  Qed.

  Lemma in_inter : forall dl dr v, NoDup (map fst dl) ->
    (In v (iters (map fst (filter (fun p => dom_mem dr (fst p)) (iterd dl)))) <-> dom_mem dl v = true /\ dom_mem dr v = true).
  Proof.
    intros dl dr v ND. rewrite (perm_in_iff _ _ _ (it_set _ _ I _)), in_map_iff. split.
    - intros [[v' l] [E H]]. cbn in E; subst v'. apply filter_In in H as [Hin Hm]. cbn in Hm.
      apply (perm_in_iff _ _ _ (it_dom _ _ I dl)) in Hin. split; [apply dom_mem_true; exists l; apply in_dom_find; assumption | exact Hm].
    - intros [H1 H2]. apply dom_mem_true in H1 as [l F]. exists (v, l). split; [reflexivity|]. apply filter_In.
      split; [apply (perm_in_iff _ _ _ (it_dom _ _ I dl)), dom_find_in, F | exact H2].
  Qed.

  (* whatever the iteration order: a value of one side only excludes equality; a common value v gives the three clauses of
     eq -> (l_v <-> r_v), l_v /\ r_v -> eq *)
  Lemma in_eq_cs : forall eq dl dr c, NoDup (map fst dl) -> (In c (eq_cs eq dl dr) <->
    (exists v l, In (v, l) dl /\ dom_mem dr v = false /\ c = [lneg eq; lneg l]) \/
    (exists v l, In (v, l) dr /\ dom_mem dl v = false /\ c = [lneg eq; lneg l]) \/
    (exists v ll lr, dom_find dl v = Some ll /\ dom_find dr v = Some lr /\
                     In c [[lneg eq; lneg ll; lr]; [lneg eq; ll; lneg lr]; [eq; lneg ll; lneg lr]])).
  Proof.
    intros eq dl dr c ND. unfold eq_cs. rewrite !in_app_iff, !in_prune, in_flat_map. apply or_iff_compat_l, or_iff_compat_l. split.
    - intros [v [Hv Hc]]. apply in_inter in Hv as [M1 M2]; [|exact ND]. apply dom_mem_true in M1 as [ll Fl]. apply dom_mem_true in M2 as [lr Fr].
      exists v, ll, lr. unfold eq_value_clauses, dom_lit in Hc. rewrite Fl, Fr in Hc. auto.
    - intros [v [ll [lr [Fl [Fr Hc]]]]]. exists v. split; [apply in_inter; [exact ND|]; split; apply dom_mem_true; eauto|].
      unfold eq_value_clauses, dom_lit. rewrite Fl, Fr. exact Hc.
  Qed.

  Lemma eq_cs_meaning : forall a eq dl dr, NoDup (map fst dl) ->
    (forall c, In c (eq_cs eq dl dr) -> sat_clause a c = true) ->
    (exists v, takes a dl v) -> (eval a eq = true <-> same_value a dl dr).
  Proof.
    intros a eq dl dr NDl H [vl Tl]. split.
    - intros Eq. destruct Tl as [ll [Fl El]]. destruct (dom_find dr vl) as [lr|] eqn:Fr.
      + assert (S : sat_clause a [lneg eq; lneg ll; lr] = true).
        { apply H, in_eq_cs; [exact NDl|]. right; right. exists vl, ll, lr. cbn; auto. }
        unfold sat_clause in S; cbn in S. rewrite !eval_lneg, Eq, El in S. cbn in S. rewrite orb_false_r in S.
        exists vl. split; [exists ll; auto | exists lr; auto].
      + exfalso. assert (S : sat_clause a [lneg eq; lneg ll] = true).
        { apply H, in_eq_cs; [exact NDl|]. left. exists vl, ll. split; [apply dom_find_in, Fl|]. split; [apply dom_mem_false, Fr | reflexivity]. }
        unfold sat_clause in S; cbn in S. rewrite !eval_lneg, Eq, El in S. discriminate.
    - intros [v [[ll [Fl El]] [lr [Fr Er]]]].
      assert (S : sat_clause a [eq; lneg ll; lneg lr] = true).
      { apply H, in_eq_cs; [exact NDl|]. right; right. exists v, ll, lr. cbn; auto 8. }
      unfold sat_clause in S; cbn in S. rewrite !eval_lneg, El, Er in S. cbn in S. rewrite orb_false_r in S. exact S.
  Qed.

  Lemma eq_cs_complete : forall a eq dl dr, NoDup (map fst dl) -> NoDup (map fst dr) ->
    one_value a dl -> one_value a dr -> (eval a eq = true <-> same_value a dl dr) ->
    forall c, In c (eq_cs eq dl dr) -> sat_clause a c = true.
  Proof.
    intros a eq dl dr NDl NDr [vl [Tl Ul]] [vr [Tr Ur]] Sem c Hc.
    (* with vl, vr the values taken: eq is "vl = vr" and the literal of a value v is "v is the value taken" *)
    assert (EQ : eval a eq = Nat.eqb vl vr).
    { apply eq_iff_eq_true. rewrite Sem, Nat.eqb_eq. split; [intros [v [T1 T2]]; rewrite <- (Ul v T1); apply Ur, T2 | intros <-; exists vl; auto]. }
    assert (Ml : dom_mem dl vl = true) by (destruct Tl as [l [F _]]; apply dom_mem_true; eauto).
    assert (Mr : dom_mem dr vr = true) by (destruct Tr as [l [F _]]; apply dom_mem_true; eauto).
    apply in_eq_cs in Hc as [[v [l [Hin [Hm ->]]]]|[[v [l [Hin [Hm ->]]]]|[v [ll [lr [Fl [Fr Hc]]]]]]]; [| | |exact NDl].
    - unfold sat_clause; cbn. rewrite !eval_lneg, EQ, (taken_lit a dl vl v l Tl Ul (in_dom_find _ _ _ NDl Hin)).
      destruct (Nat.eqb_spec vl vr), (Nat.eqb_spec v vl); try reflexivity. congruence.
    - unfold sat_clause; cbn. rewrite !eval_lneg, EQ, (taken_lit a dr vr v l Tr Ur (in_dom_find _ _ _ NDr Hin)).
      destruct (Nat.eqb_spec vl vr), (Nat.eqb_spec v vr); try reflexivity. congruence.
    - destruct Hc as [<-|[<-|[<-|[]]]]; unfold sat_clause; cbn;
        rewrite !eval_lneg, ?EQ, (taken_lit a dl vl v ll Tl Ul Fl), (taken_lit a dr vr v lr Tr Ur Fr);
        destruct (Nat.eqb_spec vl vr), (Nat.eqb_spec v vl), (Nat.eqb_spec v vr); try reflexivity; congruence.
  Qed.

  Lemma eq_cs_below : forall n eq dl dr, lit_below n eq -> dom_ok n dl -> dom_ok n dr ->
    forall c, In c (eq_cs eq dl dr) -> Forall (lit_below n) c.
  Proof.
    intros n eq dl dr Be Dl Dr c Hc. pose proof Dl as [NDl [_ Bl]]. pose proof Dr as [_ [_ Br]]. rewrite Forall_forall in Bl, Br.
    apply in_eq_cs in Hc as [[v [l [Hin [_ ->]]]]|[[v [l [Hin [_ ->]]]]|[v [ll [lr [Fl [Fr Hc]]]]]]]; [| | |exact NDl].
    - repeat constructor; [exact Be | apply (Bl _ Hin)].
    - repeat constructor; [exact Be | apply (Br _ Hin)].
    - pose proof (dom_ok_find _ _ _ _ Dl Fl) as B1. pose proof (dom_ok_find _ _ _ _ Dr Fr) as B2.
      destruct Hc as [<-|[<-|[<-|[]]]]; repeat constructor; assumption.
  Qed.

  (* a fresh equality variable for the domains dl, dr: it is set to "same value" *)
  Lemma eq_define_spec : forall s dl dr s2 ok, wf s -> dom_ok (nvars s) dl -> dom_ok (nvars s) dr ->
    let eq := L (nvars s) true in
    add_all sortv (fst (new_var s)) (eq_cs eq dl dr) = (s2, ok) ->
    wf s2 /\ nvars s2 = S (nvars s) /\ (forall a, models a s2 -> models a s) /\
    (ok = true -> forall a, models a s2 -> one_value a dl -> one_value a dr -> (eval a eq = true <-> same_value a dl dr)) /\
    (forall a, exact a s -> one_value a dl -> one_value a dr ->
       ok = true /\ exists a', agree_below (nvars s) a a' /\ exact a' s2 /\ (eval a' eq = true <-> same_value a dl dr)).
  Proof.
    intros s dl dr s2 ok W Dl Dr eq AA. pose proof Dl as [NDl _]. pose proof Dr as [NDr _].
    assert (Be : lit_below (S (nvars s)) eq) by (unfold lit_below, eq; cbn; lia).
    destruct (add_all_spec _ _ _ _ (new_var_wf s W)
                (eq_cs_below _ _ _ _ Be (dom_ok_le _ (S (nvars s)) _ (Nat.le_succ_diag_r _) Dl) (dom_ok_le _ (S (nvars s)) _ (Nat.le_succ_diag_r _) Dr)) AA)
      as [W2 [N2 [X2 [Mo [T2 Wi]]]]].
    split; [exact W2|]. split; [exact N2|]. split; [intros a M; apply new_var_models, Mo, M|]. split.
    - intros -> a M O1 O2. apply (T2 eq_refl a) in M as [_ Hc]. destruct O1 as [v [T _]]. apply eq_cs_meaning; eauto.
    - intros a Ea O1 O2. set (a' := upd a (nvars s) (same_b a dl dr)).
      assert (A' : agree_below (nvars s) a a') by (apply agree_upd; lia).
      assert (Q : eval a' eq = true <-> same_value a' dl dr).
      { unfold a' at 1, eq. rewrite eval_upd_ctr, (same_b_true a dl dr NDl). apply same_value_agree with (n := nvars s); assumption. }
      assert (HC : forall c, In c (eq_cs eq dl dr) -> sat_clause a' c = true).
      { apply eq_cs_complete; try assumption; [apply (one_value_agree _ a a' dl A' Dl), O1 | apply (one_value_agree _ a a' dr A' Dr), O2]. }
      assert (Hok : ok = true).
      { apply Wi. exists a'. split; [|exact HC]. apply new_var_models. eapply models_agree; [exact W | exact A' | apply Ea]. }
      split; [exact Hok|]. exists a'. split; [exact A'|]. split.
      + apply (exact_upd s s2 (eq_cs eq dl dr)); auto. intros a0. rewrite (T2 Hok a0), new_var_models. reflexivity.
      + rewrite Q. symmetry. apply same_value_agree with (n := nvars s); assumption.
  Qed.

  Theorem ov_new_eq_spec : forall o left right o' x ok, ov_wf o -> left < length (doms o) -> right < length (doms o) ->
    ov_new_eq sortv iterd iters o left right = (o', x, ok) -> eq_result o o' x ok (get_dom o left) (get_dom o right).
  Proof.
    intros o left right o' x ok W Ll Lr H. unfold ov_new_eq in H. pose proof (ow_sat _ W) as Ws.
    destruct (Nat.eqb left right) eqn:E.
    - apply Nat.eqb_eq in E; subst right. injection H as <- <- <-. apply eq_unchanged; [exact W | apply (wf_nv _ Ws)|].
      intros a [Ha _] [v [T _]] _. rewrite (eval_TRUE _ _ Ws Ha). split; [intros _; exists v; auto | reflexivity].
    - apply Nat.eqb_neq in E. set (l := Nat.min left right) in *. set (r := Nat.max left right) in *.
      assert (Llr : l < r /\ r < length (doms o) /\ l < length (doms o)) by (unfold l, r; lia).
      destruct Llr as [Llr [Lr' Ll']].
      pose proof (get_dom_ok o l W Ll') as Dl. pose proof (get_dom_ok o r W Lr') as Dr.
      (* the cache and the clauses are in terms of (min, max): enough to prove the statement for that order *)
      set (dl := get_dom o l) in *. set (dr := get_dom o r) in *.
      cut (eq_result o o' x ok dl dr).
      { intros R. unfold dl, dr, l, r in R. destruct (Nat.lt_ge_cases left right).
        - rewrite Nat.min_l, Nat.max_r in R by lia. exact R.
        - rewrite Nat.min_r, Nat.max_l in R by lia. apply eq_result_sym, R. }
      destruct (oexpr_find (oexprs o) l r) as [c|] eqn:F.
      + injection H as <- <- <-. apply oexpr_find_in in F. destruct (ow_exprs _ W _ _ _ F) as [_ [_ [Bc Mc]]].
        apply eq_unchanged; assumption.
      + destruct (iters (map fst (filter (fun p => dom_mem dr (fst p)) (iterd dl)))) as [|i0 inter] eqn:IN.
        * (* no common value *)
          injection H as <- <- <-. apply eq_unchanged; [exact W | apply (wf_nv _ Ws)|].
          intros a [Ha _] _ _. rewrite (eval_FALSE _ _ Ws Ha). split; [discriminate|]. intros [v [[ll [F1 _]] [lr [F2 _]]]]. exfalso.
          assert (Hv : In v (iters (map fst (filter (fun p => dom_mem dr (fst p)) (iterd dl))))) by (apply in_inter; [apply Dl|]; split; apply dom_mem_true; eauto).
          rewrite IN in Hv. exact Hv.
        * rewrite <- IN in H. clear IN i0 inter. rewrite new_var_eq in H.
          change (prune_clauses iterd (L (nvars (sat o)) true) dl dr ++ prune_clauses iterd (L (nvars (sat o)) true) dr dl ++
                  flat_map (eq_value_clauses (L (nvars (sat o)) true) dl dr) (iters (map fst (filter (fun p => dom_mem dr (fst p)) (iterd dl)))))
            with (eq_cs (L (nvars (sat o)) true) dl dr) in H.
          destruct (add_all sortv (fst (new_var (sat o))) (eq_cs (L (nvars (sat o)) true) dl dr)) as [s2 ok'] eqn:AA. injection H as <- <- <-.
          destruct (eq_define_spec _ _ _ _ _ Ws Dl Dr AA) as [W2 [N2 [Mo [Mean Cons]]]]. unfold eq_result. cbn [sat doms oexprs].
          split; [reflexivity|]. split; [lia|]. split; [rewrite N2; unfold lit_below; cbn; lia|]. split; [exact Mo|]. split; [|exact Cons].
          intros Hok. split; [|apply (Mean Hok)]. constructor; cbn.
          -- exact W2.
          -- pose proof (ow_doms _ W) as FD. eapply Forall_impl; [|exact FD]. intros d; apply dom_ok_le. lia.
          -- intros l0 r0 c0 [Eq|Hin].
             ++ inversion Eq; subst l0 r0 c0. split; [exact Llr|]. split; [exact Lr'|]. split; [rewrite N2; unfold lit_below; cbn; lia|].
                intros a M. apply (Mean Hok a M).
             ++ destruct (ow_exprs _ W _ _ _ Hin) as [A1 [A2 [A3 A4]]]. split; [exact A1|]. split; [exact A2|].
                split; [eapply lit_below_le; [|exact A3]; lia|]. intros a M. apply (A4 a (Mo a M)).
  Qed.

  Lemma exct_total_spec : forall s ls s' x, wf s -> Forall (lit_below (nvars s)) ls -> exct_total sortv sortl csqrt s ls = (s', x) ->
    ext s s' /\ res1 s' x (fun a => exct_sem a ls).
  Proof.
    intros s ls s' x W B H. unfold exct_total in H.
    destruct (new_exct sortv sortl csqrt (S (length ls)) s ls) as [[s2 x2]|] eqn:E.
    - injection H as <- <-. apply (new_exct_spec sortv sortl csqrt X _ _ _ _ _ W B E).
    - exfalso. apply (new_exct_fuel sortv sortl csqrt X _ s ls (Nat.lt_succ_diag_r _) E).
  Qed.

  (* asserting a one-sided literal: its formula holds afterwards, and the assert() fails in no state with an exact model of it *)
  Lemma assert_lit : forall s x F s' b, wf s -> res1 s x F -> new_clause sortv s [x] = (s', b) ->
    wf s' /\ nvars s' = nvars s /\ (forall a, models a s' -> models a s) /\
    (b = true -> forall a, models a s' -> F a = true) /\
    (forall a, exact a s -> F a = true -> b = true /\ exact a s').
  Proof.
    intros s x F s' b W [Bx [Snd Exa]] NC.
    destruct (new_clause_spec sortv sortl csqrt X _ _ _ _ W (Forall_cons _ Bx (Forall_nil _)) NC) as [W' [N' [X' [T F']]]].
    assert (SC : forall a, sat_clause a [x] = eval a x) by (intros a; apply orb_false_r).
    split; [exact W'|]. split; [exact N'|]. split; [|split].
    - apply (new_clause_mono sortv sortl csqrt X _ _ _ _ W (Forall_cons _ Bx (Forall_nil _)) NC).
    - intros -> a M. apply (T eq_refl a) in M as [M Sx]. rewrite SC in Sx. apply (Snd a M Sx).
    - intros a E Fa. assert (Ex : eval a x = true) by (rewrite (Exa a E); exact Fa).
      assert (Hb : b = true).
      { destruct b; [reflexivity|]. destruct (F' eq_refl) as [_ Fc]. specialize (Fc a (proj1 E)). rewrite SC, Ex in Fc. discriminate. }
      split; [exact Hb|]. subst b. split; [apply (T eq_refl a); split; [apply E | rewrite SC; exact Ex] | rewrite X'; apply E].
  Qed.

  Theorem ov_new_var_spec : forall enforce o items o' id ok, ov_wf o -> items <> [] ->
    ov_new_var sortv sortl csqrt enforce o items = (o', id, ok) -> var_result enforce o items o' id ok.
  Proof.
    intros enforce o items o' id ok W NE H. unfold var_result. unfold ov_new_var in H. pose proof (ow_sat _ W) as Ws.
    destruct items as [|i [|j rest]]; [congruence| |].
    - (* a singleton domain: the value is controlled by TRUE_lit *)
      injection H as <- <- <-.
      assert (D : dom_ok (nvars (sat o)) [(i, TRUE_lit)]).
      { split; [repeat constructor; intros [] | split; [discriminate | repeat constructor; apply (wf_nv _ Ws)]]. }
      assert (ONE : forall a, models a (sat o) -> one_value a [(i, TRUE_lit)] /\ takes a [(i, TRUE_lit)] i).
      { intros a [Ha _]. assert (T : takes a [(i, TRUE_lit)] i) by (exists TRUE_lit; cbn; rewrite Nat.eqb_refl; split; [reflexivity | apply (eval_TRUE _ _ Ws Ha)]).
        split; [|exact T]. exists i. split; [exact T|]. intros w [l [F _]]. cbn in F. destruct (Nat.eqb w i) eqn:E; [apply Nat.eqb_eq in E; exact E | discriminate]. }
      split; [reflexivity|]. split; [cbn; rewrite app_length; cbn; lia|]. split; [reflexivity|]. split; [intros v L; apply get_dom_app_old, L|].
      rewrite !get_dom_last. cbn [sat]. split; [lia|]. split; [auto|]. split; [|split].
      + intros k. unfold dom_mem; cbn. destruct (Nat.eqb_spec k i) as [->|Ne]; [tauto|]. split; [discriminate | intros [C|[]]; congruence].
      + intros _. split; [apply ov_wf_extend; auto|]. intros _ a M. apply ONE, M.
      + intros a Ea k [<-|[]]. split; [reflexivity|]. exists a. split; [apply agree_below_refl|]. split; [exact Ea|]. split; apply ONE, Ea.
    - set (items := i :: j :: rest) in *.
      destruct (fresh_values (sat o) [] items) as [s1 d] eqn:FV.
      assert (D0 : fresh_dom (nvars (sat o)) (nvars (sat o)) []) by (split; [constructor | split; [intros k k' l F; discriminate | constructor]]).
      destruct (fresh_values_spec items _ (sat o) [] s1 d Ws (le_n _) D0 FV) as [E01 [EX1 [D1 MEM]]].
      assert (MEM' : forall k, dom_mem d k = true <-> In k items) by (intros k; rewrite MEM; cbn [dom_mem dom_find]; split; [intros [C|C]; [discriminate | exact C] | auto]).
      assert (Dd : dom_ok (nvars s1) d).
      { destruct D1 as [ND [_ F]]. split; [exact ND|]. split; [intros ->; assert (C : dom_mem [] i = true) by (apply MEM'; left; reflexivity); discriminate|].
        eapply Forall_impl; [|exact F]. cbn. intros p [_ B]. unfold lit_below. lia. }
      (* a model of s1 in which the variable takes the value k *)
      assert (PICK : forall a k, exact a (sat o) -> In k items -> exists a1, agree_below (nvars (sat o)) a a1 /\ exact a1 s1 /\ takes a1 d k /\ one_value a1 d).
      { intros a k Ea Hk. destruct (pick_value _ _ d a k D1 (proj2 (MEM' k) Hk)) as [A1 [T1 O1]].
        eexists. split; [exact A1|]. split; [apply EX1; eapply exact_agree; eauto | auto]. }
      destruct enforce.
      + destruct (exct_total sortv sortl csqrt s1 (map (dom_lit d) items)) as [s2 x] eqn:ET.
        destruct (new_clause sortv s2 [x]) as [s3 b] eqn:NC. injection H as <- <- <-.
        assert (Bl : Forall (lit_below (nvars s1)) (map (dom_lit d) items)).
        { apply Forall_forall. intros p Hp. apply in_map_iff in Hp as [k [<- Hk]]. apply (dom_ok_find _ d k _ Dd), dom_lit_found, MEM', Hk. }
        destruct (exct_total_spec _ _ _ _ (ext_wf _ _ E01) Bl ET) as [E12 R].
        destruct (assert_lit _ _ _ _ _ (ext_wf _ _ E12) R NC) as [W3 [N3 [Mo3 [T3 C3]]]].
        pose proof (ext_trans _ _ _ E01 E12) as E02.
        split; [reflexivity|]. split; [cbn; rewrite app_length; cbn; lia|]. split; [reflexivity|]. split; [intros v L; apply get_dom_app_old, L|].
        rewrite !get_dom_last. cbn [sat]. split; [rewrite N3; apply (ext_nv _ _ E02)|].
        split; [intros a M; apply (ext_mono _ _ E02), Mo3, M|]. split; [exact MEM'|]. split.
        * intros ->. split.
          -- apply ov_wf_extend; auto; [rewrite N3; apply (ext_nv _ _ E02) | intros a M; apply (ext_mono _ _ E02), Mo3, M|].
             eapply dom_ok_le; [|exact Dd]. rewrite N3. apply (ext_nv _ _ E12).
          -- intros _ a M. apply (exct_one_value a d items MEM'), (T3 eq_refl a M). apply D1.
        * intros a Ea k Hk. destruct (PICK a k Ea Hk) as [a1 [Ag1 [E1 [T1 O1]]]].
          destruct (ext_cons _ _ E12 a1 E1) as [a2 [Ag2 E2]].
          assert (O2 : one_value a2 d) by (apply (one_value_agree _ a1 a2 d Ag2 Dd), O1).
          destruct (C3 a2 E2) as [Hb E3]; [apply (exct_one_value a2 d items MEM'), O2; apply D1|].
          split; [exact Hb|]. exists a2. split; [eapply agree_below_trans; [apply (ext_nv _ _ E01) | exact Ag1 | exact Ag2]|].
          split; [exact E3|]. split; [apply (takes_agree _ a1 a2 d k Ag2 Dd), T1 | exact O2].
      + injection H as <- <- <-.
        split; [reflexivity|]. split; [cbn; rewrite app_length; cbn; lia|]. split; [reflexivity|]. split; [intros v L; apply get_dom_app_old, L|].
        rewrite !get_dom_last. cbn [sat]. split; [apply (ext_nv _ _ E01)|]. split; [apply (ext_mono _ _ E01)|]. split; [exact MEM'|]. split.
        * intros _. split; [apply ov_wf_extend; auto; [apply (ext_wf _ _ E01) | apply (ext_nv _ _ E01) | apply (ext_mono _ _ E01)]|].
          intros [C|C]; [discriminate | cbn in C; lia].
        * intros a Ea k Hk. destruct (PICK a k Ea Hk) as [a1 [Ag1 [E1 [T1 O1]]]]. split; [reflexivity|]. exists a1. auto.
  Qed.

  Theorem ov_clause_spec : forall o ls s' b, ov_wf o -> Forall (lit_below (nvars (sat o))) ls -> new_clause sortv (sat o) ls = (s', b) ->
    ov_wf (mkOv s' (doms o) (oexprs o)) /\ (b = true -> forall a, models a s' <-> models a (sat o) /\ sat_clause a ls = true).
  Proof.
    intros o ls s' b W B H. destruct (new_clause_spec sortv sortl csqrt X _ _ _ _ (ow_sat _ W) B H) as [W' [N' [_ [T F]]]].
    split; [|exact T]. apply (ov_wf_shrink o s' W W' N'), (new_clause_mono sortv sortl csqrt X _ _ _ _ (ow_sat _ W) B H).
  Qed.

  Notation ov_step := (ov_step sortv sortl csqrt iterd iters).
  Notation ov_run := (ov_run sortv sortl csqrt iterd iters).

  Theorem ov_step_wf : forall h op h', hist_wf h -> ov_step h op = Some h' -> hist_wf h' /\ doms_extend (cur h) (cur h').
  Proof.
    intros h op h' [W Sv] H. destruct op; cbn [Ov.ov_step] in H.
    - (* new_var *)
      destruct (at_root h) eqn:R; [|discriminate]. cbn [andb] in H. destruct items as [|i items]; [discriminate|]. cbn [negb] in H.
      destruct (ov_new_var sortv sortl csqrt enforce (cur h) (i :: items)) as [[o' id] ok] eqn:E. destruct ok; [|discriminate]. injection H as <-.
      destruct (ov_new_var_spec enforce _ _ _ _ _ W (cons_neq _ i items) E) as [_ [Ln [_ [Old [_ [_ [_ [Wf _]]]]]]]].
      split; [apply (hist_wf_root _ _ R), (Wf eq_refl) | split; [cbn; lia | exact Old]].
    - (* new_var(lits, vals) *)
      destruct (at_root h) eqn:R; [|discriminate]. cbn [andb] in H.
      destruct lits as [|l lits]; [discriminate|]. destruct vals as [|v vals]; [discriminate|]. cbn [negb andb] in H.
      destruct (forallb (below_b (nvars (sat (cur h)))) (l :: lits)) eqn:B; [|discriminate]. injection H as <-.
      pose proof (ov_new_var_lits_spec (cur h) (l :: lits) (v :: vals) W (cons_neq _ l lits) (cons_neq _ v vals) (forallb_below _ _ B)) as S.
      unfold ov_new_var_lits in S |- *. destruct S as [Wf [_ [_ Old]]].
      split; [apply (hist_wf_root _ _ R), Wf|]. split; [cbn; rewrite app_length; cbn; lia | exact Old].
    - (* new_eq *)
      destruct (at_root h) eqn:R; [|discriminate]. cbn [andb] in H.
      destruct (l <? length (doms (cur h))) eqn:L1; [|discriminate]. destruct (r <? length (doms (cur h))) eqn:L2; [|discriminate]. cbn [andb] in H.
      apply Nat.ltb_lt in L1, L2.
      destruct (ov_new_eq sortv iterd iters (cur h) l r) as [[o' x] ok] eqn:E. destruct ok; [|discriminate]. injection H as <-.
      destruct (ov_new_eq_spec _ _ _ _ _ _ W L1 L2 E) as [D [_ [_ [_ [Wf _]]]]].
      split; [apply (hist_wf_root _ _ R), (Wf eq_refl) | apply doms_extend_same, D].
    - (* user clause *)
      destruct (at_root h) eqn:R; [|discriminate]. cbn [andb] in H.
      destruct (forallb (below_b (nvars (sat (cur h)))) ls) eqn:B; [|discriminate].
      destruct (new_clause sortv (sat (cur h)) ls) as [s' b] eqn:E. destruct b; [|discriminate]. injection H as <-.
      destruct (ov_clause_spec _ _ _ _ W (forallb_below _ _ B) E) as [Wf _].
      split; [apply (hist_wf_root _ _ R), Wf | apply doms_extend_same; reflexivity].
    - (* propagate *)
      destruct (at_root h) eqn:R; [|discriminate].
      destruct (ov_propagate (cur h)) as [[o' b]|] eqn:E; [|discriminate]. destruct b; [|discriminate]. injection H as <-.
      destruct (ov_propagate_spec _ _ _ W E) as [Wf [D _]].
      split; [apply (hist_wf_root _ _ R), Wf | apply doms_extend_same, D].
    - (* assume: the state before becomes the top saved root assignment *)
      destruct (below_b (nvars (sat (cur h))) p) eqn:B; [|discriminate]. apply Nat.ltb_lt in B.
      destruct (ov_assume h p) as [h1| |] eqn:E; try discriminate. injection H as <-.
      destruct (ov_assume_spec _ _ _ W B E) as [Wf [D [Xo [_ [Pop [Svd Rst]]]]]].
      split; [|apply doms_extend_same, D]. split; [exact Wf|]. rewrite Svd.
      assert (WR : forall rt, with_root (cur h1) rt = with_root (cur h) rt) by (intros rt; unfold with_root; rewrite Rst, D, Xo; reflexivity).
      constructor.
      + rewrite WR. unfold with_root. destruct (cur h) as [[n rt0 c e] ds xs]. cbn. exact W.
      + eapply Forall_impl; [|exact Sv]. intros rt Hrt. rewrite WR. exact Hrt.
    - (* pop *)
      injection H as <-. unfold ov_pop. destruct (saved h) as [|rt r] eqn:Sh.
      + split; [split; [exact W | rewrite Sh; constructor] | apply doms_extend_same; reflexivity].
      + inversion Sv as [|? ? Wrt Wr]; subst. split; [split; assumption | apply doms_extend_same; reflexivity].
  Qed.

  Theorem ov_run_wf : forall ops h h', hist_wf h -> ov_run h ops = Some h' -> hist_wf h' /\ doms_extend (cur h) (cur h').
  Proof.
    induction ops as [|op ops IH]; intros h h' W H; cbn [Ov.ov_run] in H.
    - injection H as <-. split; [exact W | apply doms_extend_same; reflexivity].
    - destruct (ov_step h op) as [h1|] eqn:E; [|discriminate]. destruct (ov_step_wf _ _ _ W E) as [W1 [L1 G1]].
      destruct (IH _ _ W1 H) as [W2 [L2 G2]]. split; [exact W2|]. split; [lia|]. intros v Hv. rewrite G2 by lia. apply G1, Hv.
  Qed.

  Lemma Q_new_eq : forall o left right o' x ok, ov_wf o -> left < length (doms o) -> right < length (doms o) ->
    ov_new_eq sortv iterd iters o left right = (o', x, ok) ->
    doms o' = doms o /\ (forall a, models a (sat o') -> models a (sat o)) /\
    (ok = true -> ov_wf o' /\
       forall a, models a (sat o') -> one_value a (get_dom o left) -> one_value a (get_dom o right) ->
         (eval a x = true <-> same_value a (get_dom o left) (get_dom o right)) /\
         (eval a x = false <-> different_values a (get_dom o left) (get_dom o right))) /\
    (forall a, exact a (sat o) -> one_value a (get_dom o left) -> one_value a (get_dom o right) ->
       ok = true /\ exists a', agree_below (nvars (sat o)) a a' /\ exact a' (sat o') /\
         (eval a' x = true <-> same_value a (get_dom o left) (get_dom o right))).
  Proof.
    intros o left right o' x ok W Ll Lr H.
    destruct (ov_new_eq_spec _ _ _ _ _ _ W Ll Lr H) as [A1 [_ [_ [A4 [A5 A6]]]]].
    split; [exact A1|]. split; [exact A4|]. split; [|exact A6].
    intros Hok. destruct (A5 Hok) as [Wf M]. split; [exact Wf|]. intros a Ma O1 O2. pose proof (M a Ma O1 O2) as E. split; [exact E|].
    rewrite <- (not_same_different a _ _ O1 O2), <- E. destruct (eval a x); split; intros; try discriminate; try congruence; auto.
  Qed.

  Lemma Q_disjoint_never_equal : forall o left right o' x ok, ov_wf o -> left < length (doms o) -> right < length (doms o) ->
    (forall k, dom_mem (get_dom o left) k = true -> dom_mem (get_dom o right) k = false) ->
    ov_new_eq sortv iterd iters o left right = (o', x, ok) -> ok = true ->
    forall a, models a (sat o') -> one_value a (get_dom o left) -> one_value a (get_dom o right) -> eval a x = false.
  Proof.
    intros o left right o' x ok W Ll Lr Dj H Hok a M O1 O2.
    destruct (ov_new_eq_spec _ _ _ _ _ _ W Ll Lr H) as [_ [_ [_ [_ [A5 _]]]]].
    destruct (A5 Hok) as [_ Me]. destruct (eval a x) eqn:E; [|reflexivity]. exfalso.
    apply (Me a M O1 O2) in E as [v [[l1 [F1 _]] [l2 [F2 _]]]].
    assert (C : dom_mem (get_dom o right) v = false) by (apply Dj, dom_mem_true; eauto).
    apply dom_mem_false in C. congruence.
  Qed.

  (* every state reached by a history is well-formed: every theorem above applies to it, the domains of existing variables never
     change, and every equality literal ever handed out keeps meaning "same value" *)
  Lemma Q_histories : forall ops h', ov_run (mkHist ov_init []) ops = Some h' ->
    ov_wf (cur h') /\
    (forall v, v < length (doms (cur h')) -> NoDup (map fst (get_dom (cur h') v)) /\ get_dom (cur h') v <> []) /\
    (forall l r c, In (l, r, c) (oexprs (cur h')) -> forall a, models a (sat (cur h')) ->
       one_value a (get_dom (cur h') l) -> one_value a (get_dom (cur h') r) ->
       (eval a c = true <-> same_value a (get_dom (cur h') l) (get_dom (cur h') r))).
  Proof.
    intros ops h' H. destruct (ov_run_wf ops _ _ (conj ov_init_wf (Forall_nil _) : hist_wf (mkHist ov_init [])) H) as [[W _] _].
    split; [exact W|]. split.
    - intros v L. destruct (get_dom_ok _ v W L) as [ND [NE _]]. auto.
    - intros l r c Hin. apply (ow_exprs _ W _ _ _ Hin).
  Qed.
End OvEnc.

Definition ex_ov_history : list ov_op :=
  [VNew true [0; 1; 2]; VNew true [1; 2; 3]; VNew true [5]; VEq 0 1; VEq 1 0; VEq 0 2; VProp; VAssume (L 2 true); VAssume (L 9 true); VPop; VPop].

Example ex_ov_run : exists h', ov_run isort_var isort_lit ceil_sqrt id_dom id_set (mkHist ov_init []) ex_ov_history = Some h' /\
  length (doms (cur h')) = 3 /\ length (oexprs (cur h')) = 1 /\ saved h' = [].
Proof. vm_compute. eexists. split; [reflexivity|]. repeat split. Qed.
