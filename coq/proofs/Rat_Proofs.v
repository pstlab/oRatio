(* C15, part 1: the generated model of smt/arith/rational.cpp (gen/Gen_arith.v) against exact arithmetic.
   Every theorem is about the *generated* definitions, so an edit of rational.cpp is re-checked here; the lemmas before
   them are about Z, Q and the specification side (base/RatSpec.v). *)
From Coq Require Import ZArith QArith Bool Lia Znumtheory.
From ORatio Require Import gen.Gen_arith base.RatSpec.
Local Open Scope Z_scope.

Lemma gcd_pos_r n d : d <> 0 -> 0 < Z.gcd n d.
Proof.
  intros Hd. pose proof (Z.gcd_nonneg n d).
  assert (Z.gcd n d <> 0) by (intro H0; apply Z.gcd_eq_0_r in H0; lia). lia.
Qed.

Lemma gcd_pos_l n d : n <> 0 -> 0 < Z.gcd n d.
Proof. intros. rewrite Z.gcd_comm. now apply gcd_pos_r. Qed.

Lemma quot_exact a g q : g <> 0 -> a = q * g -> Z.quot a g = q.
Proof. intros Hg ->. now apply Z.quot_mul. Qed.

Lemma gcd_cofactors n d : d <> 0 ->
  exists qn qd, n = qn * Z.gcd n d /\ d = qd * Z.gcd n d /\ Z.gcd qn qd = 1.
Proof.
  intros Hd. pose proof (gcd_pos_r n d Hd) as Hg.
  destruct (Z.gcd_divide_l n d) as [qn Hqn]. destruct (Z.gcd_divide_r n d) as [qd Hqd].
  exists qn, qd. repeat split; auto.
  pose proof (Z.gcd_mul_mono_r_nonneg qn qd (Z.gcd n d) ltac:(lia)) as H.
  rewrite <- Hqn, <- Hqd in H. nia.
Qed.

Lemma gcd1_sym a b : Z.gcd a b = 1 -> Z.gcd b a = 1.
Proof. now rewrite Z.gcd_comm. Qed.

Lemma gcd1_div_l f n d : Z.gcd n d = 1 -> (f | n) -> Z.gcd f d = 1.
Proof.
  intros H D. apply Zgcd_1_rel_prime. apply rel_prime_div with n; [apply Zgcd_1_rel_prime; exact H|exact D].
Qed.

Lemma gcd1_mul_r a b c : Z.gcd a b = 1 -> Z.gcd a c = 1 -> Z.gcd a (b * c) = 1.
Proof. rewrite !Zgcd_1_rel_prime. apply rel_prime_mult. Qed.

Lemma gcd1_mul_l a b c : Z.gcd a c = 1 -> Z.gcd b c = 1 -> Z.gcd (a * b) c = 1.
Proof. intros. apply gcd1_sym, gcd1_mul_r; now apply gcd1_sym. Qed.

(* a reduced fraction with positive denominator is determined by its value *)
Lemma coprime_unique n d n' d' :
  0 < d -> 0 < d' -> Z.gcd n d = 1 -> Z.gcd n' d' = 1 -> n * d' = n' * d -> n = n' /\ d = d'.
Proof.
  intros Hd Hd' Hg Hg' E.
  assert (Hdd : (d | d')) by (apply Z.gauss with n; [exists n'; lia|now apply gcd1_sym]).
  assert (Hdd' : (d' | d)) by (apply Z.gauss with n'; [exists n; lia|now apply gcd1_sym]).
  assert (d = d') by (apply Z.divide_antisym_nonneg; [lia|lia|assumption|assumption]).
  subst. split; [nia|reflexivity].
Qed.

Lemma Qof_eq a b c d : 0 < b -> 0 < d -> ((Qof a b == Qof c d)%Q <-> a * d = c * b).
Proof. intros. unfold Qof, Qeq; cbn. rewrite !Z2Pos.id by lia. tauto. Qed.

Lemma Qof_lt a b c d : 0 < b -> 0 < d -> ((Qof a b < Qof c d)%Q <-> a * d < c * b).
Proof. intros. unfold Qof, Qlt; cbn. rewrite !Z2Pos.id by lia. tauto. Qed.

Lemma Qof_add a b c d : 0 < b -> 0 < d -> (Qof a b + Qof c d == Qof (a * d + c * b) (b * d))%Q.
Proof.
  intros Hb Hd. unfold Qof, Qeq, Qplus; cbn [Qnum Qden].
  rewrite Pos2Z.inj_mul, !Z2Pos.id by nia. ring.
Qed.

Lemma Qof_mul a b c d : 0 < b -> 0 < d -> (Qof a b * Qof c d == Qof (a * c) (b * d))%Q.
Proof.
  intros Hb Hd. unfold Qof, Qeq, Qmult; cbn [Qnum Qden].
  rewrite Pos2Z.inj_mul, !Z2Pos.id by nia. ring.
Qed.

Lemma Qof_opp a b : (- Qof a b == Qof (- a) b)%Q.
Proof. reflexivity. Qed.

Lemma Qof_int k : inject_Z k = Qof k 1.
Proof. reflexivity. Qed.

Lemma Qof_inv_pos a b : 0 < a -> 0 < b -> (/ Qof a b == Qof b a)%Q.
Proof.
  intros Ha Hb. unfold Qof, Qinv; cbn [Qnum Qden]. destruct a as [|p|p]; try lia.
  unfold Qeq; cbn [Qnum Qden Z.to_pos]. rewrite !Z2Pos.id by lia. ring.
Qed.

Lemma Qof_inv_neg a b : a < 0 -> 0 < b -> (/ Qof a b == Qof (- b) (- a))%Q.
Proof.
  intros Ha Hb. unfold Qof, Qinv; cbn [Qnum Qden]. destruct a as [|p|p]; try lia.
  unfold Qeq; cbn [Qnum Qden Z.to_pos Z.opp]. rewrite <- Pos2Z.opp_pos, !Z2Pos.id by lia. ring.
Qed.

Lemma ext_eq_refl x : ext_eq x x.
Proof. destruct x; cbn; auto. reflexivity. Qed.

Lemma ext_eq_sym x y : ext_eq x y -> ext_eq y x.
Proof. destruct x, y; cbn; auto. intros; now symmetry. Qed.

Lemma ext_eq_sym_iff x y : ext_eq x y <-> ext_eq y x.
Proof. split; apply ext_eq_sym. Qed.

Lemma ext_eq_trans x y z : ext_eq x y -> ext_eq y z -> ext_eq x z.
Proof. destruct x, y, z; cbn; auto; try tauto. intros H1 H2; now rewrite H1. Qed.

Lemma ext_eq_of_eq x y : x = y -> ext_eq x y.
Proof. intros ->. apply ext_eq_refl. Qed.

Lemma ext_trichotomy x y : ext_lt x y \/ ext_eq x y \/ ext_lt y x.
Proof.
  destruct x as [p| |], y as [q| |]; cbn; auto.
  destruct (Q_dec p q) as [[H|H]|H]; auto.
Qed.

Lemma ext_lt_irrefl x : ~ ext_lt x x.
Proof. destruct x; cbn; auto. apply Qlt_irrefl. Qed.

Lemma ext_lt_trans x y z : ext_lt x y -> ext_lt y z -> ext_lt x z.
Proof. destruct x, y, z; cbn; auto; try tauto. apply Qlt_trans. Qed.

Lemma ext_lt_compat x x' y y' : ext_eq x x' -> ext_eq y y' -> ext_lt x y -> ext_lt x' y'.
Proof. destruct x, x', y, y'; cbn; try tauto. intros H1 H2 H. now rewrite <- H1, <- H2. Qed.

Lemma ext_lt_eq_excl x y : ext_lt x y -> ext_eq x y -> False.
Proof. intros L E. apply (ext_lt_irrefl y). exact (ext_lt_compat x y y y E (ext_eq_refl y) L). Qed.

Lemma ext_lt_asym x y : ext_lt x y -> ext_lt y x -> False.
Proof. intros H1 H2. apply (ext_lt_irrefl x). now apply ext_lt_trans with y. Qed.

Lemma ext_le_not_gt x y : ext_le x y <-> ~ ext_lt y x.
Proof.
  unfold ext_le. pose proof (ext_lt_asym x y) as A. pose proof (ext_lt_eq_excl y x) as X. pose proof (ext_eq_sym x y) as S.
  destruct (ext_trichotomy x y) as [H|[H|H]]; tauto.
Qed.

Lemma ext_sgn_compat x y : ext_eq x y -> ext_sgn x = ext_sgn y.
Proof.
  destruct x as [[pn pd]| |], y as [[qn qd]| |]; cbn; try tauto. unfold Qeq; cbn. intros H.
  destruct pn, qn; cbn in *; try lia; reflexivity.
Qed.

Lemma ext_opp_compat x y : ext_eq x y -> ext_eq (ext_opp x) (ext_opp y).
Proof. destruct x, y; cbn; try tauto. intros H; now rewrite H. Qed.

Lemma ext_add_compat x x' y y' e : ext_eq x x' -> ext_eq y y' -> ext_add x y = Some e ->
  exists e', ext_add x' y' = Some e' /\ ext_eq e e'.
Proof.
  destruct x, x', y, y'; cbn; try tauto; intros H1 H2 H; inversion H; subst; try discriminate;
    eexists; (split; [reflexivity|]); cbn; auto. now rewrite H1, H2.
Qed.

Lemma ext_mul_compat x x' y y' e : ext_eq x x' -> ext_eq y y' -> ext_mul x y = Some e ->
  exists e', ext_mul x' y' = Some e' /\ ext_eq e e'.
Proof.
  intros H1 H2. pose proof (ext_sgn_compat _ _ H1) as S1. pose proof (ext_sgn_compat _ _ H2) as S2.
  destruct x, x', y, y'; cbn in H1, H2; try tauto; unfold ext_mul; rewrite <- ?S1, <- ?S2; intros H.
  1: { inversion H; subst. eexists; split; [reflexivity|]. cbn. now rewrite H1, H2. }
  all: exists e; split; [exact H|apply ext_eq_refl].
Qed.

Lemma Some_inj {A} (x y : A) : Some x = Some y -> x = y.
Proof. congruence. Qed.

(* neutral and absorbing operands, as the special cases of rational.cpp use them *)
Lemma ext_add_0_l x e : ext_add (Fin 0) x = Some e -> ext_eq x e.
Proof. destruct x; cbn; intros H; apply Some_inj in H; subst e; cbn; auto. ring. Qed.

Lemma ext_add_0_r x e : ext_add x (Fin 0) = Some e -> ext_eq x e.
Proof. destruct x; cbn; intros H; apply Some_inj in H; subst e; cbn; auto. ring. Qed.

Lemma ext_add_inf_l x y e : x = PInf \/ x = NInf -> ext_add x y = Some e -> x = e.
Proof. intros [->| ->]; destruct y; cbn; congruence. Qed.

Lemma ext_add_inf_r x y e : y = PInf \/ y = NInf -> ext_add x y = Some e -> y = e.
Proof. intros [->| ->]; destruct x; cbn; congruence. Qed.

Lemma ext_mul_1_l x e : ext_mul (Fin 1) x = Some e -> ext_eq x e.
Proof. destruct x; cbn; intros H; apply Some_inj in H; subst e; cbn; auto. ring. Qed.

Lemma ext_mul_1_r x e : ext_mul x (Fin 1) = Some e -> ext_eq x e.
Proof. destruct x; cbn; intros H; apply Some_inj in H; subst e; cbn; auto. ring. Qed.

(* a product with an infinite factor is the infinity given by the signs *)
Lemma ext_mul_inf x y e : (x = PInf \/ x = NInf) \/ (y = PInf \/ y = NInf) -> ext_mul x y = Some e ->
  ext_sgn x * ext_sgn y <> 0 /\ e = if 0 <? ext_sgn x * ext_sgn y then PInf else NInf.
Proof.
  intros H. destruct x as [p| |], y as [q| |]; try (exfalso; intuition discriminate); unfold ext_mul; cbv beta iota;
    destruct (ext_sgn _ * ext_sgn _); cbn; intros E; split; congruence.
Qed.

(* the sign test of operator* *)
Lemma sign_test n n' : Z.sgn n * Z.sgn n' <> 0 ->
  (n >=? 0) && (n' >=? 0) || (n <=? 0) && (n' <=? 0) = (0 <? Z.sgn n * Z.sgn n').
Proof. destruct n, n'; cbn; congruence. Qed.

Lemma wf_fin r : wf r -> rat_den r <> 0 -> 0 < rat_den r /\ Z.gcd (rat_num r) (rat_den r) = 1.
Proof. intros [H|[H _]] Hd; [exact H|contradiction]. Qed.

Lemma wf_inf r : wf r -> rat_den r = 0 -> rat_num r = 1 \/ rat_num r = -1.
Proof. intros [[H _]|[_ H]] Hd; [lia|exact H]. Qed.

Lemma wf_den_nonneg r : wf r -> 0 <= rat_den r.
Proof. intros [[H _]|[H _]]; lia. Qed.

Lemma wf_zero_num r : wf r -> rat_num r = 0 -> rat_den r = 1.
Proof.
  intros [[Hd Hg]|[_ [H|H]]] Hn; try lia.
  rewrite Hn in Hg. rewrite Z.gcd_0_l in Hg. lia.
Qed.

Lemma wfb_wf r : wfb r = true <-> wf r.
Proof.
  unfold wfb, wf. rewrite orb_true_iff, !andb_true_iff, orb_true_iff, Z.ltb_lt, !Z.eqb_eq. tauto.
Qed.

Lemma wf_cases r : wf r -> finite r \/ r = mk_rat 1 0 \/ r = mk_rat (-1) 0.
Proof. destruct r as [n d]; unfold wf, finite; cbn. intros [H|[-> [->| ->]]]; auto. Qed.

Lemma finite_wf r : finite r -> wf r.
Proof. intros H; left; exact H. Qed.

Lemma val_finite r : 0 < rat_den r -> val r = Fin (qval r).
Proof. intros H. unfold val. destruct (Z.eqb_spec (rat_den r) 0); [lia|reflexivity]. Qed.

Lemma ext_sgn_val r : wf r -> ext_sgn (val r) = Z.sgn (rat_num r).
Proof. intros H. destruct (wf_cases r H) as [[Hd _]|[->| ->]]; [now rewrite val_finite|reflexivity|reflexivity]. Qed.

Lemma val_zero r : wf r -> rat_num r = 0 -> val r = Fin 0.
Proof. intros H N. pose proof (wf_zero_num r H N) as D. destruct r; cbn in *; subst. reflexivity. Qed.

Lemma wf_finite r : wf r -> is_infinite_rat r = false -> finite r.
Proof. intros H I. apply wf_fin; [exact H|]. now apply Z.eqb_neq. Qed.

Lemma wf_infinite r : wf r -> is_infinite_rat r = true -> val r = PInf \/ val r = NInf.
Proof. intros H I. apply Z.eqb_eq in I. destruct (wf_cases r H) as [[Hd _]|[->| ->]]; [lia|auto..]. Qed.

Lemma eq_rat_true a b : rat_eq_rat a b = true <-> a = b.
Proof.
  unfold rat_eq_rat. rewrite andb_true_iff, !Z.eqb_eq. destruct a, b; cbn. split; [intros [-> ->]; reflexivity|intros H; inversion H; auto].
Qed.

(* canonical forms are unique: equal values are the same machine value *)
Theorem wf_val_inj a b : wf a -> wf b -> ext_eq (val a) (val b) -> a = b.
Proof.
  intros Ha Hb. destruct (wf_cases a Ha) as [[Hd Hg]|[->| ->]], (wf_cases b Hb) as [[Hd' Hg']|[->| ->]];
    rewrite ?(val_finite a), ?(val_finite b) by assumption; cbn [ext_eq]; try (cbn; tauto).
  destruct a as [n d], b as [n' d']; unfold qval; cbn [rat_num rat_den] in *. rewrite Qof_eq by assumption.
  intros E. now destruct (coprime_unique n d n' d' Hd Hd' Hg Hg' E) as [-> ->].
Qed.

(* "R is a correct result for the exact value e" *)
Definition ok (R : rat) (e : ext) : Prop := wf R /\ ext_eq (val R) e.

Lemma ok_eq R e e' : ok R e -> ext_eq e e' -> ok R e'.
Proof. intros [W V] E. split; [exact W|exact (ext_eq_trans _ _ _ V E)]. Qed.

Lemma ok_fin n d q : 0 < d -> Z.gcd n d = 1 -> (Qof n d == q)%Q -> ok (mk_rat n d) (Fin q).
Proof. intros Hd Hg E. split; [left; split; assumption|]. rewrite val_finite by exact Hd. exact E. Qed.

Lemma ok_int k q : (Qof k 1 == q)%Q -> ok (mk_rat k 1) (Fin q).
Proof. intros E. apply ok_fin; [lia|apply Z.gcd_1_r|exact E]. Qed.

Lemma ok_inf (s : bool) : ok (if s then rat_POSITIVE_INFINITY else rat_NEGATIVE_INFINITY) (if s then PInf else NInf).
Proof. destruct s; (split; [right; cbn; lia|exact I]). Qed.

Lemma normalize_fin n d : d <> 0 ->
  let r := rat_normalize (mk_rat n d) in
  0 < rat_den r /\ Z.gcd (rat_num r) (rat_den r) = 1 /\ rat_num r * d = n * rat_den r.
Proof.
  intros Hd. unfold rat_normalize, set_rat_num, set_rat_den; cbn [rat_num rat_den].
  destruct (Z.eqb_spec d 1) as [->|Hd1]; cbn [negb].
  - cbn. rewrite Z.gcd_1_r. repeat split; lia.
  - destruct (gcd_cofactors n d Hd) as (qn & qd & Hn & Hq & Hco).
    pose proof (gcd_pos_r n d Hd) as Hg. set (g := Z.gcd n d) in *.
    destruct (Z.ltb_spec d 0) as [Hneg|Hpos].
    + assert (Q1 : Z.quot n (- g) = - qn) by (apply quot_exact; lia).
      assert (Q2 : Z.quot d (- g) = - qd) by (apply quot_exact; lia).
      rewrite Q1, Q2.
      assert (qd < 0) by nia.
      destruct (Z.ltb_spec (- qd) 0); [lia|]. cbn [rat_num rat_den].
      repeat split; try lia; try (rewrite Z.gcd_opp_l, Z.gcd_opp_r; exact Hco); nia.
    + assert (Q1 : Z.quot n g = qn) by (apply quot_exact; lia).
      assert (Q2 : Z.quot d g = qd) by (apply quot_exact; lia).
      rewrite Q1, Q2.
      assert (0 < qd) by nia.
      destruct (Z.ltb_spec qd 0); [lia|]. cbn [rat_num rat_den].
      repeat split; try lia; nia.
Qed.

Lemma normalize_inf n : n <> 0 ->
  rat_normalize (mk_rat n 0) = mk_rat (Z.sgn n) 0.
Proof.
  intros Hn. unfold rat_normalize, set_rat_num, set_rat_den; cbn [rat_num rat_den]. cbn [Z.eqb negb Z.ltb Z.compare].
  rewrite Z.gcd_0_r. cbn [Z.quot Z.quotrem fst].
  assert (Z.quot n (Z.abs n) = Z.sgn n).
  { apply quot_exact; [lia|]. destruct n; cbn; lia. }
  rewrite H. replace (Z.quot 0 (Z.abs n)) with 0 by (symmetry; apply Z.quot_0_l; lia). reflexivity.
Qed.

Lemma normalize_ok n d : 0 < d -> ok (rat_normalize (mk_rat n d)) (Fin (Qof n d)).
Proof.
  intros Hd. destruct (normalize_fin n d) as (H1 & H2 & H3); [lia|]. set (r := rat_normalize _) in *.
  destruct r as [n' d']. apply ok_fin; [exact H1|exact H2|]. apply Qof_eq; assumption.
Qed.

Theorem ctor2_spec n d : ~ (n = 0 /\ d = 0) ->
  wf (rat_ctor_int_int n d) /\ ext_eq (val (rat_ctor_int_int n d)) (val_frac n d).
Proof.
  intros Hnd. unfold rat_ctor_int_int, val_frac.
  destruct (Z.eqb_spec d 0) as [->|Hd].
  - rewrite normalize_inf by lia. split; [right; cbn; lia|]. destruct n; cbn; try lia; exact I.
  - pose proof (normalize_fin n d Hd) as (H1 & H2 & H3). set (r := rat_normalize _) in *.
    split; [left; split; assumption|]. rewrite val_finite by exact H1. apply Qof_eq; nia.
Qed.

Theorem ctor1_spec n : wf (rat_ctor_int n) /\ val (rat_ctor_int n) = ext_of_Z n.
Proof. split; [left; cbn; rewrite Z.gcd_1_r; lia|reflexivity]. Qed.

Theorem ctor0_spec : wf rat_ctor /\ val rat_ctor = ext_of_Z 0.
Proof. split; [left; cbn; lia|reflexivity]. Qed.

Lemma val_int k : val (rat_ctor_int k) = ext_of_Z k.
Proof. reflexivity. Qed.

Lemma wf_int k : wf (rat_ctor_int k).
Proof. apply ctor1_spec. Qed.

Lemma pinf_eq : rat_POSITIVE_INFINITY = mk_rat 1 0. Proof. reflexivity. Qed.
Lemma ninf_eq : rat_NEGATIVE_INFINITY = mk_rat (-1) 0. Proof. reflexivity. Qed.
Lemma one_eq : rat_ONE = mk_rat 1 1. Proof. reflexivity. Qed.
Lemma zero_eq : rat_ZERO = mk_rat 0 1. Proof. reflexivity. Qed.

Theorem consts_spec :
  (wf rat_ZERO /\ wf rat_ONE /\ wf rat_POSITIVE_INFINITY /\ wf rat_NEGATIVE_INFINITY) /\
  (val rat_ZERO = ext_of_Z 0 /\ val rat_ONE = ext_of_Z 1 /\ val rat_POSITIVE_INFINITY = PInf /\ val rat_NEGATIVE_INFINITY = NInf).
Proof. repeat split; try (left; cbn; lia); right; cbn; lia. Qed.

Theorem neg_spec a : wf a -> wf (rat_neg a) /\ val (rat_neg a) = ext_opp (val a).
Proof.
  intros Ha. destruct (wf_cases a Ha) as [[Hd Hg]|[->| ->]]; [|split; [right; cbn; lia|reflexivity]..].
  unfold rat_neg, set_rat_num. split; [left; split; [exact Hd|cbn; now rewrite Z.gcd_opp_l]|].
  now rewrite !val_finite by exact Hd.
Qed.

Lemma wf_neg a : wf a -> wf (rat_neg a).
Proof. intros H. now apply neg_spec. Qed.

Lemma neg_inj a b : rat_neg a = rat_neg b -> a = b.
Proof. destruct a, b; unfold rat_neg, set_rat_num; cbn. intros H; inversion H. f_equal. lia. Qed.

Theorem lt_spec a b : wf a -> wf b -> (rat_lt_rat a b = true <-> ext_lt (val a) (val b)).
Proof.
  intros Ha Hb. unfold rat_lt_rat.
  (* for each combination of finite / +inf / -inf operands and each outcome of the denominator test the claim is a linear
     fact about numerators and denominators, except finite/finite with equal denominators (cancel the denominator) *)
  destruct (Z.eqb_spec (rat_den a) (rat_den b)) as [E|E]; rewrite Z.ltb_lt;
    destruct (wf_cases a Ha) as [[Hd Hg]|[->| ->]], (wf_cases b Hb) as [[Hd' Hg']|[->| ->]];
    rewrite ?(val_finite a), ?(val_finite b) by assumption; cbn -[Z.mul] in *; unfold qval; rewrite ?Qof_lt by assumption;
    try lia.
  rewrite <- E. nia.
Qed.

Theorem eq_spec a b : wf a -> wf b -> (rat_eq_rat a b = true <-> ext_eq (val a) (val b)).
Proof.
  intros Ha Hb. rewrite eq_rat_true. split; [intros ->; apply ext_eq_refl|now apply wf_val_inj].
Qed.

(* the other four comparisons are the two above with the operands swapped and/or negated *)
Lemma rat_gt_as_lt a b : rat_gt_rat a b = rat_lt_rat b a.
Proof.
  unfold rat_gt_rat, rat_lt_rat.
  now rewrite (Z.eqb_sym (rat_den b)), !Z.gtb_ltb, (Z.mul_comm (rat_num b)), (Z.mul_comm (rat_den b)).
Qed.

Lemma rat_ge_as_lt a b : rat_ge_rat a b = negb (rat_lt_rat a b).
Proof. unfold rat_ge_rat, rat_lt_rat. rewrite !Z.geb_leb, !Z.leb_antisym. now destruct (Z.eqb _ _). Qed.

Lemma rat_le_as_lt a b : rat_le_rat a b = negb (rat_lt_rat b a).
Proof.
  unfold rat_le_rat, rat_lt_rat.
  rewrite (Z.eqb_sym (rat_den b)), !Z.leb_antisym, (Z.mul_comm (rat_num b)), (Z.mul_comm (rat_den b)). now destruct (Z.eqb _ _).
Qed.

Lemma rat_ne_as_eq a b : rat_ne_rat a b = negb (rat_eq_rat a b).
Proof. unfold rat_ne_rat, rat_eq_rat. now rewrite negb_andb. Qed.

Lemma negb_test (t : bool) (P : Prop) : (t = true <-> P) -> (negb t = true <-> ~ P).
Proof. intros <-. now rewrite negb_true_iff, not_true_iff_false. Qed.

(* a lexicographic test and a conjunction assembled from exact component tests are exact *)
Lemma lex_test (s e c : bool) (S E C : Prop) :
  (s = true <-> S) -> (e = true <-> E) -> (c = true <-> C) -> (s || e && c = true <-> S \/ E /\ C).
Proof. intros <- <- <-. now rewrite orb_true_iff, andb_true_iff. Qed.

Lemma and_test (e1 e2 : bool) (E1 E2 : Prop) : (e1 = true <-> E1) -> (e2 = true <-> E2) -> (e1 && e2 = true <-> E1 /\ E2).
Proof. intros <- <-. apply andb_true_iff. Qed.

Lemma eq_spec_sym a b : wf a -> wf b -> (rat_eq_rat a b = true <-> ext_eq (val b) (val a)).
Proof. intros Ha Hb. rewrite ext_eq_sym_iff. now apply eq_spec. Qed.

Theorem gt_spec a b : wf a -> wf b -> (rat_gt_rat a b = true <-> ext_lt (val b) (val a)).
Proof. intros Ha Hb. rewrite rat_gt_as_lt. now apply lt_spec. Qed.

Theorem ne_spec a b : wf a -> wf b -> (rat_ne_rat a b = true <-> ~ ext_eq (val a) (val b)).
Proof. intros Ha Hb. rewrite rat_ne_as_eq. now apply negb_test, eq_spec. Qed.

Theorem le_spec a b : wf a -> wf b -> (rat_le_rat a b = true <-> ext_le (val a) (val b)).
Proof. intros Ha Hb. rewrite rat_le_as_lt, ext_le_not_gt. now apply negb_test, lt_spec. Qed.

Theorem ge_spec a b : wf a -> wf b -> (rat_ge_rat a b = true <-> ext_le (val b) (val a)).
Proof. intros Ha Hb. rewrite rat_ge_as_lt, ext_le_not_gt. now apply negb_test, lt_spec. Qed.

Lemma test_false (t : bool) (P : Prop) : (t = true <-> P) -> ~ P -> t = false.
Proof. intros H N. apply not_true_iff_false. now rewrite H. Qed.

(* three exact tests of the cases of a trichotomy: exactly one of them answers true *)
Lemma one_of_three (l e g : bool) (L E G : Prop) :
  (l = true <-> L) -> (e = true <-> E) -> (g = true <-> G) ->
  L \/ E \/ G -> (L -> E -> False) -> (L -> G -> False) -> (G -> E -> False) ->
  (l = true /\ e = false /\ g = false) \/ (l = false /\ e = true /\ g = false) \/ (l = false /\ e = false /\ g = true).
Proof.
  intros HL HE HG T LE LG GE. destruct T as [H|[H|H]]; [left|right; left|right; right].
  - split; [now apply HL|]. split; [apply (test_false e E)|apply (test_false g G)]; auto.
  - split; [apply (test_false l L); auto|]. split; [now apply HE|apply (test_false g G); auto].
  - split; [apply (test_false l L); auto|]. split; [apply (test_false e E); auto|now apply HG].
Qed.

Theorem rat_order_total a b : wf a -> wf b ->
  (rat_lt_rat a b = true /\ rat_eq_rat a b = false /\ rat_gt_rat a b = false) \/
  (rat_lt_rat a b = false /\ rat_eq_rat a b = true /\ rat_gt_rat a b = false) \/
  (rat_lt_rat a b = false /\ rat_eq_rat a b = false /\ rat_gt_rat a b = true).
Proof.
  intros Ha Hb. apply (one_of_three _ _ _ _ _ _ (lt_spec a b Ha Hb) (eq_spec a b Ha Hb) (gt_spec a b Ha Hb)).
  - apply ext_trichotomy.
  - apply ext_lt_eq_excl.
  - apply ext_lt_asym.
  - intros G E. exact (ext_lt_eq_excl _ _ G (ext_eq_sym _ _ E)).
Qed.

Theorem rat_lt_trans a b c : wf a -> wf b -> wf c ->
  rat_lt_rat a b = true -> rat_lt_rat b c = true -> rat_lt_rat a c = true.
Proof.
  intros Ha Hb Hc. rewrite (lt_spec a b), (lt_spec b c), (lt_spec a c) by assumption. apply ext_lt_trans.
Qed.

(* against an integer k: the position of the value relative to k, read off numerator and denominator *)
Lemma val_vs_int a k : wf a ->
  (ext_lt (val a) (ext_of_Z k) <-> rat_num a < rat_den a * k) /\
  (ext_eq (val a) (ext_of_Z k) <-> rat_num a = rat_den a * k) /\
  (ext_lt (ext_of_Z k) (val a) <-> rat_den a * k < rat_num a).
Proof.
  intros Ha. destruct (wf_cases a Ha) as [[Hd Hg]|[->| ->]]; [|cbn; lia..].
  rewrite val_finite by exact Hd. unfold ext_of_Z, qval. rewrite Qof_int. cbn [ext_lt ext_eq].
  rewrite !Qof_lt, Qof_eq by lia. lia.
Qed.

(* a canonical rational with an integer value has denominator 1 *)
Lemma wf_multiple a k : wf a -> rat_num a = rat_den a * k -> rat_den a = 1.
Proof.
  intros Ha E. destruct (wf_cases a Ha) as [[Hd Hg]|[->| ->]]; [|discriminate E..].
  assert (D : (rat_den a | Z.gcd (rat_num a) (rat_den a))) by (apply Z.gcd_greatest; [exists k; lia|exists 1; lia]).
  rewrite Hg in D. apply Z.divide_1_r_nonneg in D; lia.
Qed.

Theorem lt_int_spec a k : wf a -> (rat_lt_int a k = true <-> ext_lt (val a) (ext_of_Z k)).
Proof. intros Ha. destruct (val_vs_int a k Ha) as (L & _ & _). unfold rat_lt_int. now rewrite Z.ltb_lt, L. Qed.

Theorem gt_int_spec a k : wf a -> (rat_gt_int a k = true <-> ext_lt (ext_of_Z k) (val a)).
Proof. intros Ha. destruct (val_vs_int a k Ha) as (_ & _ & G). unfold rat_gt_int. now rewrite Z.gtb_lt, G. Qed.

Theorem le_int_spec a k : wf a -> (rat_le_int a k = true <-> ext_le (val a) (ext_of_Z k)).
Proof.
  intros Ha. destruct (val_vs_int a k Ha) as (L & E & _). unfold rat_le_int, ext_le. rewrite Z.leb_le, L, E. lia.
Qed.

Theorem ge_int_spec a k : wf a -> (rat_ge_int a k = true <-> ext_le (ext_of_Z k) (val a)).
Proof.
  intros Ha. destruct (val_vs_int a k Ha) as (_ & E & G). unfold rat_ge_int, ext_le. rewrite Z.geb_le, G, ext_eq_sym_iff, E. lia.
Qed.

Theorem eq_int_spec a k : wf a -> (rat_eq_int a k = true <-> ext_eq (val a) (ext_of_Z k)).
Proof.
  intros Ha. destruct (val_vs_int a k Ha) as (_ & E & _). unfold rat_eq_int. rewrite andb_true_iff, !Z.eqb_eq, E.
  split; [intros [-> ->]; lia|]. intros H. pose proof (wf_multiple a k Ha H). lia.
Qed.

Theorem ne_int_spec a k : wf a -> (rat_ne_int a k = true <-> ~ ext_eq (val a) (ext_of_Z k)).
Proof. intros Ha. unfold rat_ne_int. rewrite <- negb_andb. apply negb_test, (eq_int_spec a k Ha). Qed.

(* the sign predicates compare with the integer 0 *)
Theorem is_zero_spec a : wf a -> (is_zero_rat a = true <-> ext_eq (val a) (Fin 0)).
Proof. intros Ha. destruct (val_vs_int a 0 Ha) as (_ & E & _). unfold is_zero_rat. rewrite Z.eqb_eq. rewrite Z.mul_0_r in E. now symmetry. Qed.

Theorem is_positive_spec a : wf a -> (is_positive_rat a = true <-> ext_lt (Fin 0) (val a)).
Proof. intros Ha. rewrite <- (gt_int_spec a 0 Ha). unfold is_positive_rat, rat_gt_int. now rewrite Z.mul_0_r. Qed.

Theorem is_negative_spec a : wf a -> (is_negative_rat a = true <-> ext_lt (val a) (Fin 0)).
Proof. intros Ha. rewrite <- (lt_int_spec a 0 Ha). unfold is_negative_rat, rat_lt_int. now rewrite Z.mul_0_r. Qed.

Theorem is_positive_or_zero_spec a : wf a -> (is_positive_or_zero_rat a = true <-> ext_le (Fin 0) (val a)).
Proof. intros Ha. rewrite <- (ge_int_spec a 0 Ha). unfold is_positive_or_zero_rat, rat_ge_int. now rewrite Z.mul_0_r. Qed.

Theorem is_negative_or_zero_spec a : wf a -> (is_negative_or_zero_rat a = true <-> ext_le (val a) (Fin 0)).
Proof. intros Ha. rewrite <- (le_int_spec a 0 Ha). unfold is_negative_or_zero_rat, rat_le_int. now rewrite Z.mul_0_r. Qed.

Theorem is_infinite_spec a : wf a -> (is_infinite_rat a = true <-> val a = PInf \/ val a = NInf).
Proof.
  intros Ha. unfold is_infinite_rat. destruct (wf_cases a Ha) as [[Hd _]|[->| ->]]; [|cbn; tauto..].
  rewrite val_finite by exact Hd. destruct (Z.eqb_spec (rat_den a) 0); [lia|]. intuition discriminate.
Qed.

Theorem is_positive_infinite_spec a : wf a -> (is_positive_infinite_rat a = true <-> val a = PInf).
Proof.
  intros Ha. unfold is_positive_infinite_rat. rewrite andb_true_iff, is_positive_spec, is_infinite_spec by exact Ha.
  destruct (val a); cbn; intuition discriminate.
Qed.

Theorem is_negative_infinite_spec a : wf a -> (is_negative_infinite_rat a = true <-> val a = NInf).
Proof.
  intros Ha. unfold is_negative_infinite_rat. rewrite andb_true_iff, is_negative_spec, is_infinite_spec by exact Ha.
  destruct (val a); cbn; intuition discriminate.
Qed.

Theorem is_integer_spec a : wf a -> (is_integer_rat a = true <-> exists z, ext_eq (val a) (ext_of_Z z)).
Proof.
  intros Ha. unfold is_integer_rat. rewrite Z.eqb_eq. split.
  - intros D. exists (rat_num a). destruct (val_vs_int a (rat_num a) Ha) as (_ & E & _). apply E. rewrite D. lia.
  - intros [z H]. destruct (val_vs_int a z Ha) as (_ & E & _). exact (wf_multiple a z Ha (proj1 E H)).
Qed.

Theorem numerator_denominator_spec a : a = mk_rat (rat_numerator a) (rat_denominator a).
Proof. now destruct a. Qed.

(* Every operator of rational.cpp is a cascade of special cases (`if (num == 0 || is_infinite(rhs)) return rhs;` ...)
   followed by a general branch. For each result a branch can return there is one lemma below: under that branch's own
   test alone, whatever the outcome of the others, the result is right; the general branch needs the failed tests of the
   neutral and absorbing cases only. The operator theorems split on the tests in whatever order the generated function makes
   them and close every leaf with the lemma of the result it returns, so they do not depend on that order. A compound
   assignment returns the same values assembled in place; where it keeps a denominator whose value its test has determined, the
   lemma has that denominator as a parameter x. Operands are given by components: n/d and n'/d' (or the integer k). *)
Create HintDb rat_branches.

(* what a passed test says about the denominator kept by a compound assignment *)
Lemma eqb_den x y : (x =? y) = true -> x = y.
Proof. apply Z.eqb_eq. Qed.
Lemma negb_eqb_den x y : negb (x =? y) = false -> x = y.
Proof. intros H. apply Z.eqb_eq. now apply negb_false_iff. Qed.
Lemma both_den1_l d d' : (d =? 1) && (d' =? 1) = true -> d = 1.
Proof. now intros [H%Z.eqb_eq _]%andb_true_iff. Qed.
Lemma both_den1_r d d' : (d =? 1) && (d' =? 1) = true -> d' = 1.
Proof. now intros [_ H%Z.eqb_eq]%andb_true_iff. Qed.
Lemma zero_den1 n d : wf (mk_rat n d) -> (n =? 0) = true -> d = 1.
Proof. intros H N%Z.eqb_eq. exact (wf_zero_num _ H N). Qed.
Lemma one_den1 n d : rat_eq_rat (mk_rat n d) rat_ONE = true -> d = 1.
Proof. intros H%eq_rat_true. now inversion H. Qed.
Lemma inf_den0 n d : is_infinite_rat (mk_rat n d) = true -> d = 0.
Proof. apply Z.eqb_eq. Qed.
#[export] Hint Resolve eqb_den negb_eqb_den both_den1_l both_den1_r zero_den1 one_den1 inf_den0 : rat_branches.

(* the general branch of operator+ : with f = gcd(n,n') and g = gcd(d,d') it reduces ((n/f)(d'/g) + (n'/f)(d/g)) / lcm(d,d')
   and multiplies the numerator back by f. The result is still reduced: f divides n and n', so it is coprime to d and d',
   hence to lcm(d,d') and to the reduced denominator, which divides it. *)
Lemma add_general n d n' d' : 0 < d -> 0 < d' -> Z.gcd n d = 1 -> Z.gcd n' d' = 1 -> n <> 0 ->
  let f := Z.gcd n n' in
  let g := Z.gcd d d' in
  let r := rat_normalize (mk_rat (Z.quot n f * Z.quot d' g + Z.quot n' f * Z.quot d g) (Z.lcm d d')) in
  ok (mk_rat (rat_num r * f) (rat_den r)) (Fin (Qof n d + Qof n' d')).
Proof.
  intros Hd Hd' Hg Hg' Hn f g.
  assert (Hf : 0 < f) by (apply gcd_pos_l; assumption).
  assert (Hgp : 0 < g) by (apply gcd_pos_l; lia).
  destruct (Z.gcd_divide_l n n') as [na Hna]. destruct (Z.gcd_divide_r n n') as [nb Hnb].
  destruct (Z.gcd_divide_l d d') as [da Hda]. destruct (Z.gcd_divide_r d d') as [db Hdb].
  fold f in Hna, Hnb. fold g in Hda, Hdb.
  rewrite (quot_exact n f na), (quot_exact n' f nb), (quot_exact d g da), (quot_exact d' g db) by lia.
  assert (Hdap : 0 < da) by nia. assert (Hdbp : 0 < db) by nia.
  assert (Hlcm : Z.lcm d d' = da * db * g).
  { unfold Z.lcm. fold g. replace (d' / g) with db by (rewrite Hdb; symmetry; apply Z.div_mul; lia).
    rewrite Z.abs_eq by nia. rewrite Hda at 1. ring. }
  assert (Hl : Z.lcm d d' <> 0) by (rewrite Hlcm; nia).
  pose proof (normalize_fin (na * db + nb * da) (Z.lcm d d') Hl) as (Hrd & Hrg & Heq).
  set (r := rat_normalize _) in *. cbv zeta.
  apply ok_fin; [exact Hrd| |].
  - apply gcd1_mul_l; [exact Hrg|].
    assert (Hdiv : (rat_den r | Z.lcm d d')).
    { apply Z.gauss with (rat_num r); [exists (na * db + nb * da); lia|]. apply gcd1_sym; exact Hrg. }
    assert (Hfd : Z.gcd f d = 1) by (apply gcd1_div_l with n; [exact Hg|exists na; lia]).
    assert (Hfd' : Z.gcd f d' = 1) by (apply gcd1_div_l with n'; [exact Hg'|exists nb; lia]).
    assert (Hlf : Z.gcd (Z.lcm d d') f = 1).
    { apply gcd1_div_l with (d * d'); [apply gcd1_sym, gcd1_mul_r; assumption|].
      rewrite Hlcm. exists g. rewrite Hda, Hdb at 1. ring. }
    apply gcd1_sym, gcd1_div_l with (Z.lcm d d'); [exact Hlf|exact Hdiv].
  - pose proof (Z.mul_pos_pos d d' Hd Hd'). rewrite Qof_add, Qof_eq by assumption. rewrite Hlcm in Heq. clearbody f g. subst n n' d d'.
    apply Z.mul_reg_r with g; [lia|].
    transitivity (rat_num r * (da * db * g) * (f * g * g)); [ring|]. rewrite Heq. ring.
Qed.

(* the general branch of operator* : cross-reduce n/d' and n'/d, multiply, normalize *)
Lemma mul_general n d n' d' : 0 < d -> 0 < d' ->
  let c := rat_normalize (mk_rat n d') in
  let c' := rat_normalize (mk_rat n' d) in
  ok (rat_normalize (mk_rat (rat_num c * rat_num c') (rat_den c * rat_den c'))) (Fin (Qof n d * Qof n' d')).
Proof.
  intros Hd Hd'.
  pose proof (normalize_fin n d' ltac:(lia)) as (C1 & _ & C3). pose proof (normalize_fin n' d ltac:(lia)) as (E1 & _ & E3).
  set (c := rat_normalize (mk_rat n d')) in *. set (c' := rat_normalize (mk_rat n' d)) in *. cbv zeta.
  eapply ok_eq; [apply normalize_ok; nia|]. cbn [ext_eq]. rewrite Qof_mul, Qof_eq by nia.
  transitivity ((rat_num c * d') * (rat_num c' * d)); [ring|]. rewrite C3, E3. ring.
Qed.

(* the infinity chosen by the sign test of operator*, as the binary operator and as the compound assignment write it *)
Lemma if_inf (s : bool) : (if s then rat_POSITIVE_INFINITY else rat_NEGATIVE_INFINITY) = mk_rat (if s then 1 else -1) 0.
Proof. now destruct s. Qed.

Section AddBranches.
  Variables (n d n' d' : Z) (e : ext).
  Hypothesis Ha : wf (mk_rat n d).
  Hypothesis Hb : wf (mk_rat n' d').
  Hypothesis E : ext_add (val (mk_rat n d)) (val (mk_rat n' d')) = Some e.

  Lemma add_ret_rhs : (n =? 0) || is_infinite_rat (mk_rat n' d') = true -> ok (mk_rat n' d') e.
  Proof.
    intros [N%Z.eqb_eq|I]%orb_true_iff.
    - rewrite (val_zero _ Ha N) in E. exact (conj Hb (ext_add_0_l _ _ E)).
    - split; [exact Hb|]. apply ext_eq_of_eq, (ext_add_inf_r _ _ _ (wf_infinite _ Hb I) E).
  Qed.

  Lemma add_ret_this : (n' =? 0) || is_infinite_rat (mk_rat n d) = true -> ok (mk_rat n d) e.
  Proof.
    intros [N%Z.eqb_eq|I]%orb_true_iff.
    - rewrite (val_zero _ Hb N) in E. exact (conj Ha (ext_add_0_r _ _ E)).
    - split; [exact Ha|]. apply ext_eq_of_eq, (ext_add_inf_l _ _ _ (wf_infinite _ Ha I) E).
  Qed.

  Lemma add_ret_int x : d = 1 -> d' = 1 -> x = 1 -> ok (mk_rat (n + n') x) e.
  Proof.
    intros D D' ->. rewrite D, D', !val_finite in E by (cbn; lia). apply Some_inj in E. rewrite <- E.
    unfold qval; cbn [rat_num rat_den]. apply ok_int. rewrite Qof_add by lia. apply Qof_eq; lia.
  Qed.

  Lemma add_ret_general :
    (n =? 0) || is_infinite_rat (mk_rat n' d') = false -> (n' =? 0) || is_infinite_rat (mk_rat n d) = false ->
    let f := Z.gcd n n' in
    let g := Z.gcd d d' in
    let r := rat_normalize (mk_rat (Z.quot n f * Z.quot d' g + Z.quot n' f * Z.quot d g) (Z.lcm d d')) in
    ok (mk_rat (rat_num r * f) (rat_den r)) e.
  Proof.
    intros [N%Z.eqb_neq Ib]%orb_false_iff [N'%Z.eqb_neq Ia]%orb_false_iff.
    destruct (wf_finite _ Ha Ia) as [Hd Hg], (wf_finite _ Hb Ib) as [Hd' Hg']. cbn [rat_num rat_den] in *.
    rewrite !val_finite in E by assumption. apply Some_inj in E. rewrite <- E. exact (add_general n d n' d' Hd Hd' Hg Hg' N).
  Qed.
End AddBranches.

Section MulBranches.
  Variables (n d n' d' : Z) (e : ext).
  Hypothesis Ha : wf (mk_rat n d).
  Hypothesis Hb : wf (mk_rat n' d').
  Hypothesis E : ext_mul (val (mk_rat n d)) (val (mk_rat n' d')) = Some e.

  Lemma mul_ret_this : rat_eq_rat (mk_rat n' d') rat_ONE = true -> ok (mk_rat n d) e.
  Proof. intros G%eq_rat_true. rewrite G in E. exact (conj Ha (ext_mul_1_r _ _ E)). Qed.

  Lemma mul_ret_rhs : rat_eq_rat (mk_rat n d) rat_ONE = true -> ok (mk_rat n' d') e.
  Proof. intros G%eq_rat_true. rewrite G in E. exact (conj Hb (ext_mul_1_l _ _ E)). Qed.

  Lemma mul_ret_int x : d = 1 -> d' = 1 -> x = 1 -> ok (mk_rat (n * n') x) e.
  Proof.
    intros D D' ->. rewrite D, D', !val_finite in E by (cbn; lia). apply Some_inj in E. rewrite <- E.
    unfold qval; cbn [rat_num rat_den]. apply ok_int. rewrite Qof_mul by lia. apply Qof_eq; lia.
  Qed.

  Lemma mul_ret_inf x : is_infinite_rat (mk_rat n d) || is_infinite_rat (mk_rat n' d') = true -> x = 0 ->
    ok (mk_rat (if (n >=? 0) && (n' >=? 0) || (n <=? 0) && (n' <=? 0) then 1 else -1) x) e.
  Proof.
    intros I ->.
    assert (I' : (val (mk_rat n d) = PInf \/ val (mk_rat n d) = NInf) \/ (val (mk_rat n' d') = PInf \/ val (mk_rat n' d') = NInf))
      by (apply orb_true_iff in I as [I|I]; [left; exact (wf_infinite _ Ha I)|right; exact (wf_infinite _ Hb I)]).
    destruct (ext_mul_inf _ _ _ I' E) as [S ->]. rewrite !ext_sgn_val in * by assumption. cbn [rat_num] in *.
    rewrite (sign_test _ _ S), <- if_inf. apply ok_inf.
  Qed.

  Lemma mul_ret_general : is_infinite_rat (mk_rat n d) || is_infinite_rat (mk_rat n' d') = false ->
    let c := rat_normalize (mk_rat n d') in
    let c' := rat_normalize (mk_rat n' d) in
    ok (rat_normalize (mk_rat (rat_num c * rat_num c') (rat_den c * rat_den c'))) e.
  Proof.
    intros [Ia Ib]%orb_false_iff. destruct (wf_finite _ Ha Ia) as [Hd _], (wf_finite _ Hb Ib) as [Hd' _]. cbn [rat_den] in *.
    rewrite !val_finite in E by assumption. apply Some_inj in E. rewrite <- E. exact (mul_general n d n' d' Hd Hd').
  Qed.
End MulBranches.

Section AddIntBranches.
  Variables (n d k : Z) (e : ext).
  Hypothesis Ha : wf (mk_rat n d).
  Hypothesis E : ext_add (val (mk_rat n d)) (ext_of_Z k) = Some e.

  Lemma addi_ret_int x : (n =? 0) = true -> x = 1 -> ok (mk_rat k x) e.
  Proof. intros N%Z.eqb_eq ->. rewrite (val_zero _ Ha N) in E. exact (conj (wf_int k) (ext_add_0_l _ _ E)). Qed.

  Lemma addi_ret_this : (k =? 0) || is_infinite_rat (mk_rat n d) = true -> ok (mk_rat n d) e.
  Proof.
    intros [K%Z.eqb_eq|I]%orb_true_iff.
    - rewrite K in E. exact (conj Ha (ext_add_0_r _ _ E)).
    - split; [exact Ha|]. apply ext_eq_of_eq, (ext_add_inf_l _ _ _ (wf_infinite _ Ha I) E).
  Qed.

  Lemma addi_ret_sum x : d = 1 -> x = 1 -> ok (mk_rat (n + k) x) e.
  Proof.
    intros D ->. rewrite D, val_finite in E by (cbn; lia). apply Some_inj in E. rewrite <- E.
    unfold qval; cbn [rat_num rat_den]. apply ok_int. rewrite Qof_int, Qof_add by lia. apply Qof_eq; lia.
  Qed.

  Lemma addi_ret_general : (k =? 0) || is_infinite_rat (mk_rat n d) = false -> ok (mk_rat (n + k * d) d) e.
  Proof.
    intros [_ Ia]%orb_false_iff. destruct (wf_finite _ Ha Ia) as [Hd Hg]. cbn [rat_num rat_den] in *.
    rewrite val_finite in E by exact Hd. apply Some_inj in E. rewrite <- E. unfold qval; cbn [rat_num rat_den]. rewrite Qof_int.
    apply ok_fin; [exact Hd| |rewrite Qof_add by lia; apply Qof_eq; lia].
    now rewrite Z.gcd_comm, Z.gcd_add_mult_diag_r, Z.gcd_comm.
  Qed.
End AddIntBranches.

Section MulIntBranches.
  Variables (n d k : Z) (e : ext).
  Hypothesis Ha : wf (mk_rat n d).
  Hypothesis E : ext_mul (val (mk_rat n d)) (ext_of_Z k) = Some e.

  Lemma muli_ret_this : (k =? 1) = true -> ok (mk_rat n d) e.
  Proof. intros K%Z.eqb_eq. rewrite K in E. exact (conj Ha (ext_mul_1_r _ _ E)). Qed.

  Lemma muli_ret_int x : rat_eq_rat (mk_rat n d) rat_ONE = true -> x = 1 -> ok (mk_rat k x) e.
  Proof. intros G%eq_rat_true ->. rewrite G in E. exact (conj (wf_int k) (ext_mul_1_l _ _ E)). Qed.

  Lemma muli_ret_prod x : d = 1 -> x = 1 -> ok (mk_rat (n * k) x) e.
  Proof.
    intros D ->. rewrite D, val_finite in E by (cbn; lia). apply Some_inj in E. rewrite <- E.
    unfold qval; cbn [rat_num rat_den]. apply ok_int. rewrite Qof_int, Qof_mul by lia. apply Qof_eq; lia.
  Qed.

  Lemma muli_ret_inf x : is_infinite_rat (mk_rat n d) = true -> x = 0 ->
    ok (mk_rat (if (n >=? 0) && (k >=? 0) || (n <=? 0) && (k <=? 0) then 1 else -1) x) e.
  Proof.
    intros I ->. destruct (ext_mul_inf _ _ _ (or_introl (wf_infinite _ Ha I)) E) as [S ->].
    rewrite ext_sgn_val in * by exact Ha. change (ext_sgn (ext_of_Z k)) with (Z.sgn k) in *. cbn [rat_num] in *.
    rewrite (sign_test _ _ S), <- if_inf. apply ok_inf.
  Qed.

  Lemma muli_ret_general : is_infinite_rat (mk_rat n d) = false -> ok (rat_normalize (mk_rat (n * k) d)) e.
  Proof.
    intros Ia. destruct (wf_finite _ Ha Ia) as [Hd _]. cbn [rat_den] in *.
    rewrite val_finite in E by exact Hd. apply Some_inj in E. rewrite <- E.
    eapply ok_eq; [apply normalize_ok; exact Hd|]. cbn [ext_eq]. unfold qval; cbn [rat_num rat_den].
    rewrite Qof_int, Qof_mul by lia. apply Qof_eq; lia.
  Qed.
End MulIntBranches.

#[export] Hint Resolve add_ret_rhs add_ret_this add_ret_int add_ret_general mul_ret_this mul_ret_rhs mul_ret_int mul_ret_inf
  mul_ret_general addi_ret_int addi_ret_this addi_ret_sum addi_ret_general muli_ret_this muli_ret_int muli_ret_prod muli_ret_inf
  muli_ret_general : rat_branches.

(* The goal says that an operator (unfolded, operands given by components) returns a right result: write the results as
   records; as long as the result starts with a test, decide it, keeping its outcome as a hypothesis; close each leaf by
   the lemma of the result returned there (a leaf no lemma fits is reported here, not at Qed). *)
Ltac by_branches :=
  match goal with |- wf ?R /\ ext_eq (val ?R) ?e => change (ok R e) end;
  unfold set_rat_num, set_rat_den, rat_ctor_int_int, rat_ctor_int, rat_ctor; cbv zeta;
  rewrite ?if_inf; cbn [rat_num rat_den Z.opp];
  repeat (lazymatch goal with |- ok (if ?c then _ else _) _ => destruct c eqn:? end);
  solve [eauto with rat_branches].

Theorem add_spec a b e : wf a -> wf b -> ext_add (val a) (val b) = Some e ->
  wf (rat_add_rat a b) /\ ext_eq (val (rat_add_rat a b)) e.
Proof. intros Ha Hb E. destruct a as [n d], b as [n' d']. unfold rat_add_rat. by_branches. Qed.

Theorem addeq_spec a b e : wf a -> wf b -> ext_add (val a) (val b) = Some e ->
  wf (rat_addeq_rat a b) /\ ext_eq (val (rat_addeq_rat a b)) e.
Proof. intros Ha Hb E. destruct a as [n d], b as [n' d']. unfold rat_addeq_rat. by_branches. Qed.

Theorem add_int_spec a k e : wf a -> ext_add (val a) (ext_of_Z k) = Some e ->
  wf (rat_add_int a k) /\ ext_eq (val (rat_add_int a k)) e.
Proof. intros Ha E. destruct a as [n d]. unfold rat_add_int. by_branches. Qed.

Theorem addeq_int_spec a k e : wf a -> ext_add (val a) (ext_of_Z k) = Some e ->
  wf (rat_addeq_int a k) /\ ext_eq (val (rat_addeq_int a k)) e.
Proof. intros Ha E. destruct a as [n d]. unfold rat_addeq_int. by_branches. Qed.

Theorem mul_spec a b e : wf a -> wf b -> ext_mul (val a) (val b) = Some e ->
  wf (rat_mul_rat a b) /\ ext_eq (val (rat_mul_rat a b)) e.
Proof. intros Ha Hb E. destruct a as [n d], b as [n' d']. unfold rat_mul_rat. by_branches. Qed.

Theorem muleq_spec a b e : wf a -> wf b -> ext_mul (val a) (val b) = Some e ->
  wf (rat_muleq_rat a b) /\ ext_eq (val (rat_muleq_rat a b)) e.
Proof. intros Ha Hb E. destruct a as [n d], b as [n' d']. unfold rat_muleq_rat. by_branches. Qed.

Theorem mul_int_spec a k e : wf a -> ext_mul (val a) (ext_of_Z k) = Some e ->
  wf (rat_mul_int a k) /\ ext_eq (val (rat_mul_int a k)) e.
Proof. intros Ha E. destruct a as [n d]. unfold rat_mul_int. by_branches. Qed.

Theorem muleq_int_spec a k e : wf a -> ext_mul (val a) (ext_of_Z k) = Some e ->
  wf (rat_muleq_int a k) /\ ext_eq (val (rat_muleq_int a k)) e.
Proof. intros Ha E. destruct a as [n d]. unfold rat_muleq_int. by_branches. Qed.

(* subtraction: a - b is a + (-b) in the code *)
Theorem sub_spec a b e : wf a -> wf b -> ext_sub (val a) (val b) = Some e ->
  wf (rat_sub_rat a b) /\ ext_eq (val (rat_sub_rat a b)) e.
Proof.
  intros Ha Hb H. unfold rat_sub_rat. destruct (neg_spec b Hb) as [Hn Hv].
  apply add_spec; [exact Ha|exact Hn|]. rewrite Hv. exact H.
Qed.

Theorem subeq_spec a b e : wf a -> wf b -> ext_sub (val a) (val b) = Some e ->
  wf (rat_subeq_rat a b) /\ ext_eq (val (rat_subeq_rat a b)) e.
Proof.
  intros Ha Hb H. unfold rat_subeq_rat. destruct (neg_spec b Hb) as [Hn Hv].
  apply addeq_spec; [exact Ha|exact Hn|]. rewrite Hv. exact H.
Qed.

Theorem sub_int_spec a k e : wf a -> ext_sub (val a) (ext_of_Z k) = Some e ->
  wf (rat_sub_int a k) /\ ext_eq (val (rat_sub_int a k)) e.
Proof. intros Ha H. unfold rat_sub_int. apply add_int_spec; [exact Ha|exact H]. Qed.

Theorem subeq_int_spec a k e : wf a -> ext_sub (val a) (ext_of_Z k) = Some e ->
  wf (rat_subeq_int a k) /\ ext_eq (val (rat_subeq_int a k)) e.
Proof. intros Ha H. unfold rat_subeq_int. apply addeq_int_spec; [exact Ha|exact H]. Qed.

(* division: multiplication by the reciprocal that operator/ builds, den/num with the sign moved to the numerator *)
Definition recip (b : rat) : rat :=
  if Z.geb (rat_num b) 0 then mk_rat (rat_den b) (rat_num b) else mk_rat (- rat_den b) (- rat_num b).

Lemma div_rat_unfold a b : rat_div_rat a b = rat_mul_rat a (recip b).
Proof. unfold rat_div_rat, recip. now destruct (Z.geb (rat_num b) 0). Qed.

Lemma diveq_rat_unfold a b : rat_diveq_rat a b = rat_muleq_rat a (recip b).
Proof. unfold rat_diveq_rat, recip. now destruct (Z.geb (rat_num b) 0). Qed.

Lemma div_int_unfold a k : rat_div_int a k = rat_mul_rat a (recip (rat_ctor_int k)).
Proof. unfold rat_div_int, recip, rat_ctor_int; cbn [rat_num rat_den]. now destruct (Z.geb k 0). Qed.

Lemma diveq_int_unfold a k : rat_diveq_int a k = rat_muleq_rat a (recip (rat_ctor_int k)).
Proof. unfold rat_diveq_int, recip, rat_ctor_int; cbn [rat_num rat_den]. now destruct (Z.geb k 0). Qed.

Lemma recip_spec b i : wf b -> ext_inv (val b) = Some i -> ok (recip b) i.
Proof.
  intros Hb. destruct (wf_cases b Hb) as [[Hd Hg]|[->| ->]].
  - rewrite val_finite by exact Hd. destruct b as [n d]; unfold qval, ext_inv, recip; cbn [Qof Qnum rat_num rat_den] in *.
    destruct (Z.eqb_spec n 0) as [->|Hn]; [discriminate|]. intros E; apply Some_inj in E; subst i.
    rewrite Z.geb_leb. destruct (Z.leb_spec 0 n).
    + apply ok_fin; [lia|now apply gcd1_sym|]. symmetry. apply Qof_inv_pos; lia.
    + apply ok_fin; [lia|rewrite Z.gcd_opp_l, Z.gcd_opp_r; now apply gcd1_sym|]. symmetry. apply Qof_inv_neg; lia.
  - intros E; apply Some_inj in E; subst i. now apply ok_int.
  - intros E; apply Some_inj in E; subst i. now apply ok_int.
Qed.

Lemma div_via_recip (mul : rat -> rat -> rat) a b e :
  (forall x y e', wf x -> wf y -> ext_mul (val x) (val y) = Some e' -> ok (mul x y) e') ->
  wf a -> wf b -> ext_div (val a) (val b) = Some e -> ok (mul a (recip b)) e.
Proof.
  intros Hmul Ha Hb. unfold ext_div. destruct (ext_inv (val b)) as [i|] eqn:Ei; [|discriminate]. intros H.
  destruct (recip_spec b i Hb Ei) as [Hr Hv].
  destruct (ext_mul_compat (val a) (val a) i (val (recip b)) e (ext_eq_refl _) (ext_eq_sym _ _ Hv) H) as (e' & He' & Hee).
  exact (ok_eq _ _ _ (Hmul a (recip b) e' Ha Hr He') (ext_eq_sym _ _ Hee)).
Qed.

Theorem div_spec a b e : wf a -> wf b -> ext_div (val a) (val b) = Some e ->
  wf (rat_div_rat a b) /\ ext_eq (val (rat_div_rat a b)) e.
Proof. rewrite div_rat_unfold. exact (div_via_recip rat_mul_rat a b e mul_spec). Qed.

Theorem diveq_spec a b e : wf a -> wf b -> ext_div (val a) (val b) = Some e ->
  wf (rat_diveq_rat a b) /\ ext_eq (val (rat_diveq_rat a b)) e.
Proof. rewrite diveq_rat_unfold. exact (div_via_recip rat_muleq_rat a b e muleq_spec). Qed.

Theorem div_int_spec a k e : wf a -> ext_div (val a) (ext_of_Z k) = Some e ->
  wf (rat_div_int a k) /\ ext_eq (val (rat_div_int a k)) e.
Proof. intros Ha. rewrite div_int_unfold. exact (div_via_recip rat_mul_rat a (rat_ctor_int k) e mul_spec Ha (wf_int k)). Qed.

Theorem diveq_int_spec a k e : wf a -> ext_div (val a) (ext_of_Z k) = Some e ->
  wf (rat_diveq_int a k) /\ ext_eq (val (rat_diveq_int a k)) e.
Proof. intros Ha. rewrite diveq_int_unfold. exact (div_via_recip rat_muleq_rat a (rat_ctor_int k) e muleq_spec Ha (wf_int k)). Qed.

(* left-scalar friends: I op rational is rational(I) op rational in the code *)
Theorem int_add_spec k b e : wf b -> ext_add (ext_of_Z k) (val b) = Some e ->
  wf (int_add_rat k b) /\ ext_eq (val (int_add_rat k b)) e.
Proof. exact (add_spec (rat_ctor_int k) b e (wf_int k)). Qed.

Theorem int_sub_spec k b e : wf b -> ext_sub (ext_of_Z k) (val b) = Some e ->
  wf (int_sub_rat k b) /\ ext_eq (val (int_sub_rat k b)) e.
Proof. exact (sub_spec (rat_ctor_int k) b e (wf_int k)). Qed.

Theorem int_mul_spec k b e : wf b -> ext_mul (ext_of_Z k) (val b) = Some e ->
  wf (int_mul_rat k b) /\ ext_eq (val (int_mul_rat k b)) e.
Proof. exact (mul_spec (rat_ctor_int k) b e (wf_int k)). Qed.

Theorem int_div_spec k b e : wf b -> ext_div (ext_of_Z k) (val b) = Some e ->
  wf (int_div_rat k b) /\ ext_eq (val (int_div_rat k b)) e.
Proof. exact (div_spec (rat_ctor_int k) b e (wf_int k)). Qed.

(* a compound assignment and its binary operator return right results for the same value, and canonical forms are
   unique: where the operation is defined they return the same machine value *)
Lemma compound_is_binary (x : option ext) (R R' : rat) :
  (forall e, x = Some e -> ok R e) -> (forall e, x = Some e -> ok R' e) -> x <> None -> R = R'.
Proof.
  intros H1 H2 Hx. destruct x as [e|]; [|congruence]. destruct (H1 e eq_refl) as [W V], (H2 e eq_refl) as [W' V'].
  apply wf_val_inj; [exact W|exact W'|]. exact (ext_eq_trans _ _ _ V (ext_eq_sym _ _ V')).
Qed.

Theorem addeq_rat_is_add a b : wf a -> wf b -> ext_add (val a) (val b) <> None -> rat_addeq_rat a b = rat_add_rat a b.
Proof. intros Ha Hb. apply compound_is_binary; intros e H; [now apply addeq_spec|now apply add_spec]. Qed.

Theorem subeq_rat_is_sub a b : wf a -> wf b -> ext_sub (val a) (val b) <> None -> rat_subeq_rat a b = rat_sub_rat a b.
Proof. intros Ha Hb. apply compound_is_binary; intros e H; [now apply subeq_spec|now apply sub_spec]. Qed.

Theorem muleq_rat_is_mul a b : wf a -> wf b -> ext_mul (val a) (val b) <> None -> rat_muleq_rat a b = rat_mul_rat a b.
Proof. intros Ha Hb. apply compound_is_binary; intros e H; [now apply muleq_spec|now apply mul_spec]. Qed.

Theorem diveq_rat_is_div a b : wf a -> wf b -> ext_div (val a) (val b) <> None -> rat_diveq_rat a b = rat_div_rat a b.
Proof. intros Ha Hb. apply compound_is_binary; intros e H; [now apply diveq_spec|now apply div_spec]. Qed.

Theorem addeq_int_is_add a k : wf a -> rat_addeq_int a k = rat_add_int a k.
Proof.
  intros Ha. apply (compound_is_binary (ext_add (val a) (ext_of_Z k))); [intros e H; now apply addeq_int_spec|intros e H; now apply add_int_spec|].
  destruct (val a); cbn; discriminate.
Qed.

Theorem subeq_int_is_sub a k : wf a -> rat_subeq_int a k = rat_sub_int a k.
Proof. intros Ha. unfold rat_subeq_int, rat_sub_int. now apply addeq_int_is_add. Qed.

Theorem muleq_int_is_mul a k : wf a -> ext_mul (val a) (ext_of_Z k) <> None -> rat_muleq_int a k = rat_mul_int a k.
Proof. intros Ha. apply compound_is_binary; intros e H; [now apply muleq_int_spec|now apply mul_int_spec]. Qed.

Theorem diveq_int_is_div a k : wf a -> ext_div (val a) (ext_of_Z k) <> None -> rat_diveq_int a k = rat_div_int a k.
Proof. intros Ha. apply compound_is_binary; intros e H; [now apply diveq_int_spec|now apply div_int_spec]. Qed.

(* non-vacuity: concrete canonical operands exercising the general branches of + and *, and x / -inf = 0 *)
Example add_example : wf (mk_rat 1 6) /\ wf (mk_rat 1 10) /\ rat_add_rat (mk_rat 1 6) (mk_rat 1 10) = mk_rat 4 15 /\
                      rat_mul_rat (mk_rat 3 4) (mk_rat (-2) 9) = mk_rat (-1) 6 /\ rat_div_rat (mk_rat 3 4) (mk_rat (-1) 0) = mk_rat 0 1.
Proof. repeat split; try (left; cbn; split; [lia|reflexivity]). Qed.
