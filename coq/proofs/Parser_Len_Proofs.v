(* Proofs about the parser model (lang/Parser.v): how a parser function behaves in its fuel.
   One invariant, run_ok, relates the result x of a parser function with fuel f to its result x' with fuel S f:
     what x leaves unread is bounded; x is not OutOfFuel when f exceeds 8 * |input| + rank; and then x' = x.
   The rank (0..4) orders the functions that call each other on the same input; a call made after a token was consumed
   may have any rank < 8. The invariant is proved once per parser function, by induction on the fuel along the call
   structure (`*_run`). Its three fields are what the rest uses: `*_len` below (bounds on what is left), `nf_*` in
   Parser_Total_Proofs (totality, C18: nf_p_units, nf_p_expr) and run_mono in the round-trip proofs (C16). *)
From Coq Require Import List Arith Lia.
From ORatio Require Import lang.Token lang.Ast lang.Parser.
Import ListNotations.

Definition len_ok {A} (P : nat -> Prop) (r : res A) : Prop := match r with Ok _ rest => P (List.length rest) | _ => True end.
Notation LT r n := (len_ok (fun m => m < n) r).
Notation LE r n := (len_ok (fun m => m <= n) r).
Notation NF r := (r <> OutOfFuel).

Record run_ok {A} (P : nat -> Prop) (enough : Prop) (x x' : res A) : Prop :=
  { run_len : len_ok P x; run_nf : enough -> NF x; run_mono : NF x -> x' = x }.
Arguments run_len {A P enough x x'}.
Arguments run_nf {A P enough x x'}.
Arguments run_mono {A P enough x x'}.

Lemma run_ok_ret {A} (P : nat -> Prop) (C : Prop) (a : A) r : P (List.length r) -> run_ok P C (Ok a r) (Ok a r).
Proof. intros H. split; [exact H|discriminate|reflexivity]. Qed.
Lemma run_ok_err {A} (P : nat -> Prop) (C : Prop) e : run_ok P C (@Err A e) (Err e).
Proof. split; [exact I|discriminate|reflexivity]. Qed.
Lemma run_ok_out {A} (P : nat -> Prop) (C : Prop) (x' : res A) : ~ C -> run_ok P C OutOfFuel x'.
Proof. intros H. split; [exact I|intros c; destruct (H c)|intros N; destruct (N eq_refl)]. Qed.

Lemma run_ok_bind {A B} (Q P : nat -> Prop) (C : Prop) (x x' : res A) (k k' : A -> list token -> res B) :
  run_ok Q C x x' -> (forall a r, Q (List.length r) -> run_ok P C (k a r) (k' a r)) -> run_ok P C (bind x k) (bind x' k').
Proof.
  intros [L T M] K. destruct x as [a r| |].
  - rewrite M by discriminate. exact (K a r L).
  - rewrite M by discriminate. apply run_ok_err.
  - apply run_ok_out. intros c. exact (T c eq_refl).
Qed.

Lemma run_ok_weaken {A} (Q P : nat -> Prop) (D C : Prop) (x x' : res A) :
  run_ok Q D x x' -> (forall m, Q m -> P m) -> (C -> D) -> run_ok P C x x'.
Proof. intros [L T M] HP HC. split; [destruct x; cbn in *; auto|auto|exact M]. Qed.
Lemma run_ok_fuel {A} (Q : nat -> Prop) (D C : Prop) (x x' : res A) : run_ok Q D x x' -> (C -> D) -> run_ok Q C x x'.
Proof. intros H. apply (run_ok_weaken Q Q D C x x' H). auto. Qed.

(* `, item` continues a list, anything else ends it: the ending is the same for all other tokens *)
Lemma run_ok_comma {A} (P : nat -> Prop) (C : Prop) (a a' : list token -> res A) (b b' : res A) r1 :
  (forall r2, r1 = TComma :: r2 -> run_ok P C (a r2) (a' r2)) -> run_ok P C b b' ->
  run_ok P C (match r1 with TComma :: r2 => a r2 | _ => b end) (match r1 with TComma :: r2 => a' r2 | _ => b' end).
Proof. intros Ha Hb. destruct r1 as [|[] r2]; try exact Hb. exact (Ha r2 eq_refl). Qed.

(* one step on a goal `run_ok P C <parser code with fuel f> <the same code with fuel S f>`, directed by the code: a call is
   discharged by the invariant of the called function (an induction hypothesis or a lemma of the base pinv), the side
   conditions on lengths and fuel by lia *)
Create HintDb pinv.
Ltac plia := cbn [List.length] in *; lia.
Ltac pstep :=
  lazymatch goal with
  | |- run_ok _ _ (bind _ _) _ =>
      eapply run_ok_bind; [eapply run_ok_fuel; [solve [eauto with pinv] | plia] | let H := fresh "L" in intros ? ? H; cbn beta in H]
  | |- run_ok _ _ (Ok _ _) _ => apply run_ok_ret; cbn beta; plia
  | |- run_ok _ _ (Err _) _ => apply run_ok_err
  | |- run_ok _ _ (if ?b then _ else _) _ => destruct b
  | |- run_ok _ _ (let (_, _) := ?p in _) _ => destruct p
  | |- run_ok _ _ (match ?x with _ => _ end) _ => first [apply run_ok_comma; [intros ? ->|] | destruct x]
  | |- run_ok _ _ _ _ => eapply run_ok_weaken; [solve [eauto with pinv] | cbn beta; intros; plia | plia]
  end.

(* unfold the recursive parser functions of the goal once, those with fuel S f and those with fuel S (S f); the inner S f is
   hidden in a variable meanwhile, otherwise the latter would be unfolded twice (and Qed would compare the unfoldings) *)
Lemma fuel_SS (P : nat -> Prop) f : (forall g, g = S f -> P (S g)) -> P (S (S f)).
Proof. intros H. exact (H (S f) eq_refl). Qed.
Ltac one_level f tac :=
  let g := fresh "g" in let Hg := fresh "Hg" in pattern (S (S f)); apply fuel_SS; intros g Hg; cbv beta; tac; subst g.

Lemma expect_semicolon_run {A} (a : A) ts : run_ok (fun m => m < List.length ts) True (expect_semicolon a ts) (expect_semicolon a ts).
Proof. destruct ts as [|[] r]; first [apply run_ok_err | apply run_ok_ret, Nat.lt_succ_diag_r]. Qed.
Lemma expect_rparen_run {A} (a : A) ts : run_ok (fun m => m < List.length ts) True (expect_rparen a ts) (expect_rparen a ts).
Proof. destruct ts as [|[] r]; first [apply run_ok_err | apply run_ok_ret, Nat.lt_succ_diag_r]. Qed.
Lemma expect_rbracket_run {A} (a : A) ts : run_ok (fun m => m < List.length ts) True (expect_rbracket a ts) (expect_rbracket a ts).
Proof. destruct ts as [|[] r]; first [apply run_ok_err | apply run_ok_ret, Nat.lt_succ_diag_r]. Qed.
Lemma expect_lparen_run ts : run_ok (fun m => m < List.length ts) True (expect_lparen ts) (expect_lparen ts).
Proof. destruct ts as [|[] r]; first [apply run_ok_err | apply run_ok_ret, Nat.lt_succ_diag_r]. Qed.
Lemma expect_lbrace_run ts : run_ok (fun m => m < List.length ts) True (expect_lbrace ts) (expect_lbrace ts).
Proof. destruct ts as [|[] r]; first [apply run_ok_err | apply run_ok_ret, Nat.lt_succ_diag_r]. Qed.
Lemma expect_id_run ts : run_ok (fun m => m < List.length ts) True (expect_id ts) (expect_id ts).
Proof. destruct ts as [|[] r]; first [apply run_ok_err | apply run_ok_ret, Nat.lt_succ_diag_r]. Qed.
#[export] Hint Resolve expect_semicolon_run expect_rparen_run expect_rbracket_run expect_lparen_run expect_lbrace_run expect_id_run : pinv.

Lemma expect_semicolon_len {A} (a : A) ts : LT (expect_semicolon a ts) (List.length ts).
Proof. apply (run_len (expect_semicolon_run a ts)). Qed.
Lemma expect_rparen_len {A} (a : A) ts : LT (expect_rparen a ts) (List.length ts).
Proof. apply (run_len (expect_rparen_run a ts)). Qed.
Lemma expect_rbracket_len {A} (a : A) ts : LT (expect_rbracket a ts) (List.length ts).
Proof. apply (run_len (expect_rbracket_run a ts)). Qed.
Lemma expect_lparen_len ts : LT (expect_lparen ts) (List.length ts).
Proof. apply (run_len (expect_lparen_run ts)). Qed.
Lemma expect_lbrace_len ts : LT (expect_lbrace ts) (List.length ts).
Proof. apply (run_len (expect_lbrace_run ts)). Qed.
Lemma expect_id_len ts : LT (expect_id ts) (List.length ts).
Proof. apply (run_len (expect_id_run ts)). Qed.

(* p_dots and p_strs recurse on the list two tokens further *)
Lemma list_pair_ind {A} (P : list A -> Prop) :
  P [] -> (forall a, P [a]) -> (forall a b l, P l -> P (a :: b :: l)) -> forall l, P l.
Proof. intros H0 H1 H2. fix IH 1. intros [|a [|b l]]; [exact H0|apply H1|apply H2, IH]. Qed.

Lemma p_dots_run ts : run_ok (fun m => m <= List.length ts) True (p_dots ts) (p_dots ts).
Proof.
  induction ts as [|t|t t' r IH] using list_pair_ind.
  - apply run_ok_ret, le_n.
  - destruct t; first [apply run_ok_err | apply run_ok_ret, le_n].
  - pose proof (run_ok_ret (fun m => m <= List.length (t :: t' :: r)) True (@nil ident) (t :: t' :: r) (le_n _)) as D.
    destruct t; try exact D. destruct t'; try apply run_ok_err. cbn [p_dots]. repeat pstep.
Qed.
#[export] Hint Resolve p_dots_run : pinv.
Lemma p_qid_run ts : run_ok (fun m => m < List.length ts) True (p_qid ts) (p_qid ts).
Proof. unfold p_qid. repeat pstep. Qed.
#[export] Hint Resolve p_qid_run : pinv.
Lemma p_type_run ts : run_ok (fun m => m < List.length ts) True (p_type ts) (p_type ts).
Proof. unfold p_type. repeat pstep. Qed.
#[export] Hint Resolve p_type_run : pinv.
Lemma p_type_len ts : LT (p_type ts) (List.length ts).
Proof. apply (run_len (p_type_run ts)). Qed.

Lemma nary_is_nop t o lv rp : nary_of t = Some (o, lv, rp) -> is_nop o t = true.
Proof. destruct t; cbn; intros H; inversion H; reflexivity. Qed.

(* does the input begin with the operator o? then p_collect reads at least that token *)
Definition opens (o : nop) (ts : list token) : bool := match ts with t :: _ => is_nop o t | [] => false end.

Record expr_runs (f : nat) : Prop := {
  run_expr : forall d pr ts, run_ok (fun m => m < List.length ts) (8 * List.length ts + 1 < f) (p_expr f d pr ts) (p_expr (S f) d pr ts);
  run_primary : forall d ts, run_ok (fun m => m < List.length ts) (8 * List.length ts + 0 < f) (p_primary f d ts) (p_primary (S f) d ts);
  run_loop : forall d c pr e ts,
    run_ok (fun m => m <= List.length ts) (8 * List.length ts + 1 < f) (p_loop f d c pr e ts) (p_loop (S f) d c pr e ts);
  run_collect : forall d o rp ts,
    run_ok (fun m => m <= List.length ts /\ (opens o ts = true -> m < List.length ts)) (8 * List.length ts + 0 < f)
      (p_collect f d o rp ts) (p_collect (S f) d o rp ts);
  run_args : forall d ts, run_ok (fun m => m < List.length ts) (8 * List.length ts + 3 < f) (p_args f d ts) (p_args (S f) d ts);
  run_args1 : forall d ts, run_ok (fun m => m < List.length ts) (8 * List.length ts + 2 < f) (p_args1 f d ts) (p_args1 (S f) d ts)
}.

Lemma expr_run f : expr_runs f.
Proof.
  induction f as [|f [IHe IHp IHl IHc IHa IHa1]]; [split; intros; apply run_ok_out; lia|].
  split; intros.
  - one_level f ltac:(cbn [p_expr]). destruct d; [apply run_ok_err|]. repeat pstep.
  - one_level f ltac:(cbn [p_primary]). destruct ts as [|t r]; [apply run_ok_err|]. destruct t.
    42: { (* `ID (. ID)*` not followed by '(' is an identifier expression, whatever follows *)
      pstep. match goal with |- run_ok ?P ?C (match ?r1 with _ => _ end) _ =>
        assert (B : forall q, run_ok P C (Ok (EId q) r1) (Ok (EId q) r1)) by (intros; pstep); destruct r1 as [|[] ?] end;
        try apply B; repeat pstep. }
    all: repeat pstep.
  - one_level f ltac:(cbn [p_loop]). destruct ts as [|t r]; [repeat pstep|].
    destruct (bin_of t) as [[[o lv] rp]|]; [repeat pstep|].
    destruct (nary_of t) as [[[o lv] rp]|] eqn:En; [|repeat pstep].
    destruct (pr <=? lv); [|repeat pstep]. destruct c; [apply run_ok_err|].
    (* the rest is strictly shorter, since p_collect reads the operator t *)
    eapply run_ok_bind; [eapply run_ok_fuel; [apply IHc|plia]|]. intros xs r1 [_ L]. specialize (L (nary_is_nop _ _ _ _ En)).
    repeat pstep.
  - one_level f ltac:(cbn [p_collect]). destruct ts as [|t r]; [apply run_ok_ret; split; [apply le_n|discriminate]|].
    cbn [opens]. destruct (is_nop o t); [repeat pstep|apply run_ok_ret; split; [apply le_n|discriminate]].
  - one_level f ltac:(cbn [p_args]).
    assert (D : run_ok (fun m => m < List.length ts) (8 * List.length ts + 3 < S f) (p_args1 f d ts) (p_args1 (S f) d ts)) by pstep.
    destruct ts as [|[] r]; try exact D. pstep.
  - one_level f ltac:(cbn [p_args1]). repeat pstep.
Qed.

Definition p_expr_run f := run_expr f (expr_run f).
Definition p_args_run f := run_args f (expr_run f).
#[export] Hint Resolve p_expr_run p_args_run : pinv.

Lemma p_expr_len f d pr ts : LT (p_expr f d pr ts) (List.length ts).  Proof. apply (run_len (p_expr_run f d pr ts)). Qed.
Lemma p_primary_len f d ts : LT (p_primary f d ts) (List.length ts).  Proof. apply (run_len (run_primary f (expr_run f) d ts)). Qed.
Lemma p_loop_len f d c pr e ts : LE (p_loop f d c pr e ts) (List.length ts).  Proof. apply (run_len (run_loop f (expr_run f) d c pr e ts)). Qed.
Lemma p_collect_len f d o rp ts : LE (p_collect f d o rp ts) (List.length ts).
Proof. destruct (run_collect f (expr_run f) d o rp ts) as [L _ _]. destruct (p_collect f d o rp ts); [apply L|exact I|exact I]. Qed.
Lemma p_args_len f d ts : LT (p_args f d ts) (List.length ts).  Proof. apply (run_len (p_args_run f d ts)). Qed.
Lemma p_args1_len f d ts : LT (p_args1 f d ts) (List.length ts).  Proof. apply (run_len (run_args1 f (expr_run f) d ts)). Qed.

Lemma p_init_run f d ts : run_ok (fun m => m <= List.length ts) (8 * List.length ts + 0 < f) (p_init f d ts) (p_init (S f) d ts).
Proof.
  pose proof (run_ok_ret (fun m => m <= List.length ts) (8 * List.length ts + 0 < f) (@None expr) ts (le_n _)) as D.
  unfold p_init. destruct ts as [|[] r]; try exact D. repeat pstep.
Qed.
#[export] Hint Resolve p_init_run : pinv.
Lemma p_vars_run f : forall d ts, run_ok (fun m => m < List.length ts) (8 * List.length ts + 0 < f) (p_vars f d ts) (p_vars (S f) d ts).
Proof. induction f as [|f IH]; intros; [apply run_ok_out; lia|]. one_level f ltac:(cbn [p_vars]). repeat pstep. Qed.
Lemma p_cost_run f d ts : run_ok (fun m => m <= List.length ts) (8 * List.length ts + 0 < f) (p_cost f d ts) (p_cost (S f) d ts).
Proof.
  pose proof (run_ok_ret (fun m => m <= List.length ts) (8 * List.length ts + 0 < f) (@None expr) ts (le_n _)) as D.
  unfold p_cost. destruct ts as [|[] r]; try exact D. repeat pstep.
Qed.
Lemma p_fargs1_run f : forall d ts, run_ok (fun m => m < List.length ts) (8 * List.length ts + 0 < f) (p_fargs1 f d ts) (p_fargs1 (S f) d ts).
Proof.
  induction f as [|f IH]; intros; [apply run_ok_out; lia|]. one_level f ltac:(cbn [p_fargs1]). repeat pstep.
Qed.
#[export] Hint Resolve p_vars_run p_cost_run p_fargs1_run : pinv.
Lemma p_fargs_run f d ts : run_ok (fun m => m < List.length ts) (8 * List.length ts + 0 < f) (p_fargs f d ts) (p_fargs (S f) d ts).
Proof. unfold p_fargs. pose proof (p_fargs1_run f d ts) as D. destruct ts as [|[] r]; try exact D. pstep. Qed.
#[export] Hint Resolve p_fargs_run : pinv.

(* an expression statement: what p_stmt does when the input begins like an expression *)
Definition p_expr_stmt (f d : nat) (ts : list token) : res stmt := do (e, r) <- p_expr f d 0 ts; expect_semicolon (SExpr e) r.
Lemma p_expr_stmt_run f d ts :
  run_ok (fun m => m < List.length ts) (8 * List.length ts + 1 < f) (p_expr_stmt f d ts) (p_expr_stmt (S f) d ts).
Proof. unfold p_expr_stmt. repeat pstep. Qed.
#[export] Hint Resolve p_expr_stmt_run : pinv.

(* the tokens with a case of their own in p_stmt *)
Definition stmt_kw (t : token) : bool := match t with TId _ | TLBrace | TFact | TGoal | TReturn => true | _ => false end.
Lemma p_stmt_other f d t r : stmt_kw t = false ->
  p_stmt (S f) (S d) (t :: r) =
  match prim_name t with
  | Some n => do (vs, r1) <- p_vars f d r; expect_semicolon (SLocal [n] vs) r1
  | None => p_expr_stmt f d (t :: r)
  end.
Proof. destruct t; (discriminate || reflexivity). Qed.

Definition is_rbrace (ts : list token) : bool := match ts with TRBrace :: _ => true | _ => false end.
Lemma block_eq f d ts : is_rbrace ts = false ->
  p_block (S f) d ts = do (s, r1) <- p_stmt f d ts; do (ss, r2) <- p_block f d r1; Ok (s :: ss) r2.
Proof. intros H. destruct ts as [|[] r]; try discriminate H; cbn [p_block]; reflexivity. Qed.

Record stmt_runs (f : nat) : Prop := {
  run_stmt : forall d ts, run_ok (fun m => m < List.length ts) (8 * List.length ts + 2 < f) (p_stmt f d ts) (p_stmt (S f) d ts);
  run_block : forall d ts, run_ok (fun m => m < List.length ts) (8 * List.length ts + 3 < f) (p_block f d ts) (p_block (S f) d ts);
  run_disjuncts : forall d ts,
    run_ok (fun m => m <= List.length ts) (8 * List.length ts + 0 < f) (p_disjuncts f d ts) (p_disjuncts (S f) d ts)
}.
Lemma stmt_run f : stmt_runs f.
Proof.
  induction f as [|f [IHs IHb IHd]]; [split; intros; apply run_ok_out; lia|].
  split; intros.
  - destruct d; [apply run_ok_err|]. destruct ts as [|t r]; [apply run_ok_err|]. destruct (stmt_kw t) eqn:K.
    + (* after `ID (. ID)*` most tokens lead to an expression statement or to an error *)
      assert (D : run_ok (fun m => m < List.length (t :: r)) (8 * List.length (t :: r) + 2 < S f)
                    (p_expr_stmt f d (t :: r)) (p_expr_stmt (S f) d (t :: r))) by pstep.
      destruct t; try discriminate K; one_level f ltac:(cbn [p_stmt]); [repeat pstep..| |].
      * (* `{ block }` followed by anything but `[` and `or` is a block statement *)
        pstep. match goal with |- run_ok ?P ?C (match ?r1 with _ => _ end) _ =>
          assert (B : forall ss, run_ok P C (Ok (SBlock ss) r1) (Ok (SBlock ss) r1)) by (intros; pstep); destruct r1 as [|[] ?] end;
          try apply B; repeat pstep.
      * eapply run_ok_bind; [eapply run_ok_fuel; [apply p_dots_run|auto]|intros xs r1 L].
        destruct r1 as [|t1 r1]; [apply run_ok_err|]. destruct t1; cbn [expr_follow]; first [exact D | apply run_ok_err | repeat pstep].
    + rewrite !(p_stmt_other _ _ _ _ K). repeat pstep.
  - destruct (is_rbrace ts) eqn:E.
    + destruct ts as [|[] r]; try discriminate E. apply run_ok_ret, Nat.lt_succ_diag_r.
    + rewrite !block_eq by exact E. repeat pstep.
  - one_level f ltac:(cbn [p_disjuncts]).
    pose proof (run_ok_ret (fun m => m <= List.length ts) (8 * List.length ts + 0 < S f) (@nil (list stmt * option expr)) ts (le_n _)) as D.
    destruct ts as [|[] r]; try exact D. clear D. destruct r as [|[] r]; try apply run_ok_err. repeat pstep.
Qed.
Definition p_stmt_run f := run_stmt f (stmt_run f).
Definition p_block_run f := run_block f (stmt_run f).
#[export] Hint Resolve p_stmt_run p_block_run : pinv.

Lemma p_stmt_len f d ts : LT (p_stmt f d ts) (List.length ts).  Proof. apply (run_len (p_stmt_run f d ts)). Qed.
Lemma p_block_len f d ts : LT (p_block f d ts) (List.length ts).  Proof. apply (run_len (p_block_run f d ts)). Qed.
Lemma p_disjuncts_len f d ts : LE (p_disjuncts f d ts) (List.length ts).  Proof. apply (run_len (run_disjuncts f (stmt_run f) d ts)). Qed.
Lemma p_init_len f d ts : LE (p_init f d ts) (List.length ts).
Proof. apply (run_len (p_init_run f d ts)). Qed.
Lemma p_vars_len f : forall d ts, LT (p_vars f d ts) (List.length ts).
Proof. intros. apply (run_len (p_vars_run f d ts)). Qed.
Lemma p_cost_len f d ts : LE (p_cost f d ts) (List.length ts).
Proof. apply (run_len (p_cost_run f d ts)). Qed.
Lemma p_fargs1_len f : forall d ts, LT (p_fargs1 f d ts) (List.length ts).
Proof. intros. apply (run_len (p_fargs1_run f d ts)). Qed.
Lemma p_fargs_len f d ts : LT (p_fargs f d ts) (List.length ts).
Proof. apply (run_len (p_fargs_run f d ts)). Qed.

Lemma p_params1_run f : forall ts, run_ok (fun m => m < List.length ts) (8 * List.length ts + 0 < f) (p_params1 f ts) (p_params1 (S f) ts).
Proof. induction f as [|f IH]; intros; [apply run_ok_out; lia|]. one_level f ltac:(cbn [p_params1]). repeat pstep. Qed.
#[export] Hint Resolve p_params1_run : pinv.
Lemma p_params_run f ts : run_ok (fun m => m < List.length ts) (8 * List.length ts + 0 < f) (p_params f ts) (p_params (S f) ts).
Proof. unfold p_params. pose proof (p_params1_run f ts) as D. destruct ts as [|[] r]; try exact D. pstep. Qed.
Lemma p_rtype_run ts : run_ok (fun m => m < List.length ts) True (p_rtype ts) (p_rtype ts).
Proof. unfold p_rtype. pose proof (p_type_run ts) as D. destruct ts as [|[] r]; try exact D. pstep. Qed.
#[export] Hint Resolve p_params_run p_rtype_run : pinv.
Lemma p_method_run f d ts : run_ok (fun m => m < List.length ts) (8 * List.length ts + 0 < f) (p_method f d ts) (p_method (S f) d ts).
Proof. unfold p_method. repeat pstep. Qed.
Lemma p_inits_run f : forall d ts, run_ok (fun m => m < List.length ts) (8 * List.length ts + 0 < f) (p_inits f d ts) (p_inits (S f) d ts).
Proof. induction f as [|f IH]; intros; [apply run_ok_out; lia|]. one_level f ltac:(cbn [p_inits]). repeat pstep. Qed.
#[export] Hint Resolve p_method_run p_inits_run : pinv.
Lemma opt_inits_run f d r :
  run_ok (fun m => m <= List.length r) (8 * List.length r + 0 < f)
    (match r with TColon :: r' => p_inits f d r' | _ => Ok [] r end) (match r with TColon :: r' => p_inits (S f) d r' | _ => Ok [] r end).
Proof.
  pose proof (run_ok_ret (fun m => m <= List.length r) (8 * List.length r + 0 < f) (@nil (ident * list expr)) r (le_n _)) as D.
  destruct r as [|[] r']; try exact D. pstep.
Qed.
#[export] Hint Resolve opt_inits_run : pinv.
Lemma p_ctor_run f d ts : run_ok (fun m => m < List.length ts) (8 * List.length ts + 0 < f) (p_ctor f d ts) (p_ctor (S f) d ts).
Proof. unfold p_ctor. repeat pstep. Qed.
Lemma p_qids_run f : forall ts, run_ok (fun m => m < List.length ts) (8 * List.length ts + 0 < f) (p_qids f ts) (p_qids (S f) ts).
Proof. induction f as [|f IH]; intros; [apply run_ok_out; lia|]. one_level f ltac:(cbn [p_qids]). repeat pstep. Qed.
#[export] Hint Resolve p_ctor_run p_qids_run : pinv.
Lemma opt_qids_run f r :
  run_ok (fun m => m <= List.length r) (8 * List.length r + 0 < f)
    (match r with TColon :: r' => p_qids f r' | _ => Ok [] r end) (match r with TColon :: r' => p_qids (S f) r' | _ => Ok [] r end).
Proof.
  pose proof (run_ok_ret (fun m => m <= List.length r) (8 * List.length r + 0 < f) (@nil qid) r (le_n _)) as D.
  destruct r as [|[] r']; try exact D. pstep.
Qed.
#[export] Hint Resolve opt_qids_run : pinv.
Lemma p_pred_run f d ts : run_ok (fun m => m < List.length ts) (8 * List.length ts + 0 < f) (p_pred f d ts) (p_pred (S f) d ts).
Proof. unfold p_pred. repeat pstep. Qed.
Lemma p_typedef_run f d ts : run_ok (fun m => m < List.length ts) (8 * List.length ts + 0 < f) (p_typedef f d ts) (p_typedef (S f) d ts).
Proof. unfold p_typedef. repeat pstep. Qed.
Lemma p_strs_run ts : run_ok (fun m => m < List.length ts) True (p_strs ts) (p_strs ts).
Proof.
  induction ts as [|t|t t' r IH] using list_pair_ind; try apply run_ok_err.
  - destruct t; apply run_ok_err.
  - destruct t; try apply run_ok_err. destruct t'; try apply run_ok_err; cbn [p_strs]; repeat pstep.
Qed.
#[export] Hint Resolve p_pred_run p_typedef_run p_strs_run : pinv.
Lemma enum_alt_run ts :
  run_ok (fun m => m < List.length ts) True
    (match ts with
     | TLBrace :: r0 => do (ss, r1) <- p_strs r0; Ok (ss, @nil qid) r1
     | TId _ :: _ => do (q, r1) <- p_qid ts; Ok (@nil str, [q]) r1
     | _ => Err ESyntax
     end)
    (match ts with
     | TLBrace :: r0 => do (ss, r1) <- p_strs r0; Ok (ss, @nil qid) r1
     | TId _ :: _ => do (q, r1) <- p_qid ts; Ok (@nil str, [q]) r1
     | _ => Err ESyntax
     end).
Proof. repeat pstep. Qed.
#[export] Hint Resolve enum_alt_run : pinv.
Lemma p_enum_alts_run f : forall ts, run_ok (fun m => m < List.length ts) (8 * List.length ts + 0 < f) (p_enum_alts f ts) (p_enum_alts (S f) ts).
Proof. induction f as [|f IH]; intros; [apply run_ok_out; lia|]. one_level f ltac:(cbn [p_enum_alts]). repeat pstep. Qed.
#[export] Hint Resolve p_enum_alts_run : pinv.
Lemma p_enum_run f ts : run_ok (fun m => m < List.length ts) (8 * List.length ts + 0 < f) (p_enum f ts) (p_enum (S f) ts).
Proof. unfold p_enum. repeat pstep. Qed.
Lemma p_field_run f d ts : run_ok (fun m => m < List.length ts) (8 * List.length ts + 0 < f) (p_field f d ts) (p_field (S f) d ts).
Proof. unfold p_field. repeat pstep. Qed.
#[export] Hint Resolve p_enum_run p_field_run : pinv.

(* the loop body of p_members when the next token is not '}' *)
Definition members_body (f d : nat) (ts : list token) : res members :=
  match member_kind_of ts with
  | MTypedef => do (t, r) <- p_typedef f d ts; do (m, r1) <- p_members f d r;
                Ok (Members (mb_fs m) (mb_cs m) (mb_ms m) (mb_ps m) (t :: mb_ts m)) r1
  | MEnum => do (t, r) <- p_enum f ts; do (m, r1) <- p_members f d r;
             Ok (Members (mb_fs m) (mb_cs m) (mb_ms m) (mb_ps m) (t :: mb_ts m)) r1
  | MClass => do (t, r) <- p_class f d ts; do (m, r1) <- p_members f d r;
              Ok (Members (mb_fs m) (mb_cs m) (mb_ms m) (mb_ps m) (t :: mb_ts m)) r1
  | MPred => do (p, r) <- p_pred f d ts; do (m, r1) <- p_members f d r;
             Ok (Members (mb_fs m) (mb_cs m) (mb_ms m) (p :: mb_ps m) (mb_ts m)) r1
  | MMethod => do (x, r) <- p_method f d ts; do (m, r1) <- p_members f d r;
               Ok (Members (mb_fs m) (mb_cs m) (x :: mb_ms m) (mb_ps m) (mb_ts m)) r1
  | MField => do (x, r) <- p_field f d ts; do (m, r1) <- p_members f d r;
              Ok (Members (x :: mb_fs m) (mb_cs m) (mb_ms m) (mb_ps m) (mb_ts m)) r1
  | MCtor => do (x, r) <- p_ctor f d ts; do (m, r1) <- p_members f d r;
             Ok (Members (mb_fs m) (x :: mb_cs m) (mb_ms m) (mb_ps m) (mb_ts m)) r1
  | MBad => Err ESyntax
  end.
(* the first token is distinguished before unfolding: a token that can begin no member makes both sides Err ESyntax by
   computation alone, so the recursive calls are compared only for the few tokens that can *)
Lemma members_eq f d ts : is_rbrace ts = false -> p_members (S f) d ts = members_body f d ts.
Proof. intros H. destruct ts as [|[] r]; try reflexivity. discriminate H. Qed.

Record class_runs (f : nat) : Prop := {
  run_class : forall d ts, run_ok (fun m => m < List.length ts) (8 * List.length ts + 0 < f) (p_class f d ts) (p_class (S f) d ts);
  run_members : forall d ts, run_ok (fun m => m < List.length ts) (8 * List.length ts + 4 < f) (p_members f d ts) (p_members (S f) d ts)
}.
Lemma class_run f : class_runs f.
Proof.
  induction f as [|f [IHc IHm]]; [split; intros; apply run_ok_out; lia|].
  split; intros.
  - one_level f ltac:(cbn [p_class]). repeat pstep.
  - destruct (is_rbrace ts) eqn:E.
    + destruct ts as [|[] r]; try discriminate E. exact (run_ok_ret _ _ no_members r (Nat.lt_succ_diag_r _)).
    + rewrite !members_eq by exact E. unfold members_body. destruct (member_kind_of ts); repeat pstep.
Qed.
Definition p_class_run f := run_class f (class_run f).
#[export] Hint Resolve p_class_run : pinv.

(* unit_kind_of returns its input or fails *)
Lemma unit_kind_run ts : run_ok (fun m => m <= List.length ts) True (unit_kind_of ts) (unit_kind_of ts).
Proof.
  assert (K : forall k : unit_kind, run_ok (fun m => m <= List.length ts) True (Ok k ts) (Ok k ts)) by (intros; apply run_ok_ret, le_n).
  assert (K2 : forall (r : list token) (a b : res unit_kind), run_ok (fun m => m <= List.length ts) True a a -> run_ok (fun m => m <= List.length ts) True b b ->
                 run_ok (fun m => m <= List.length ts) True (match r with TId _ :: TLParen :: _ => a | _ => b end)
                                                            (match r with TId _ :: TLParen :: _ => a | _ => b end)).
  { intros r a b Ha Hb. destruct r as [|t r]; [exact Hb|]. destruct t; try exact Hb. destruct r as [|t r]; [exact Hb|]. destruct t; assumption. }
  destruct ts as [|t r]; [apply K|]. destruct t; cbn [unit_kind_of prim_name]; try apply K; try (apply K2; apply K).
  eapply run_ok_bind; [apply p_dots_run|]. intros _ r1 _. apply K2; apply K.
Qed.
#[export] Hint Resolve unit_kind_run : pinv.

Lemma p_units_run f : forall ts, run_ok (fun m => m <= List.length ts) (8 * List.length ts + 4 < f) (p_units f ts) (p_units (S f) ts).
Proof.
  induction f as [|f IH]; intros; [apply run_ok_out; lia|]. one_level f ltac:(cbn [p_units]). destruct ts as [|t r]; [pstep|].
  eapply run_ok_bind; [eapply run_ok_fuel; [apply unit_kind_run|auto]|]. intros k r0 _. destruct k; repeat pstep.
Qed.

Lemma p_params1_len f : forall ts, LT (p_params1 f ts) (List.length ts).
Proof. intros. apply (run_len (p_params1_run f ts)). Qed.
Lemma p_params_len f ts : LT (p_params f ts) (List.length ts).
Proof. apply (run_len (p_params_run f ts)). Qed.
Lemma p_rtype_len ts : LT (p_rtype ts) (List.length ts).
Proof. apply (run_len (p_rtype_run ts)). Qed.
Lemma p_method_len f d ts : LT (p_method f d ts) (List.length ts).
Proof. apply (run_len (p_method_run f d ts)). Qed.
Lemma p_inits_len f : forall d ts, LT (p_inits f d ts) (List.length ts).
Proof. intros. apply (run_len (p_inits_run f d ts)). Qed.
Lemma opt_inits_len f d r : LE (match r with TColon :: r' => p_inits f d r' | _ => Ok [] r end) (List.length r).
Proof. apply (run_len (opt_inits_run f d r)). Qed.
Lemma p_ctor_len f d ts : LT (p_ctor f d ts) (List.length ts).
Proof. apply (run_len (p_ctor_run f d ts)). Qed.
Lemma p_qids_len f : forall ts, LT (p_qids f ts) (List.length ts).
Proof. intros. apply (run_len (p_qids_run f ts)). Qed.
Lemma opt_qids_len f r : LE (match r with TColon :: r' => p_qids f r' | _ => Ok [] r end) (List.length r).
Proof. apply (run_len (opt_qids_run f r)). Qed.
Lemma p_pred_len f d ts : LT (p_pred f d ts) (List.length ts).
Proof. apply (run_len (p_pred_run f d ts)). Qed.
Lemma p_typedef_len f d ts : LT (p_typedef f d ts) (List.length ts).
Proof. apply (run_len (p_typedef_run f d ts)). Qed.
Lemma p_strs_len ts : LT (p_strs ts) (List.length ts).
Proof. apply (run_len (p_strs_run ts)). Qed.
Lemma enum_alt_len ts :
  LT (match ts with
      | TLBrace :: r0 => do (ss, r1) <- p_strs r0; Ok (ss, @nil qid) r1
      | TId _ :: _ => do (q, r1) <- p_qid ts; Ok (@nil str, [q]) r1
      | _ => Err ESyntax
      end) (List.length ts).
Proof. apply (run_len (enum_alt_run ts)). Qed.
Lemma p_enum_alts_len f : forall ts, LT (p_enum_alts f ts) (List.length ts).
Proof. intros. apply (run_len (p_enum_alts_run f ts)). Qed.
Lemma p_enum_len f ts : LT (p_enum f ts) (List.length ts).
Proof. apply (run_len (p_enum_run f ts)). Qed.
Lemma p_field_len f d ts : LT (p_field f d ts) (List.length ts).
Proof. apply (run_len (p_field_run f d ts)). Qed.
Lemma p_class_len f d ts : LT (p_class f d ts) (List.length ts).  Proof. apply (run_len (p_class_run f d ts)). Qed.
Lemma p_members_len f d ts : LT (p_members f d ts) (List.length ts).  Proof. apply (run_len (run_members f (class_run f) d ts)). Qed.
Lemma p_units_len f : forall ts, LE (p_units f ts) (List.length ts).
Proof. intros. apply (run_len (p_units_run f ts)). Qed.
