(* The rational instance: Qc x Qc ordered lexicographically (rational part, infinitesimal part) as an ordered group and
   rdl_dom as a distance domain (`domspec`).
   A matrix entry is either finite (rational part EFin q, value (q, inf)) or +infinity (rational part EPInf); -infinity
   never appears.  Infinitesimal parts are integers (bounds are k or -k - epsilon, entries are sums of bounds), which is
   what makes the strengthened reverse bound  -d - epsilon  the exact predecessor of -d among the values that occur.
   Without the guard (`rdl_dom false`, the pinned tree) an infinite entry may carry a non-zero infinitesimal part and the
   comparison of two infinite entries may succeed: junk := (guard = false). *)
From Coq Require Import List ZArith Bool Lia QArith Qcanon Lqa.
From ORatio Require Import smt.DlDom proofs.DlOrd_Proofs proofs.DlGraph_Proofs proofs.DlSpec_Proofs.
Import ListNotations.
Local Open Scope Qc_scope.

(* canonical rationals: from Qc to Q, where lra works *)
Lemma Qc_eq_iff (a b : Qc) : a = b <-> (this a == this b)%Q.
Proof. split; [intros ->; reflexivity | apply Qc_is_canon]. Qed.

Lemma pair_eq_iff (A B : Type) (a c : A) (b d : B) : (a, b) = (c, d) <-> a = c /\ b = d.
Proof. split; [intro H; inversion H; auto | intros [-> ->]; reflexivity]. Qed.

(* turns every Qc atom (=, <, <=) of the goal and of the hypotheses into its Q counterpart and calls lra *)
Ltac qc_lra :=
  rewrite ?pair_eq_iff in *;
  rewrite ?Qc_eq_iff in *;
  unfold Qclt, Qcle, qc0, qc1, qcm1, qc_of_Z, Qcminus, Qcplus, Qcopp, Q2Qc, inject_Z in *; cbn [this] in *;
  rewrite ?Qred_correct in *;
  lra.

Lemma qc_ltb_iff a b : qc_ltb a b = true <-> a < b.
Proof.
  unfold qc_ltb, Qclt. rewrite negb_true_iff, <- not_true_iff_false, Qle_bool_iff.
  split; [apply Qnot_le_lt | apply Qlt_not_le].
Qed.
Lemma qc_leb_iff a b : qc_leb a b = true <-> a <= b.
Proof. unfold qc_leb, Qcle. apply Qle_bool_iff. Qed.
Lemma qc_eqb_iff a b : qc_eqb a b = true <-> a = b.
Proof. unfold qc_eqb. rewrite Qeq_bool_iff. symmetry. apply Qc_eq_iff. Qed.

Lemma Qc_tri (a b : Qc) : a < b \/ a = b \/ b < a.
Proof.
  destruct (Qclt_le_dec a b) as [H | H]; [left; exact H |].
  destruct (Qcle_lt_or_eq _ _ H) as [H2 | H2]; [right; right; exact H2 | right; left; symmetry; exact H2].
Qed.

Lemma qc_of_Z_this z : this (qc_of_Z z) = inject_Z z.
Proof.
  unfold qc_of_Z, Q2Qc; cbn [this]. apply Qred_identity. unfold inject_Z; cbn [Qnum Qden]. apply Z.gcd_1_r.
Qed.

Lemma qc_is_int_of_Z z : qc_is_int (qc_of_Z z) = true.
Proof. unfold qc_is_int. rewrite qc_of_Z_this. reflexivity. Qed.

Lemma qc_is_int_iff a : qc_is_int a = true <-> exists z, a = qc_of_Z z.
Proof.
  split.
  - unfold qc_is_int. intro H. apply Pos.eqb_eq in H. exists (Qnum (this a)).
    apply Qc_is_canon. rewrite qc_of_Z_this. destruct a as [[n d] Hc]. cbn [this Qnum Qden] in *. subst d. reflexivity.
  - intros [z ->]. apply qc_is_int_of_Z.
Qed.

Lemma qc_of_Z_add x y : qc_of_Z x + qc_of_Z y = qc_of_Z (x + y).
Proof.
  apply Qc_is_canon. rewrite qc_of_Z_this. unfold Qcplus, Q2Qc; cbn [this]. rewrite Qred_correct, !qc_of_Z_this.
  rewrite inject_Z_plus. reflexivity.
Qed.
Lemma qc_of_Z_opp x : - qc_of_Z x = qc_of_Z (- x).
Proof.
  apply Qc_is_canon. rewrite qc_of_Z_this. unfold Qcopp, Q2Qc; cbn [this]. rewrite Qred_correct, !qc_of_Z_this.
  rewrite inject_Z_opp. reflexivity.
Qed.

Lemma int_add a b : qc_is_int a = true -> qc_is_int b = true -> qc_is_int (a + b) = true.
Proof. rewrite !qc_is_int_iff. intros [x ->] [y ->]. exists (x + y)%Z. apply qc_of_Z_add. Qed.
Lemma int_opp a : qc_is_int a = true -> qc_is_int (- a) = true.
Proof. rewrite !qc_is_int_iff. intros [x ->]. exists (- x)%Z. apply qc_of_Z_opp. Qed.
Lemma int_sub a b : qc_is_int a = true -> qc_is_int b = true -> qc_is_int (a - b) = true.
Proof. intros Ha Hb. unfold Qcminus. apply int_add; [exact Ha | apply int_opp; exact Hb]. Qed.
Lemma int_0 : qc_is_int qc0 = true. Proof. apply qc_is_int_of_Z. Qed.
Lemma int_1 : qc_is_int qc1 = true. Proof. apply qc_is_int_of_Z. Qed.

(* between two integers there is nothing strictly in between n and n + 1 *)
Lemma int_lt_le a b : qc_is_int a = true -> qc_is_int b = true -> (a < b <-> a + qc1 <= b).
Proof.
  rewrite !qc_is_int_iff. intros [x ->] [y ->]. unfold qc1. rewrite qc_of_Z_add.
  unfold Qclt, Qcle. rewrite !qc_of_Z_this. rewrite <- Zlt_Qlt, <- Zle_Qle. lia.
Qed.

(* Qc x Qc, componentwise group, lexicographic order *)
Definition qd_lt (a b : Qc * Qc) : Prop := fst a < fst b \/ (fst a = fst b /\ snd a < snd b).
Definition qd_ltb2 (a b : Qc * Qc) : bool := qc_ltb (fst a) (fst b) || (qc_eqb (fst a) (fst b) && qc_ltb (snd a) (snd b)).

Lemma qd_ltb2_iff a b : qd_ltb2 a b = true <-> qd_lt a b.
Proof. unfold qd_ltb2, qd_lt. rewrite orb_true_iff, andb_true_iff, !qc_ltb_iff, qc_eqb_iff. reflexivity. Qed.

Definition QDog : ogroup.
Proof.
  refine (mkog (Qc * Qc)%type (Q2Qc 0, Q2Qc 0) (fun a b => (fst a + fst b, snd a + snd b)) (fun a => (- fst a, - snd a))
               qd_lt qd_ltb2 _ _ _ _ _ _ _ _ qd_ltb2_iff).
  - intros [a1 a2] [b1 b2] [c1 c2]; cbn [fst snd]. f_equal; ring.
  - intros [a1 a2] [b1 b2]; cbn [fst snd]. f_equal; ring.
  - intros [a1 a2]; cbn [fst snd]. f_equal; ring.
  - intros [a1 a2]; cbn [fst snd]. f_equal; ring.
  - intros [a1 a2]; unfold qd_lt; cbn [fst snd]. qc_lra.
  - intros [a1 a2] [b1 b2] [c1 c2]; unfold qd_lt; cbn [fst snd]. qc_lra.
  - intros [a1 a2] [b1 b2]; unfold qd_lt; cbn [fst snd].
    pose proof (Qc_tri a1 b1) as T1. pose proof (Qc_tri a2 b2) as T2. qc_lra.
  - intros [a1 a2] [b1 b2] [c1 c2]; unfold qd_lt; cbn [fst snd]. qc_lra.
Defined.

Definition rdl_itp (x : qd) : xd QDog := match qr x with EFin q => Fin ((q, qe x) : QDog) | _ => Inf end.
Definition rdl_mok (guard : bool) (x : qd) : Prop :=
  qr x <> ENInf /\ qc_is_int (qe x) = true /\ (guard = true -> qr x = EPInf -> qe x = qc0).
Definition rdl_wt (d : qd) (g : QDog) : Prop := exists q, qr d = EFin q /\ qc_is_int (qe d) = true /\ g = (q, qe d).
Definition rdl_gpred (g : QDog) : QDog := (- fst g, - snd g - qc1).

(* a legal entry: finite or +infinity *)
Ltac rdl_mok_case x H :=
  let xr := fresh x "r" in let xe := fresh x "e" in let Hn := fresh "Hn" in let Hi := fresh "Hi" in let Hg := fresh "Hg" in
  destruct x as [xr xe]; destruct H as (Hn & Hi & Hg); cbn [qr qe] in Hn, Hi, Hg;
  destruct xr as [xr | |]; [clear Hn Hg | clear Hn | exfalso; apply Hn; reflexivity].
(* a legal bound *)
Ltac rdl_wt_case d H :=
  let dr := fresh d "r" in let de := fresh d "e" in let Hi := fresh "Hi" in let E := fresh "E" in
  destruct d as [dr de]; destruct H as (? & E & Hi & ->); cbn [qr qe] in E, Hi; subst dr.

Ltac rdl_cbn :=
  unfold qd_ltb, qd_leb, qd_add, qd_sub, qd_neg, er_sub, rdl_gpred in *;
  cbn [rdl_itp qd_add qd_sub qd_neg qd_ltb qd_leb er_add er_sub er_neg er_ltb er_eqb er_is_inf qr qe orb andb negb
       xlt xle xadd xadd2 G g0 gadd gopp glt QDog fst snd] in *.
Ltac rdl_bools :=
  rewrite ?orb_true_iff, ?andb_true_iff, ?qc_ltb_iff, ?qc_eqb_iff, ?qc_leb_iff in *.
Ltac rdl_arith := unfold gle in *; cbn [G g0 gadd gopp glt QDog fst snd] in *; unfold qd_lt in *; cbn [fst snd] in *; qc_lra.

Definition rdl_spec (guard : bool) : domspec QDog qd (rdl_dom guard).
Proof.
  pose proof int_0 as I0. pose proof int_1 as I1.
  refine (mkds QDog qd (rdl_dom guard) rdl_itp (rdl_mok guard) rdl_wt (guard = false) rdl_gpred
                _ _ _ _ _ _ _ _ _ _ _ _ _ _ _ _ _ _ _ _);
    cbn [dzero dinf dadd dsub dneg dltb dleb dfin dok dwok dpred dsub1 rdl_dom].
  - (* ds_zero *)
    split; [| reflexivity]. split; [discriminate |]. split; [exact I0 | discriminate].
  - (* ds_inf *)
    split; [| reflexivity]. split; [discriminate |]. split; [exact I0 | reflexivity].
  - (* ds_wt *)
    intros d g H. rdl_wt_case d H. split; [| split; reflexivity].
    split; [discriminate |]. split; [exact Hi | discriminate].
  - (* ds_dwok *)
    intros [dr de] H. cbn [qr qe] in H. apply andb_true_iff in H. destruct H as [H1 H2].
    destruct dr as [q | |]; try discriminate. exists (q, de). exists q. cbn [qr qe]. auto.
  - (* ds_add *)
    intros a d gd Ma Hd Hf _. rdl_wt_case d Hd. rdl_mok_case a Ma; rdl_cbn.
    + split; [| reflexivity]. split; [discriminate |]. split; [apply int_add; assumption | discriminate].
    + destruct Hf as [Hf | Hf]; [| exfalso; apply Hf; reflexivity].
      split; [| reflexivity]. split; [discriminate |]. split; [apply int_add; assumption | intro; congruence].
  - (* ds_add2 *)
    intros a b Ma Mb Hf _. rdl_mok_case a Ma; rdl_mok_case b Mb; rdl_cbn.
    + split; [| reflexivity]. split; [discriminate |]. split; [apply int_add; assumption | discriminate].
    + destruct Hf as [Hf | [_ Hf]]; [| exfalso; apply Hf; reflexivity].
      split; [| reflexivity]. split; [discriminate |]. split; [apply int_add; assumption | intro; congruence].
    + destruct Hf as [Hf | [Hf _]]; [| exfalso; apply Hf; reflexivity].
      split; [| reflexivity]. split; [discriminate |]. split; [apply int_add; assumption | intro; congruence].
    + destruct Hf as [Hf | [Hf _]]; [| exfalso; apply Hf; reflexivity].
      split; [| reflexivity]. split; [discriminate |]. split; [apply int_add; assumption | intro; congruence].
  - (* ds_t1 *)
    intros a b d gd Ma Mb Hd. rdl_wt_case d Hd. rdl_mok_case a Ma; rdl_mok_case b Mb; rdl_cbn.
    + destruct guard; cbn [andb];
        (match goal with |- if ?c then _ else _ => destruct c eqn:E end;
         [left | apply not_true_iff_false in E]; rdl_bools; rdl_arith).
    + destruct guard; cbn [andb]; left; exact I.
    + destruct guard; cbn [andb]; exact I.
    + destruct guard; cbn [andb]; [exact I |].
      match goal with |- if ?c then _ else _ => destruct c end; [right; auto | exact I].
  - (* ds_t2 *)
    intros a b c Ma Mb Mc Hf.
    rdl_mok_case a Ma; rdl_mok_case b Mb; rdl_mok_case c Mc; rdl_cbn;
      try (match goal with |- if ?c then _ else _ => destruct c eqn:E end;
           [left | apply not_true_iff_false in E]; rdl_bools; rdl_arith);
      try (left; exact I); try exact I;
      (destruct Hf as [Hf | [Ha Hb]]; [| exfalso; first [apply Ha; reflexivity | apply Hb; reflexivity]]);
      match goal with |- if ?c then _ else _ => destruct c end; try exact I; right; auto.
  - (* ds_lt_neg *)
    intros x d gd Mx Hd. rdl_wt_case d Hd. rdl_mok_case x Mx; rdl_cbn.
    + rdl_bools. rdl_arith.
    + split; [discriminate | intros []].
  - (* ds_le *)
    intros x d gd Mx Hd. rdl_wt_case d Hd. rdl_mok_case x Mx; rdl_cbn.
    + rdl_bools. rdl_arith.
    + split; [discriminate | intros []].
  - (* ds_gt *)
    intros x d gd Mx Hd. rdl_wt_case d Hd. rdl_mok_case x Mx; rdl_cbn.
    + rdl_bools. rdl_arith.
    + split; [intros _; exact I | reflexivity].
  - (* ds_ge_neg *)
    intros x d gd Mx Hd. rdl_wt_case d Hd. rdl_mok_case x Mx; rdl_cbn.
    + rdl_bools.
      pose proof (int_lt_le (- de - qc1) xe (int_sub _ _ (int_opp _ Hi) I1) Hi0) as L.
      rdl_arith.
    + split; [intros _; exact I | reflexivity].
  - (* ds_pred *)
    intros d gd _ Hd. rdl_wt_case d Hd. rdl_cbn. exists (- x). cbn [qr qe].
    split; [reflexivity |]. split; [| reflexivity]. apply int_sub; [apply int_opp; exact Hi | exact I1].
  - (* ds_wt_fun *)
    intros d g g' (q & E & _ & ->) (q' & E' & _ & ->). congruence.
  - (* ds_pred_neg *)
    intros [g1 g2]. rdl_cbn. rdl_arith.
  - (* ds_pred_disc *)
    intros x gx d gd Mx Ix _ Hd Hlt. rdl_wt_case d Hd. rdl_mok_case x Mx; rdl_cbn; [| discriminate].
    injection Ix as <-.
    pose proof (int_lt_le de xe Hi Hi0) as L. rdl_cbn. rdl_arith.
  - (* ds_nojunk *)
    intros Hj x Mx Ix. destruct guard; [| exfalso; apply Hj; reflexivity].
    rdl_mok_case x Mx; rdl_cbn; [discriminate |]. rewrite (Hg eq_refl eq_refl). reflexivity.
  - (* ds_negx_le *)
    intros x d gd Mx Hd. rdl_wt_case d Hd. rdl_mok_case x Mx; rdl_cbn.
    + rdl_bools. rdl_arith.
    + split; [intros _; exact I | reflexivity].
  - (* ds_le_x *)
    intros x d gd Mx Hd. rdl_wt_case d Hd. rdl_mok_case x Mx; rdl_cbn.
    + rdl_bools. rdl_arith.
    + split; [intros _; exact I | reflexivity].
  - (* ds_wt_neg *)
    intros d g _ Hd. rdl_wt_case d Hd. rdl_cbn. exists (- x). cbn [qr qe].
    split; [reflexivity |]. split; [apply int_opp; exact Hi | reflexivity].
Defined.
