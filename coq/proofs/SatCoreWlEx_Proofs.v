(* Non-vacuity of the extended C07 theorems: a (tiny) theory that really records a lemma and really reports a conflict meets
   theory_contract AND the named clause th_lemmas_wl; and the scripted probe theory of harness/h_sat.cpp (pr_propagate /
   pr_check of smt/SatCore.v) produces, on a concrete history, lemmas and conflicts that satisfy the clauses of the contract at
   the states where they are produced. *)
From Coq Require Import List Arith Bool Lia.
From ORatio Require Import smt.SatCoreBase smt.SatCoreSpec smt.SatCore proofs.SatCoreInv_Proofs proofs.SatCoreRun_Proofs proofs.SatCoreThm_Proofs proofs.SatCoreWl_Proofs proofs.SatCoreWlRun_Proofs
  proofs.SatCoreDb_Proofs proofs.SatCoreWlThm_Proofs.
Import ListNotations.

(* the theory "x1 -> x2": when x1 is propagated it propagates x2 by the lemma (x2 \/ !x1), or reports that clause as a conflict
   when x2 is false *)
Definition imp_T : asg -> Prop := fun a => a 1 = true -> a 2 = true.
Definition imp_clause : list lit := [(2, true); (1, false)].
Definition imp_thp (ts : unit) (a : list lbool) (_ : nat) (p : lit) : unit * list (list lit) * option (list lit) :=
  if lit_eqb p (1, true) && Nat.leb 3 (length a) then
    match nth 2 a LU with
    | LU => (tt, [imp_clause], None)
    | LF => (tt, [], Some imp_clause)
    | LT => (tt, [], None)
    end
  else (tt, [], None).
Definition imp_thc (ts : unit) (_ : list lbool) (_ : nat) : unit * list (list lit) * option (list lit) := (tt, [], None).

Lemma imp_entails : forall F, entails imp_T F imp_clause.
Proof.
  intros F a Ha _. unfold imp_T in Ha. destruct (a 1) eqn:E1.
  - exists (2, true). split. simpl; auto. unfold sat_lit. simpl. auto.
  - exists (1, false). split. simpl; auto. unfold sat_lit. simpl. exact E1.
Qed.

Lemma imp_guard : forall p n, lit_eqb p (1, true) && Nat.leb 3 n = true -> p = (1, true) /\ 3 <= n.
Proof.
  intros [v b] n H. apply andb_true_iff in H. destruct H as [H1 H2]. apply Nat.leb_le in H2. split; auto.
  unfold lit_eqb in H1. simpl in H1. apply andb_true_iff in H1. destruct H1 as [A B]. apply Nat.eqb_eq in A. apply eqb_prop in B. subst. reflexivity.
Qed.

Lemma imp_contract : theory_contract imp_T imp_thp imp_thc.
Proof.
  split.
  - intros s p I Hp Hlv. unfold th_result_ok, imp_thp.
    destruct (lit_eqb p (1, true) && Nat.leb 3 (length (assigns s))) eqn:G.
    2: { simpl. split. constructor. intros; discriminate. }
    destruct (imp_guard _ _ G) as [-> Hlen].
    assert (Hx1 : value_lit s (1, false) = LF).
    { change (1, false) with (lneg (1, true)). rewrite value_lit_neg. now rewrite (value_lit_in_trail imp_T s (1, true) (proj1 I) Hp). }
    destruct (nth 2 (assigns s) LU) eqn:E2; simpl.
    + (* conflict *)
      split. constructor. intros cnfl Ec. inversion Ec; subst cnfl. split. apply imp_entails. split.
      * intros r [<-|[<-|[]]]; auto. unfold value_lit, value_var. simpl. now rewrite E2.
      * intros _. exists (1, false). split. simpl; auto. exact Hlv.
    + split. constructor. intros; discriminate.
    + (* lemma *)
      split; [|intros; discriminate]. constructor; [|constructor]. unfold lemma_ok. split. apply imp_entails. split.
      * intros l [<-|[<-|[]]]; simpl; lia.
      * split. { intros l [<-|[<-|[]]]; simpl; intros [H|[H|[]]]; discriminate. }
        split. { intros r [<-|[]]. exact Hx1. }
        split. { simpl. discriminate. }
        discriminate.
  - intros s _. unfold th_result_ok, imp_thc. simpl. split; auto. split. constructor. intros; discriminate.
Qed.

Lemma imp_lemmas_wl : forall (s : @state unit) p, Inv imp_T s -> In p (trail s) -> nth (fst p) (level s) 0 = decision_level s ->
  lemmas_wl_ok s (snd (fst (imp_thp (thst s) (assigns s) (decision_level s) p))).
Proof.
  intros s p I Hp Hlv. unfold imp_thp.
  destruct (lit_eqb p (1, true) && Nat.leb 3 (length (assigns s))) eqn:G.
  2: { simpl. split; constructor. }
  destruct (imp_guard _ _ G) as [-> Hlen].
  destruct (nth 2 (assigns s) LU) eqn:E2; simpl; try (split; constructor; fail).
  split. { simpl. constructor. intros []. constructor. }
  constructor; [|constructor]. unfold lemma_wl_ok, imp_clause. split. { unfold value_lit, value_var. simpl. now rewrite E2. }
  split. { simpl. constructor. intros [H|[]]; discriminate. constructor. intros []. constructor. }
  intros _. exists (1, false). split. simpl; auto. exact Hlv.
Qed.

(* ... and it does record a lemma and report a conflict: x1, x2, x3; deciding x1 propagates x2 by the lemma; in the second history
   the clause (!x2) makes x2 false at root, deciding x1 raises the conflict, the unit !x1 is learnt *)
Example imp_records_a_lemma :
  let ops := [ONewVar; ONewVar; ONewVar; ONewClause [(2, false); (3, true)]; OPropagate; OAssume (1, true)] in
  let s := run (@isort lit) imp_thp imp_thc (fun u => u) (fun u => u) 100 ops (init tt) in
  run_ok (@isort lit) imp_thp imp_thc (fun u => u) (fun u => u) 100 ops (init tt) = true /\
  In (2, imp_clause) (log s) /\ value_lit s (2, true) = LT /\ value_lit s (3, true) = LT /\ ub s = false.
Proof. vm_compute. repeat split; auto. Qed.
Example imp_reports_a_conflict :
  let ops := [ONewVar; ONewVar; ONewVar; ONewClause [(2, false)]; OPropagate; OAssume (1, true)] in
  let s := run (@isort lit) imp_thp imp_thc (fun u => u) (fun u => u) 100 ops (init tt) in
  run_ok (@isort lit) imp_thp imp_thc (fun u => u) (fun u => u) 100 ops (init tt) = true /\
  In (3, imp_clause) (log s) /\ In (0, [(1, false)]) (log s) /\ value_lit s (1, true) = LF /\ decision_level s = 0 /\ ub s = false.
Proof. vm_compute. repeat split; auto. Qed.

(* the extended theorems apply to it: no undefined behaviour, the watch invariant, total assignments satisfy every clause *)
Theorem imp_instance : forall FUEL ops o,
  run_ok (@isort lit) imp_thp imp_thc (fun u => u) (fun u => u) FUEL (ops ++ [o]) (init tt) = true ->
  let s := run (@isort lit) imp_thp imp_thc (fun u => u) (fun u => u) FUEL ops (init tt) in
  ub s = false /\ WL (decision_level s) None s /\
  (prop_q s = [] -> (forall v, v < nvars s -> value_var s v <> LU) -> forall c, In c (added (log s)) -> sat_clause (asg_of s) c).
Proof.
  intros FUEL ops o Hok s.
  assert (Hok' : run_ok (@isort lit) imp_thp imp_thc (fun u => u) (fun u => u) FUEL ops (init tt) = true).
  { apply (run_ok_app (@isort lit) imp_thp imp_thc (fun u => u) (fun u => u) FUEL ops o). exact Hok. }
  split; [|split].
  - apply (c07_no_ub_lemmas imp_T (@isort lit) imp_thp imp_thc (fun u => u) (fun u => u) FUEL isort_contract isort_key_sorted imp_contract imp_lemmas_wl ops tt Hok').
  - apply (c07_watch_invariant_lemmas imp_T (@isort lit) imp_thp imp_thc (fun u => u) (fun u => u) FUEL isort_contract isort_key_sorted imp_contract imp_lemmas_wl ops o tt Hok).
  - apply (c07_total_assignment_lemmas imp_T (@isort lit) imp_thp imp_thc (fun u => u) (fun u => u) FUEL isort_contract isort_key_sorted imp_contract imp_lemmas_wl ops o tt Hok).
Qed.

(* the scripted probe theory of the differential (pr_propagate / pr_check): theory clauses (x2 \/ !x1) with unit lemmas (kind 1) and
   (!x3 \/ !x1) as a conflict (kind 0), given in the initial theory state.  Deciding x1 records the lemma; after a pop, deciding x3
   and then x1 raises the conflict, which is analysed (learnt clause) - and nothing undefined happens.  (The universally
   quantified theory_contract cannot be PROVED for the probe: it ranges over every state satisfying Inv, including states whose
   theory state holds clauses that are not valid for the fixed T; it would have to be relative to an invariant of the theory
   state.  The instance imp_* above is the provable one.) *)
Example probe_records_a_lemma_and_reports_a_conflict :
  let ts := [(1, [(2, true); (1, false)]); (0, [(3, false); (1, false)])] in
  let ops := [ONewVar; ONewVar; ONewVar; OAssume (1, true); OPop; OAssume (3, true); OAssume (1, true)] in
  let s := run (@isort lit) pr_propagate pr_check pr_id pr_id 100 ops (init ts) in
  run_ok (@isort lit) pr_propagate pr_check pr_id pr_id 100 ops (init ts) = true /\
  In (2, [(2, true); (1, false)]) (log s) /\ In (3, [(3, false); (1, false)]) (log s) /\
  In (0, [(1, false); (3, false)]) (log s) /\ value_lit s (1, true) = LF /\ decision_level s = 1 /\ ub s = false.
Proof. vm_compute. repeat split; auto 10. Qed.
