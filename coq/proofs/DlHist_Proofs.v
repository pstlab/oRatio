(* Histories: every state reached from the constructor by any sequence of the theory's operations (driven with the protocol
   of sat_core: the queue is drained before a decision, after a conflict the level is popped, variables and constraints
   are created at root level) satisfies the invariant `good` -- provided no fault was flagged. A pop gives back exactly the
   state of the matching push. *)
From Coq Require Import List Arith Bool Lia Qcanon.
From ORatio Require Import smt.DlDom smt.Dl proofs.DlOrd_Proofs proofs.DlSpec_Proofs proofs.DlNet_Proofs proofs.DlPhase_Proofs
  proofs.DlStep_Proofs proofs.DlLayer_Proofs proofs.DlProp_Proofs proofs.DlUndo_Proofs
  proofs.DlCreate_Proofs.
Import ListNotations.
Local Open Scope nat_scope.

Section Hist.
Variable O : ogroup.
Variable D : Type.
Variable dm : dom D.
Variable DS : domspec O D dm.
Notation state := (state D).
Notation good := (good O D dm DS).
Notation ngood := (ngood O D dm DS).
Notation step := (step D dm).

(* relations: new_rel is the identity, one new_distance, or new_eq_vars *)
Notation cr_frame := (cr_frame D).

Lemma new_rel_shape (s : state) r left right :
  (exists res, new_rel D dm s r left right = (s, res, [])) \/
  (exists a b d, new_rel D dm s r left right = (let (s1, r1) := new_distance D dm s a b d in (s1, r1, []))) \/
  (exists vp vm k, new_rel D dm s r left right = new_eq_vars D dm s vp vm k).
Proof.
  unfold new_rel. destruct (fst (lin_sub left right)) as [| [v c] [| [v1 c1] [| t3 rest]]].
  - left. eexists. reflexivity.
  - destruct (dconst dm (snd (lin_div (lin_sub left right) c))) as [k |]; [| left; eexists; reflexivity].
    destruct r; try (right; left; destruct (rel_call D dm _ (qc_ltb c qc0) v 0 k) as [[a b] d] eqn:E; exists a, b, d; reflexivity).
    right. right. exists v, 0, k. reflexivity.
  - destruct (negb (qc_eqb (c1 / c)%Qc qcm1)); [left; eexists; reflexivity |].
    destruct (dconst dm (snd (lin_div (lin_sub left right) c))) as [k |]; [| left; eexists; reflexivity].
    destruct r; try (right; left; destruct (rel_call D dm _ (qc_ltb c qc0) v v1 k) as [[a b] d] eqn:E; exists a, b, d; reflexivity).
    right. right. exists v, v1, k. reflexivity.
  - left. eexists. reflexivity.
Qed.

Lemma new_eq_vars_correct s vp vm k s' r ev :
  good s -> new_eq_vars D dm s vp vm k = (s', r, ev) -> fault s' = 0 -> good s' /\ cr_frame s s'.
Proof.
  intros G E F. unfold new_eq_vars in E. fold (nd_pair D dm s vp vm k vm vp (dneg dm k)) in E.
  destruct (negb (Nat.ltb vp (n_vars s) && Nat.ltb vm (n_vars s))); [injection E as <- <- <-; split; [exact G | apply cr_frame_refl] |].
  destruct (dleb dm (dneg dm (Dl.dget D dm s vm vp)) k && dleb dm k (Dl.dget D dm s vp vm));
    [| injection E as <- <- <-; split; [exact G | apply cr_frame_refl]].
  destruct (nd_pair_good O D dm DS _ _ _ _ _ _ _ _ _ _ G E F) as (G3 & Fr & _). split; assumption.
Qed.

Lemma new_eq_vars_fault s vp vm k : fault (fst (fst (new_eq_vars D dm s vp vm k))) = 0 -> fault s = 0.
Proof.
  unfold new_eq_vars. destruct (negb (Nat.ltb vp (n_vars s) && Nat.ltb vm (n_vars s))); [auto |].
  destruct (dleb dm (dneg dm (Dl.dget D dm s vm vp)) k && dleb dm k (Dl.dget D dm s vp vm)); [| auto].
  apply (nd_pair_fault D dm).
Qed.

Lemma new_rel_correct s r left right s' res ev :
  good s -> new_rel D dm s r left right = (s', res, ev) -> fault s' = 0 -> good s' /\ cr_frame s s'.
Proof.
  intros G E F. destruct (new_rel_shape s r left right) as [[res0 E0] | [(a & b & d & E0) | (vp & vm & k & E0)]]; rewrite E0 in E.
  - injection E as <- <- <-. split; [exact G | apply cr_frame_refl].
  - destruct (new_distance D dm s a b d) as [s1 r1] eqn:E1. injection E as <- <- <-.
    destruct (new_distance_correct O D dm DS s a b d s1 r1 G E1 F) as [G1 N1]. split; [exact G1 |].
    apply (nd_spec_frame D dm _ _ _ _ _ _ N1).
  - apply (new_eq_vars_correct s vp vm k s' res ev G E F).
Qed.

Lemma new_rel_fault s r left right : fault (fst (fst (new_rel D dm s r left right))) = 0 -> fault s = 0.
Proof.
  destruct (new_rel_shape s r left right) as [[res0 E0] | [(a & b & d & E0) | (vp & vm & k & E0)]]; rewrite E0.
  - auto.
  - pose proof (new_distance_fault D dm s a b d) as H. destruct (new_distance D dm s a b d) as [s1 r1]. exact H.
  - apply new_eq_vars_fault.
Qed.

Lemma prop_one_root s : layers s = [] -> layers (fst (fst (prop_one D dm s))) = [].
Proof.
  apply (P_prop_one D dm (fun _ => True) (fun u => layers u = [])).
  - intros u i j v p H _ _. unfold wr, Dl.set_pred, Dl.set_dist. destruct (dok dm v); cbn; rewrite H; reflexivity.
  - intros u k c H. unfold Dl.set_constr; cbn. rewrite H. reflexivity.
  - intros u f H. exact H.
  - intros u p H. unfold enqueue. destruct (value u p); exact H.
  - intros u _. apply no_bound.
  - intros u q H. exact H.
  - intros u b H. exact H.
Qed.

(* enqueue and push on good states *)
Lemma enqueue_good s p : good s -> 0 < fst p < length (assigns s) -> good (fst (enqueue D s p)).
Proof.
  intros G Hp. destruct (value s p) eqn:Ev; [unfold enqueue; rewrite Ev; exact G | unfold enqueue; rewrite Ev; exact G |].
  destruct (enqueue_ngood O D dm DS s p (gd_n _ _ _ _ _ G) Ev Hp) as (G' & V' & Vo & _ & _ & Ed & _ & _ & Evd & _).
  constructor; [exact G' |]. intros v c Hc HU Dd.
  assert (Hne : v <> fst p).
  { intros ->. unfold value in V'. rewrite HU in V'. destruct (snd p); discriminate. }
  rewrite Evd in Hc. rewrite (Vo v Hne) in HU. apply (gd_prop _ _ _ _ _ G v c Hc HU).
  unfold DlSpec_Proofs.decided, Dl.dget in *. rewrite Ed in Dd. exact Dd.
Qed.

Lemma push_good s : good s -> good (do_push D s).
Proof.
  intros [[Gf Gsh Gt Gs Gl Gx Gp Gd Gq] Gpr]. constructor; [constructor |]; try assumption.
  - destruct Gsh as [A1 A2 A3 A4 A5]. constructor; assumption.
  - destruct Gt as [A1 A2 A3 A4 A5]. constructor; assumption.
  - destruct Gs as [A1 A2 A3 A4]. constructor; try assumption. unfold do_push, theory_push, set_sat, set_net; cbn. rewrite A4. reflexivity.
  - apply push_layers. exact Gl.
Qed.

(* the protocol of sat_core: creation at root level, a decision or a pop only on a drained queue, nothing but the pop
   while a conflict is pending *)
Definition wf_op (s : state) (o : op D) : Prop :=
  match o with
  | ONewVar _ | ONewDistance _ _ _ _ | ONewDistance2 _ _ _ _ _ | ONewRel _ _ _ _ => layers s = [] /\ confl s = false
  | OBounds _ _ | ODistance _ _ _ | OBoundsL _ _ | ODistanceL _ _ _ | OEquates _ _ _ => True
  | OPush _ => confl s = false /\ prop_q s = []
  | OEnqueue _ p => confl s = false /\ 0 < fst p < length (assigns s)
  | OPropOne _ => confl s = false
  | OPop _ => layers s <> [] /\ prop_q s = []
  end.

Fixpoint wf_run (s : state) (os : list (op D)) : Prop :=
  match os with
  | [] => True
  | o :: r => wf_op s o /\ wf_run (fst (fst (step s o))) r
  end.

Inductive stack : state -> Prop :=
| st_root s : layers s = [] -> stack s
| st_lvl s t0 c0 : good t0 -> prop_q t0 = [] -> confl t0 = false -> UP D c0 (net D t0) s -> stack t0 -> stack s.

Definition hinv (s : state) : Prop := fault s = 0 /\ (confl s = false -> good s) /\ stack s.

Lemma step_fault s o : fault (fst (fst (step s o))) = 0 -> fault s = 0.
Proof.
  destruct o; cbn [Dl.step]; try (cbn; auto; fail).
  - unfold new_var. destruct (Nat.eqb (length (dists s)) (n_vars s)); cbn; auto.
  - pose proof (new_distance_fault D dm s from to d) as H. destruct (new_distance D dm s from to d) as [s1 r1]. exact H.
  - unfold new_distance2. destruct (negb (Nat.ltb from (n_vars s) && Nat.ltb to (n_vars s))); [auto | apply (nd_pair_fault D dm)].
  - apply new_rel_fault.
  - pose proof (enqueue_fault D s p) as H. destruct (enqueue D s p) as [s1 b]. cbn [fst] in *. congruence.
  - apply (prop_one_fault D dm).
  - destruct (trail s) as [| l [| t1 tr]] eqn:E; cbn [fst]; auto. rewrite (proj1 (do_pop_rest D s)). auto.
Qed.

Lemma stack_same s s' : layers s' = layers s -> (forall c0 T, UP D c0 T s -> UP D c0 T s') -> stack s -> stack s'.
Proof.
  intros El HU St. destruct St as [s Hl | s t0 c0 G0 Q0 C0 U0 St0].
  - apply st_root. congruence.
  - eapply st_lvl; eauto.
Qed.

Lemma cr_frame_stack s s' : layers s = [] -> cr_frame s s' -> stack s'.
Proof. intros Hl (_ & _ & _ & _ & El & _). apply st_root. congruence. Qed.

Lemma UP_push_good s : good s -> UP D (cap D s) (net D s) (do_push D s).
Proof. intro G. apply UP_push. apply (ngood_str O D dm DS). apply G. Qed.

Theorem step_hinv s o : hinv s -> wf_op s o -> fault (fst (fst (step s o))) = 0 -> hinv (fst (fst (step s o))).
Proof.
  intros (F0 & G0 & St) W F. destruct o; cbn [wf_op] in W.
  - (* new_var *)
    destruct W as [Hl Hc]. cbn [Dl.step] in *. destruct (new_var D dm s) as [s1 r1] eqn:E. cbn [fst] in *.
    pose proof (new_var_good O D dm DS s (G0 Hc)) as G1. destruct (new_var_fields D dm s) as (_ & _ & _ & _ & _ & _ & _ & Ely & _ & Ecf & _).
    rewrite E in G1, Ely, Ecf. cbn [fst] in G1, Ely, Ecf.
    split; [exact F |]. split; [intros _; exact G1 | apply st_root; congruence].
  - (* new_distance *)
    destruct W as [Hl Hc]. cbn [Dl.step] in *. destruct (new_distance D dm s from to d) as [s1 r1] eqn:E. cbn [fst] in *.
    destruct (new_distance_correct O D dm DS s from to d s1 r1 (G0 Hc) E F) as [G1 N1].
    split; [exact F |]. split; [intros _; exact G1 |]. apply (cr_frame_stack s s1 Hl). apply (nd_spec_frame D dm _ _ _ _ _ _ N1).
  - (* new_distance with two bounds *)
    destruct W as [Hl Hc]. cbn [Dl.step] in *. destruct (new_distance2 D dm s from to mn mx) as [[s1 r1] ev] eqn:E. cbn [fst] in *.
    destruct (new_distance2_correct O D dm DS s from to mn mx s1 r1 ev (G0 Hc) E F) as (G1 & _ & Fr).
    split; [exact F |]. split; [intros _; exact G1 | apply (cr_frame_stack s s1 Hl Fr)].
  - (* relations *)
    destruct W as [Hl Hc]. cbn [Dl.step] in *. destruct (new_rel D dm s r left right) as [[s1 r1] ev] eqn:E. cbn [fst] in *.
    destruct (new_rel_correct s r left right s1 r1 ev (G0 Hc) E F) as (G1 & Fr).
    split; [exact F |]. split; [intros _; exact G1 | apply (cr_frame_stack s s1 Hl Fr)].
  - exact (conj F0 (conj G0 St)).
  - exact (conj F0 (conj G0 St)).
  - exact (conj F0 (conj G0 St)).
  - exact (conj F0 (conj G0 St)).
  - exact (conj F0 (conj G0 St)).
  - (* push *)
    destruct W as [Hc Hq]. cbn [Dl.step fst] in *. split; [exact F |]. split; [intros _; apply push_good; exact (G0 Hc) |].
    apply (st_lvl (do_push D s) s (cap D s) (G0 Hc) Hq Hc (UP_push_good s (G0 Hc)) St).
  - (* enqueue *)
    destruct W as [Hc Hp]. cbn [Dl.step] in *. destruct (enqueue D s p) as [s1 bb] eqn:E. cbn [fst] in *.
    assert (E1 : s1 = fst (enqueue D s p)) by (rewrite E; reflexivity).
    split; [exact F |]. split.
    + intros _. rewrite E1. apply enqueue_good; [exact (G0 Hc) | exact Hp].
    + rewrite E1. apply (stack_same s); [unfold enqueue; destruct (value s p); reflexivity | intros c0 T; apply UP_enqueue | exact St].
  - (* one theory propagation *)
    cbn [Dl.step] in *. split; [exact F |]. split.
    + intro Hc'. unfold prop_one in *. destruct (prop_q s) as [| p q] eqn:Hq; [cbn [fst] in *; exact (G0 W) |].
      pose proof (propagate_lit_spec O D dm DS s p q (G0 W) Hq) as Sp.
      unfold DlStep_Proofs.dequeue in Sp. rewrite Hq in Sp. cbn [tl] in Sp.
      destruct (propagate_lit D dm (set_sat D s (assigns s) q (trail s)) p) as [[s2 r] evs]. cbn [fst] in *.
      destruct r as [| | | | | | ok cl |]; try (destruct (Sp F) as (G2 & _); exact G2).
      destruct ok; [destruct (Sp F) as (G2 & _); exact G2 |]. cbn [fst] in Hc'. discriminate.
    + destruct St as [s Hl | s t0 c0 Gt Q0 C0 U0 St0].
      * apply st_root. apply prop_one_root. exact Hl.
      * apply (st_lvl _ t0 c0 Gt Q0 C0); [apply UP_prop_one; exact U0 | exact St0].
  - (* pop *)
    destruct W as [Hl Hq]. destruct St as [s Hl0 | s t0 c0 Gt Q0 C0 U0 St0]; [contradiction |].
    destruct U0 as (P1 & L1 & S1 & W1 & U1).
    assert (Ep : do_pop D s = t0).
    { apply do_pop_eq; [symmetry; exact U1 | congruence | exact C0 | rewrite F0; apply (gd_fault _ _ _ _ _ (gd_n _ _ _ _ _ Gt)) | exact L1]. }
    cbn [Dl.step] in *. destruct (lvl_shape D s L1) as (ly & lr & tl0 & tr & El & Et & Hn). rewrite Et in *.
    destruct tr as [| t1 tr]; [congruence |]. cbn [fst] in *. rewrite Ep.
    split; [apply (gd_fault _ _ _ _ _ (gd_n _ _ _ _ _ Gt)) |]. split; [intros _; exact Gt | exact St0].
Qed.

Definition run (s : state) (os : list (op D)) : state := Dl.run D dm s os.

Theorem run_hinv os : forall s, hinv s -> wf_run s os -> fault (run s os) = 0 -> hinv (run s os).
Proof.
  induction os as [| o os IH]; intros s H W F; [exact H |].
  destruct W as [Wo Wr]. unfold run, Dl.run in *. cbn [fold_left] in *.
  assert (Fs : fault (fst (fst (step s o))) = 0).
  { clear - F. revert F. generalize (fst (fst (step s o))). induction os as [| o' os IH]; intros u F; [exact F |].
    cbn [fold_left] in F. apply (step_fault u o'). apply IH. exact F. }
  apply IH; [apply step_hinv; assumption | exact Wr | exact F].
Qed.

Theorem init_hinv size : 0 < size -> hinv (init D dm size).
Proof.
  intro H. split; [reflexivity |]. split; [intros _; apply (init_good O D dm DS size H) | apply st_root; reflexivity].
Qed.

(* the invariant after any history *)
Theorem history_good size os : 0 < size -> wf_run (init D dm size) os ->
  fault (run (init D dm size) os) = 0 -> confl (run (init D dm size) os) = false -> good (run (init D dm size) os).
Proof.
  intros Hs W F C. destruct (run_hinv os (init D dm size) (init_hinv size Hs) W F) as (_ & G & _). exact (G C).
Qed.

(* a pop undoes a whole level exactly: the state of the push comes back, whatever was enqueued and propagated in between *)
Theorem pop_restores s os :
  hinv s -> confl s = false -> prop_q s = [] ->
  (forall o, In o os -> match o with OEnqueue _ _ | OPropOne _ | OBounds _ _ | ODistance _ _ _ | OBoundsL _ _ | ODistanceL _ _ _ | OEquates _ _ _ => True | _ => False end) ->
  let s' := run (do_push D s) os in
  wf_run (do_push D s) os -> fault s' = 0 -> prop_q s' = [] ->
  do_pop D s' = s.
Proof.
  intros (F0 & G0 & St) Hc Hq Hos s' W F Q.
  assert (U : UP D (cap D s) (net D s) s').
  { unfold s', run, Dl.run. clear W F Q s'. pose proof (UP_push_good s (G0 Hc)) as U0. revert U0. generalize (do_push D s).
    induction os as [| o os IH]; intros u U0; [exact U0 |]. cbn [fold_left]. apply IH; [intros o' Ho'; apply Hos; right; exact Ho' |].
    specialize (Hos o (or_introl eq_refl)). destruct o; try contradiction; cbn [Dl.step fst]; try exact U0.
    - destruct (enqueue D u p) as [u1 bb] eqn:E. cbn [fst]. replace u1 with (fst (enqueue D u p)) by (rewrite E; reflexivity). apply UP_enqueue. exact U0.
    - apply UP_prop_one. exact U0. }
  destruct U as (P1 & L1 & S1 & W1 & U1).
  apply do_pop_eq; [symmetry; exact U1 | congruence | exact Hc | congruence | exact L1].
Qed.

End Hist.
