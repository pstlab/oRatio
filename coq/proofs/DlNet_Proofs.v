(* Read-after-write lemmas for the primitive updates of the network (set_dist, set_pred, set_constr) and what they
   leave unchanged. Everything later is stated through the readers dget / pget / pm_find . dist_constr. *)
From Coq Require Import List Arith Bool.
From ORatio Require Import smt.DlDom smt.Dl proofs.DlBase_Proofs.
Import ListNotations.

Section Net.
Variable D : Type.
Variable dm : dom D.
Notation state := (state D).
Notation dget := (dget D dm).
Notation set_dist := (set_dist D dm).
Notation set_pred := (set_pred D).
Notation set_constr := (set_constr D).

Definition cap (s : state) : nat := length (dists s).
Definition sq (s : state) : Prop :=
  mshape (dists s) (cap s) (cap s) /\ mshape (preds s) (cap s) (cap s).

(* the part of the state that the network updates never touch *)
Definition same_rest (s s' : state) : Prop :=
  n_vars s' = n_vars s /\ var_dists s' = var_dists s /\ dist_constrs s' = dist_constrs s /\ assigns s' = assigns s /\
  prop_q s' = prop_q s /\ trail s' = trail s /\ conj_exprs s' = conj_exprs s /\ confl s' = confl s /\
  length (layers s') = length (layers s) /\ tl (layers s') = tl (layers s).

Lemma same_rest_refl s : same_rest s s.
Proof. unfold same_rest; intuition. Qed.
Lemma same_rest_trans s1 s2 s3 : same_rest s1 s2 -> same_rest s2 s3 -> same_rest s1 s3.
Proof. unfold same_rest; intuition congruence. Qed.

Lemma set_fault_fields (s : state) f :
  dists (set_fault D s f) = dists s /\ preds (set_fault D s f) = preds s /\ dist_constr (set_fault D s f) = dist_constr s /\
  layers (set_fault D s f) = layers s /\ same_rest s (set_fault D s f).
Proof. unfold set_fault, same_rest; cbn; intuition. Qed.

Lemma set_fault_zero (s : state) f : fault (set_fault D s f) = 0 -> fault s = 0 /\ f = 0.
Proof. unfold set_fault; cbn. destruct (Nat.eqb_spec (fault s) 0); intros; split; congruence. Qed.

Lemma set_dist_rest s i j v : same_rest s (set_dist s i j v).
Proof.
  unfold Dl.set_dist. destruct (dok dm v).
  - unfold same_rest, set_net; cbn. destruct (layers s); cbn; intuition.
  - eapply same_rest_trans; [| apply set_fault_fields]. unfold same_rest, set_net; cbn. destruct (layers s); cbn; intuition.
Qed.

Lemma set_dist_fault s i j v : fault (set_dist s i j v) = 0 -> fault s = 0 /\ dok dm v = true.
Proof.
  unfold Dl.set_dist. destruct (dok dm v); [cbn; auto |]. intro H. apply set_fault_zero in H. destruct H; discriminate.
Qed.

Lemma set_dist_dists s i j v : dists (set_dist s i j v) = mset (dists s) i j v.
Proof. unfold Dl.set_dist. destruct (dok dm v); reflexivity. Qed.
Lemma set_dist_preds s i j v : preds (set_dist s i j v) = preds s.
Proof. unfold Dl.set_dist. destruct (dok dm v); reflexivity. Qed.
Lemma set_dist_dc s i j v : dist_constr (set_dist s i j v) = dist_constr s.
Proof. unfold Dl.set_dist. destruct (dok dm v); reflexivity. Qed.

Lemma layers_set_dist s i j v : layers (set_dist s i j v) =
  match layers s with [] => [] | l :: r => (if pm_mem (i, j) (old_dists l) then l
    else mklayer (pm_set (i, j) (dget s i j) (old_dists l)) (old_preds l) (old_constrs l)) :: r end.
Proof. unfold Dl.set_dist. destruct (dok dm v); reflexivity. Qed.

Lemma set_dist_sq s i j v : sq s -> sq (set_dist s i j v) /\ cap (set_dist s i j v) = cap s.
Proof.
  intros [Hd Hp]. unfold sq, cap. rewrite set_dist_dists, set_dist_preds.
  assert (L : length (mset (dists s) i j v) = length (dists s)) by (unfold mset; apply lset_length).
  rewrite L. split; [split; [apply mset_shape; exact Hd | exact Hp] | reflexivity].
Qed.

Lemma dget_set_dist s i j v i' j' : sq s -> i < cap s -> j < cap s ->
  dget (set_dist s i j v) i' j' = if Nat.eqb i i' && Nat.eqb j j' then v else dget s i' j'.
Proof.
  intros [Hd _] Hi Hj. unfold Dl.dget. rewrite set_dist_dists. apply (mget_mset _ _ _ _ _ _ _ _ _ Hd Hi Hj).
Qed.

Lemma pget_set_dist s i j v i' j' : pget (set_dist s i j v) i' j' = pget s i' j'.
Proof. unfold pget. rewrite set_dist_preds. reflexivity. Qed.

Lemma set_pred_rest s i j p : same_rest s (set_pred s i j p).
Proof. unfold Dl.set_pred, same_rest, set_net; cbn. destruct (layers s); cbn; intuition. Qed.
Lemma set_pred_fault s i j p : fault (set_pred s i j p) = fault s. Proof. reflexivity. Qed.
Lemma set_pred_dists s i j p : dists (set_pred s i j p) = dists s. Proof. reflexivity. Qed.
Lemma set_pred_preds s i j p : preds (set_pred s i j p) = mset (preds s) i j p. Proof. reflexivity. Qed.
Lemma set_pred_dc s i j p : dist_constr (set_pred s i j p) = dist_constr s. Proof. reflexivity. Qed.

Lemma set_pred_sq s i j p : sq s -> sq (set_pred s i j p) /\ cap (set_pred s i j p) = cap s.
Proof.
  intros [Hd Hp]. unfold sq, cap. rewrite set_pred_dists, set_pred_preds.
  split; [split; [exact Hd | apply mset_shape; exact Hp] | reflexivity].
Qed.

Lemma dget_set_pred s i j p i' j' : dget (set_pred s i j p) i' j' = dget s i' j'.
Proof. reflexivity. Qed.

Lemma pget_set_pred s i j p i' j' : sq s -> i < cap s -> j < cap s ->
  pget (set_pred s i j p) i' j' = if Nat.eqb i i' && Nat.eqb j j' then p else pget s i' j'.
Proof.
  intros [_ Hp] Hi Hj. unfold pget. rewrite set_pred_preds. apply (mget_mset _ _ _ _ _ _ _ _ _ Hp Hi Hj).
Qed.

Lemma set_constr_rest s k c : same_rest s (set_constr s k c).
Proof. unfold Dl.set_constr, same_rest, set_dc; cbn. destruct (layers s); cbn; intuition. Qed.
Lemma set_constr_fault s k c : fault (set_constr s k c) = fault s. Proof. reflexivity. Qed.
Lemma set_constr_dists s k c : dists (set_constr s k c) = dists s. Proof. reflexivity. Qed.
Lemma set_constr_preds s k c : preds (set_constr s k c) = preds s. Proof. reflexivity. Qed.
Lemma set_constr_dc s k c : dist_constr (set_constr s k c) = pm_set k c (dist_constr s). Proof. reflexivity. Qed.

End Net.
