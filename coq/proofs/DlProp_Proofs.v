(* theory::propagate(p) on a good state: conflict with a valid clause exactly when the edge of p closes a negative cycle,
   otherwise a good state again (distances exact for the enlarged edge set, predecessors, dist_constr, lemmas). *)
From Coq Require Import List Arith Bool Lia.
From ORatio Require Import smt.DlDom smt.Dl proofs.DlOrd_Proofs proofs.DlBase_Proofs proofs.DlGraph_Proofs proofs.DlSpec_Proofs
  proofs.DlNet_Proofs proofs.DlPhase_Proofs proofs.DlUpdate_Proofs proofs.DlExpl_Proofs
  proofs.DlStep_Proofs proofs.DlLemma_Proofs proofs.DlLayer_Proofs.
Import ListNotations.

Section PropOne.
Variable O : ogroup.
Variable D : Type.
Variable dm : dom D.
Variable DS : domspec O D dm.
Notation state := (state D).
Notation dget := (dget D dm).
Notation dval := (dval O D dm DS).
Notation proc := (proc D).
Notation lit_edge := (lit_edge O D dm DS).
Notation true_lit := (true_lit D).
Notation edges := (edges O D dm DS).
Notation cedge := (cedge O D dm DS).
Notation good := (good O D dm DS).
Notation ngood := (ngood O D dm DS).
Notation clause_false := (clause_false D).
Notation clause_valid := (clause_valid O D dm DS).
Notation lemma_ok := (lemma_ok O D dm DS).
Notation evs_ok := (evs_ok O D dm DS).
Notation grows := (grows D).
Notation dequeue := (dequeue D).
Notation assert_edge := (assert_edge D dm).

Lemma pe_unfold (s : state) a b d :
  propagate_edge D dm s a b d = fold_left (step3 D dm) (snd (sc2 D dm s a b d)) (s2 D dm s a b d, []).
Proof.
  unfold propagate_edge, s2, sc2, s1, ac1, s0.
  change (Dl.set_pred D (Dl.set_dist D dm s a b d) a b (Some a)) with (wr D dm s a b d (Some a)).
  rewrite n_vars_wr. reflexivity.
Qed.

(* the outcome of one theory propagation, judged against the state s1 in which p has just been taken from the queue *)
Definition lemmas_ok (s1 : state) (evs : list event) : Prop :=
  forall k cl, In (Ev k cl) evs ->
    k = 2 /\ clause_valid s1 cl /\ exists w, ngood w /\ var_dists w = var_dists s1 /\ lemma_ok w cl.

Definition step_ok (s1 s' : state) (r : res D) (evs : list event) : Prop :=
  match r with
  | RProp false cl => s' = s1 /\ clause_false s1 cl /\ clause_valid s1 cl /\ neg_cycle (edges s1) /\ evs = [Ev 3 cl]
  | _ => good s' /\ ~ neg_cycle (edges s1) /\ lemmas_ok s1 evs /\ var_dists s' = var_dists s1 /\ confl s' = confl s1
  end.

Lemma good_no_neg_cycle u : ngood u -> ~ neg_cycle (edges u).
Proof. intro G. apply (exact_no_neg_cycle O _ _ _ (gd_exact _ _ _ _ _ G)). Qed.

Lemma clause_valid_vd u u' cl : var_dists u' = var_dists u -> clause_valid u cl -> clause_valid u' cl.
Proof.
  intros E (i & g & Hw & Hg). exists i, g. split; [| exact Hg]. eapply walk_mono; [| exact Hw].
  intros e He. apply (cl_edges_vd O D dm DS u u'); assumption.
Qed.

Section Assert.
Variable s : state.
Variable p : lit.
Variable q : list lit.
Hypothesis Hg : good s.
Hypothesis Hq : prop_q s = p :: q.
Let s1 := dequeue s.
Variables a b : nat.
Variable dw : D.
Variable gw : O.
Variables ct it : bool.
Hypothesis Hedge : lit_edge s p (a, b, gw).
Hypothesis Hwt : wt DS dw gw.
Hypothesis Hct : ct = true <-> xlt (xadd (dval s b a) gw) (Fin g0).
Hypothesis Hit : it = true <-> xlt (Fin gw) (dval s a b).
Let n := n_vars s.

Lemma ae_conflict : ct = true ->
  let '(s', r, evs) := assert_edge s1 p a b dw ct it in step_ok s1 s' r evs.
Proof.
  intro Ect. unfold assert_edge. rewrite Ect. destruct (deq_ab O D dm DS s p Hg a b gw Hedge) as (Ha & Hb & Hab).
  pose proof (proj1 Hct Ect) as Hc. pose proof (gd_n _ _ _ _ _ Hg) as G.
  destruct (dval s b a) as [g |] eqn:Eg; [| cbn in Hc; contradiction]. cbn in Hc.
  destruct (walk_total O D dm DS s1 b a [] (deq_edges_in O D dm DS s p q Hg Hq a b gw Hedge) (deq_preds O D dm DS s p q Hg Hq)
              (ex_diag _ _ _ _ (gd_exact _ _ _ _ _ G)) Hb Ha) as (L & g' & Hwk & Hwalk & Hd & HL).
  { change (dval s1 b a) with (dval s b a). rewrite Eg. discriminate. }
  change (dval s1 b a) with (dval s b a) in Hd. rewrite Eg in Hd. injection Hd as <-.
  unfold walk_or_fault. rewrite Hwk. cbn [app step_ok].
  assert (Vp : value s1 (lnot p) = LF).
  { pose proof (deq_value O D dm DS s p q Hg Hq) as V. change (value s1 (lnot p)) with (value s (lnot p)).
    unfold value, lnot in *. cbn [fst snd]. destruct (value_var s (fst p)), (snd p); cbn in *; congruence. }
  assert (Val : clause_valid s1 (L ++ [lnot p])).
  { exists b, (g +o gw). split; [| og O].
    eapply walk_snoc.
    - eapply walk_mono; [| exact Hwalk]. intros e He. eapply cl_edges_mono; [| exact He]. apply incl_appl, incl_refl.
    - exists (lnot p). split; [apply in_or_app; right; left; reflexivity |].
      replace (lnot (lnot p)) with p by (destruct p as [v [|]]; reflexivity). exact Hedge. }
  split; [reflexivity |]. split.
  { intros l Hin. apply in_app_or in Hin. destruct Hin as [Hin | [<- | []]]; [apply HL; exact Hin | exact Vp]. }
  split; [exact Val |]. split; [| reflexivity].
  exists a, (gw +o g). split; [| og O].
  eapply w_cons.
  - apply (deq_edges_ab O D dm DS s p q Hg Hq a b gw Hedge). right. reflexivity.
  - eapply walk_mono; [| apply (ex_sound _ _ _ _ (gd_exact _ _ _ _ _ G) b a g Hb Ha Eg)].
    intros e He. apply (deq_edges_ab O D dm DS s p q Hg Hq a b gw Hedge). left. exact He.
Qed.

Lemma ae_nc : ct = false -> xle (Fin g0) (xadd (dval s b a) gw).
Proof. intro E. destruct (xlt_or_le O (xadd (dval s b a) gw) (Fin g0)) as [L | L]; [apply Hct in L; congruence | exact L]. Qed.

Lemma ae_redundant : ct = false -> it = false ->
  let '(s', r, evs) := assert_edge s1 p a b dw ct it in step_ok s1 s' r evs.
Proof.
  intros Ect Eit. unfold assert_edge. rewrite Ect, Eit. cbn [step_ok].
  assert (Hred : xle (dval s a b) (Fin gw)).
  { destruct (xlt_or_le O (Fin gw) (dval s a b)) as [L | L]; [apply Hit in L; congruence | exact L]. }
  pose proof (deq_redundant O D dm DS s p q Hg Hq a b gw Hedge (ae_nc Ect) Hred) as G1. fold s1 in G1.
  split; [exact G1 |]. split; [apply good_no_neg_cycle; apply (gd_n _ _ _ _ _ G1) |]. split; [intros ? ? [] | split; reflexivity].
Qed.

Lemma ae_improve : ct = false -> it = true ->
  let '(s', r, evs) := assert_edge s1 p a b dw ct it in fault s' = 0 -> step_ok s1 s' r evs.
Proof.
  intros Ect Eit. unfold assert_edge. rewrite Ect, Eit. cbv zeta.
  set (s1' := set_constr D s1 (a, b) (fst p)). rewrite pe_unfold.
  destruct (deq_ab O D dm DS s p Hg a b gw Hedge) as (Ha & Hb & Hab). pose proof (gd_n _ _ _ _ _ Hg) as G.
  pose proof G as [Gf Gsh Gt Gs Gl Gx Gp Gd Gq].
  pose proof (ae_nc Ect) as Hnc. pose proof (proj1 Hit Eit) as Himp.
  destruct (deq_static O D dm DS s p q Hg Hq) as (S1 & S2 & S3 & S4 & S5 & S6 & S7). fold s1 in S1, S2, S3, S4, S5, S6, S7.
  assert (Hsh' : shape_ok O D dm DS s1') by (destruct Gsh as [A1 A2 A3 A4 A5]; constructor; assumption).
  assert (HX' : exact (n_vars s1') (edges s) (dval s1')) by exact Gx.
  destruct (fold_left (step3 D dm) (snd (sc2 D dm s1' a b dw)) (s2 D dm s1' a b dw, [])) as [u evs] eqn:E3.
  intro Fu.
  assert (F2 : fault (s2 D dm s1' a b dw) = 0).
  { change (s2 D dm s1' a b dw) with (fst (s2 D dm s1' a b dw, @nil event)). apply (step3_fold_fault D dm (snd (sc2 D dm s1' a b dw))). rewrite E3. exact Fu. }
  destruct (phases_spec O D dm DS s1' a b dw gw (edges s) Hsh' Ha Hb Hab Hwt HX' Hnc Himp F2) as (R & DC & Sh2 & X2 & Ly2 & Csym & Cfr).
  set (t := s2 D dm s1' a b dw) in *.
  destruct R as (Rn & Rvd & Rcs & Ras & Rq & Rtr & Rce & Rcf & Rll & Rtl).
  change (n_vars s1') with (n_vars s) in *. change (var_dists s1') with (var_dists s) in *. change (dist_constrs s1') with (dist_constrs s) in *.
  change (assigns s1') with (assigns s) in *. change (prop_q s1') with (prop_q s1) in *. change (trail s1') with (trail s) in *.
  change (confl s1') with (confl s) in *.
  (* processed literals of t are those of s1 *)
  assert (Pts : forall v, proc t v <-> proc s1 v).
  { intro v. unfold DlSpec_Proofs.proc, DlSpec_Proofs.in_q, value_var. rewrite Rvd, Ras, Rq. reflexivity. }
  assert (TL : forall v, true_lit t v = true_lit s v) by (intro v; unfold DlSpec_Proofs.true_lit, value_var; rewrite Ras; reflexivity).
  assert (LE : forall l e, lit_edge t l e <-> lit_edge s l e).
  { intros l e. split; apply lit_edge_vd; congruence. }
  assert (EE : forall e, edges t e <-> add_edge (edges s) a b gw e).
  { intro e. rewrite <- (deq_edges_ab O D dm DS s p q Hg Hq a b gw Hedge e). symmetry. apply edges_same; assumption. }
  assert (DCt : dist_constr t = pm_set (a, b) (fst p) (dist_constr s)) by (rewrite DC; reflexivity).
  assert (Hc0 : exists c, vd_find (fst p) (var_dists s) = Some c) by (destruct Hedge as (c & _ & Hc & _); exists c; exact Hc).
  destruct Hc0 as [c0 Hc0].
  assert (Pp : proc s1 (fst p)) by (apply (deq_proc_new O D dm DS s p q Hg Hq c0 Hc0)).
  assert (CEab : cedge t a b gw).
  { exists (fst p). split; [rewrite DCt; rewrite (pm_find_set _ _ _ _ (proj1 Gd)); rewrite key_eqb_refl; reflexivity |].
    split; [apply Pts; exact Pp |]. rewrite TL, (deq_true_lit O D dm DS s p q Hg Hq). apply LE. exact Hedge. }
  assert (CEold : forall pp j g, (pp, j) <> (a, b) -> cedge s pp j g -> cedge t pp j g).
  { intros pp j g Hne (c & H1 & H2 & H3). exists c. split.
    - rewrite DCt, (pm_find_set _ _ _ _ (proj1 Gd)). destruct (key_eqb_spec (pp, j) (a, b)); [contradiction | exact H1].
    - split; [apply Pts; apply (deq_proc_old D s p q Hq); exact H2 | rewrite TL; apply LE; exact H3]. }
  assert (Gt' : ngood t).
  { constructor.
    - exact F2.
    - exact Sh2.
    - destruct Gt as [A1 A2 A3 A4 A5]. constructor; rewrite ?Rvd, ?Rcs, ?Rn, ?Ras; assumption.
    - apply (sat_ok_same D s1 t); [intro v; unfold value_var; rewrite Ras; reflexivity | exact Rq | rewrite Rtr; reflexivity | | exact S4].
      rewrite Rll. apply (set_constr_rest D s1 (a, b) (fst p)).
    - apply Ly2. apply set_constr_layers. exact S3.
    - rewrite Rn. eapply exact_ext; [intro e; symmetry; apply EE | exact X2].
    - intros i j Hi Hj Hfin. rewrite Rn in Hi, Hj. unfold tree.
      apply (phases_tree O D dm DS s1' a b dw gw (edges s) Hsh' Ha Hb Hab Hwt HX' Hnc Himp F2 (cedge s) (cedge t)); try assumption;
        try (intros pp jj g; apply cedge_edge); try (intros i' j' Hi' Hj' Hf'; apply (Gp i' j' Hi' Hj' Hf')).
    - split; [rewrite DCt; apply pm_set_sorted; exact (proj1 Gd) |].
      intros k c Hk. rewrite DCt, (pm_find_set _ _ _ _ (proj1 Gd)) in Hk.
      destruct (key_eqb_spec k (a, b)) as [-> | Hne].
      + injection Hk as <-. split; [apply Pts; exact Pp |]. exists gw. cbn [fst snd].
        rewrite TL, (deq_true_lit O D dm DS s p q Hg Hq). apply LE. exact Hedge.
      + destruct (proj2 Gd k c Hk) as [P [g E]]. split; [apply Pts; apply (deq_proc_old D s p q Hq); exact P |].
        exists g. rewrite TL. apply LE. exact E.
    - intros v c Hc Hv. rewrite Rvd in Hc. unfold value_var in Hv. rewrite Ras in Hv.
      destruct (S7 v c Hc Hv) as [P | Qq]; [left; apply Pts; exact P | right; unfold DlSpec_Proofs.in_q in *; rewrite Rq; exact Qq]. }
  (* coverage of the newly decided constraints *)
  assert (Cov : forall v c, vd_find v (var_dists t) = Some c -> value_var t v = LU -> decided D dm t c -> In (c_from c, c_to c) (snd (sc2 D dm s1' a b dw))).
  { intros v c Hc Hv Dd. rewrite Rvd in Hc. unfold value_var in Hv. rewrite Ras in Hv.
    pose proof (gd_prop _ _ _ _ _ Hg v c Hc Hv) as ND.
    destruct (in_dec key_eq_dec (c_from c, c_to c) (snd (sc2 D dm s1' a b dw))) as [Hin | Hnin]; [exact Hin | exfalso].
    assert (Hnin2 : ~ In (c_to c, c_from c) (snd (sc2 D dm s1' a b dw))).
    { intro H. apply Hnin. apply Csym. exact H. }
    destruct (Cfr _ _ Hnin) as [E1 _]. destruct (Cfr _ _ Hnin2) as [E2 _].
    fold t in E1, E2. apply ND. unfold DlSpec_Proofs.decided in *.
    change (Dl.dget D dm s1' (c_from c) (c_to c)) with (dget s (c_from c) (c_to c)) in E1.
    change (Dl.dget D dm s1' (c_to c) (c_from c)) with (dget s (c_to c) (c_from c)) in E2.
    rewrite <- E1, <- E2. exact Dd. }
  pose proof (step3_prop_ok O D dm DS t (snd (sc2 D dm s1' a b dw)) Gt' Cov) as S3'.
  rewrite E3 in S3'. destruct (S3' Fu) as (Gu & Gru & Oku).
  cbn [step_ok]. split; [exact Gu |]. split.
  { intros (i & g & Hw & Hlt). apply (good_no_neg_cycle t Gt'). exists i, g. split; [| exact Hlt].
    eapply walk_mono; [| exact Hw]. intros e He. apply EE. apply (deq_edges_ab O D dm DS s p q Hg Hq a b gw Hedge). exact He. }
  split.
  { intros k cl Hin. destruct (Oku k cl Hin) as [Ek (w & Gw & Nw & Lw)]. split; [exact Ek |].
    assert (Evd : var_dists w = var_dists s1) by (rewrite (gr_vd _ _ _ Gw); exact Rvd).
    split; [apply (clause_valid_vd w s1 cl); [congruence | apply Lw] |]. exists w. auto. }
  split; [rewrite (gr_vd _ _ _ Gru); exact Rvd | rewrite (gr_cf _ _ _ Gru); exact Rcf].
Qed.

End Assert.

(* the three cases together *)
Lemma ae_spec s p q a b dw gw ct it :
  good s -> prop_q s = p :: q -> lit_edge s p (a, b, gw) -> wt DS dw gw ->
  (ct = true <-> xlt (xadd (dval s b a) gw) (Fin g0)) -> (it = true <-> xlt (Fin gw) (dval s a b)) ->
  let '(s', r, evs) := assert_edge (dequeue s) p a b dw ct it in fault s' = 0 -> step_ok (dequeue s) s' r evs.
Proof.
  intros Hg Hq He Hwt Hct Hit. destruct ct; [| destruct it].
  - pose proof (ae_conflict s p q Hg Hq a b dw gw true it He Hct eq_refl) as R.
    destruct (assert_edge (dequeue s) p a b dw true it) as [[s2 r] evs]. intros _. exact R.
  - exact (ae_improve s p q Hg Hq a b dw gw false true He Hwt Hct Hit eq_refl eq_refl).
  - pose proof (ae_redundant s p q Hg Hq a b dw gw false false He Hct Hit eq_refl eq_refl) as R.
    destruct (assert_edge (dequeue s) p a b dw false false) as [[s2 r] evs]. intros _. exact R.
Qed.

Theorem propagate_lit_spec s p q : good s -> prop_q s = p :: q ->
  let '(s2, r, evs) := propagate_lit D dm (dequeue s) p in fault s2 = 0 -> step_ok (dequeue s) s2 r evs.
Proof.
  intros Hg Hq. set (s1 := dequeue s). pose proof (gd_n _ _ _ _ _ Hg) as G.
  destruct (vd_find (fst p) (var_dists s)) as [c |] eqn:Hc.
  2:{ (* a literal that is not a distance constraint *)
    unfold propagate_lit. change (var_dists s1) with (var_dists s). rewrite Hc. intros _. cbn [step_ok].
    destruct (deq_static O D dm DS s p q Hg Hq) as (S1 & S2 & S3 & S4 & S5 & S6 & S7). fold s1 in S1, S2, S3, S4, S5, S6, S7.
    assert (G1 : ngood s1).
    { apply (ngood_transfer O D dm DS s s1 G); try reflexivity; try assumption.
      - intros v Hp. split; [apply (deq_proc_old D s p q Hq); exact Hp | reflexivity].
      - intros v Hp. destruct (deq_proc_inv D s p q Hq v Hp) as [Hp' | ->]; [exact Hp' |].
        destruct Hp as ((c & Hc') & _). change (var_dists s1) with (var_dists s) in Hc'. congruence. }
    split; [constructor; [exact G1 | exact (gd_prop _ _ _ _ _ Hg)] |].
    split; [apply good_no_neg_cycle; exact G1 |]. split; [intros ? ? [] | split; reflexivity]. }
  destruct (tb_wf _ _ _ (gd_tables _ _ _ _ _ G) _ _ Hc) as (Hf & Ht & Hft & Hdw & Hv).
  destruct (ds_dwok _ _ _ DS _ Hdw) as [gd Hwt].
  pose proof (sh_mok _ _ _ _ _ (gd_shape _ _ _ _ _ G)) as MOK.
  pose proof (deq_value O D dm DS s p q Hg Hq) as Vp.
  destruct p as [v sg]. cbn [fst] in *. destruct sg.
  - (* the constraint is asserted:  from -d-> to *)
    assert (V1 : value s1 (v, true) = LT) by exact Vp.
    rewrite propagate_lit_eq. change (var_dists s1) with (var_dists s). cbn [fst]. rewrite Hc, V1.
    assert (He : lit_edge s (v, true) (c_from c, c_to c, gd)) by (exists c, gd; auto).
    assert (Hct : dltb dm (dget s1 (c_to c) (c_from c)) (dneg dm (c_dist c)) = true <-> xlt (xadd (dval s (c_to c) (c_from c)) gd) (Fin g0)).
    { change (dget s1 (c_to c) (c_from c)) with (dget s (c_to c) (c_from c)).
      rewrite (ds_lt_neg _ _ _ DS _ _ _ (MOK _ _) Hwt). fold (dval s (c_to c) (c_from c)).
      destruct (dval s (c_to c) (c_from c)); cbn; [split; intro; og O | tauto]. }
    assert (Hit : dltb dm (c_dist c) (dget s1 (c_from c) (c_to c)) = true <-> xlt (Fin gd) (dval s (c_from c) (c_to c))).
    { change (dget s1 (c_from c) (c_to c)) with (dget s (c_from c) (c_to c)). apply (ds_gt _ _ _ DS _ _ _ (MOK _ _) Hwt). }
    exact (ae_spec s (v, true) q (c_from c) (c_to c) (c_dist c) gd _ _ Hg Hq He Hwt Hct Hit).
  - (* the constraint is negated:  to -(-d-1)-> from *)
    assert (V1 : value s1 (v, true) = LF).
    { unfold value in *. cbn [fst snd] in *. change (value_var s1 v) with (value_var s v). destruct (value_var s v); congruence. }
    rewrite propagate_lit_eq. change (var_dists s1) with (var_dists s). cbn [fst]. rewrite Hc, V1.
    pose proof (ds_pred _ _ _ DS _ _ Hdw Hwt) as Hwt'.
    assert (He : lit_edge s (v, false) (c_to c, c_from c, gpred DS gd)) by (exists c, gd; auto).
    assert (Hct : dleb dm (dget s1 (c_from c) (c_to c)) (c_dist c) = true <-> xlt (xadd (dval s (c_from c) (c_to c)) (gpred DS gd)) (Fin g0)).
    { change (dget s1 (c_from c) (c_to c)) with (dget s (c_from c) (c_to c)).
      rewrite (ds_le _ _ _ DS _ _ _ (MOK _ _) Hwt). fold (dval s (c_from c) (c_to c)).
      pose proof (ds_pred_neg _ _ _ DS gd) as PN.
      destruct (dval s (c_from c) (c_to c)) as [g |] eqn:Eg; cbn; [| tauto]. split; intro H.
      - og O.
      - destruct (g_lt_le_dec O gd g) as [L | L]; [| exact L]. exfalso.
        pose proof (ds_pred_disc _ _ _ DS (dget s (c_from c) (c_to c)) g (c_dist c) gd (MOK _ _) Eg Hdw Hwt L) as Dc. og O. }
    assert (Hit : dleb dm (dneg dm (c_dist c)) (dget s1 (c_to c) (c_from c)) = true <-> xlt (Fin (gpred DS gd)) (dval s (c_to c) (c_from c))).
    { change (dget s1 (c_to c) (c_from c)) with (dget s (c_to c) (c_from c)). apply (ds_ge_neg _ _ _ DS _ _ _ (MOK _ _) Hwt). }
    exact (ae_spec s (v, false) q (c_to c) (c_from c) (dpred dm (c_dist c)) (gpred DS gd) _ _ Hg Hq He Hwt' Hct Hit).
Qed.

End PropOne.
