(* C03: (i) soundness of check_justified; (ii) the planner's integer position ordering forbids causal cycles. *)
From Coq Require Import List NArith ZArith Bool Lia.
From ORatio Require Import plan.Ast plan.Sem plan.Check plan.Justify proofs.Check_Proofs.
Import ListNotations.

Lemma path_rank_Z : forall (E : list (ident * ident)) (rank : ident -> Z),
  (forall x y, In (x, y) E -> (rank y < rank x)%Z) -> forall x y, path E x y -> (rank y < rank x)%Z.
Proof.
  intros E rank H x y P. induction P as [x y Hxy | x y z Hxy P IH].
  - apply H. exact Hxy.
  - specialize (H x y Hxy). lia.
Qed.

Lemma rank_no_cycle_Z : forall (E : list (ident * ident)) (rank : ident -> Z),
  (forall x y, In (x, y) E -> (rank y < rank x)%Z) -> forall x, ~ path E x x.
Proof.
  intros E rank H x P. pose proof (path_rank_Z E rank H x x P). lia.
Qed.

Section Sound.
  Variable prog : program.
  Variable sol : solution.

  (* the certificate, read through assoc, is a rank in the sense of rank_no_cycle_Z *)
  Lemma rank_okb_acyclic : forall E, rank_okb sol E = true -> forall x, ~ path E x x.
  Proof.
    intros E H. unfold rank_okb in H. rewrite forallb_forall in H.
    apply rank_no_cycle_Z with (rank := fun x => match assoc x (s_rank sol) with Some r => Z.of_N r | None => 0%Z end).
    intros x y Hxy. specialize (H (x, y) Hxy). simpl in H.
    destruct (assoc x (s_rank sol)) as [rx|]; [|discriminate].
    destruct (assoc y (s_rank sol)) as [ry|]; [|discriminate].
    apply N.ltb_lt in H. lia.
  Qed.

  Lemma unified_okb_sound : forall ar, unified_okb prog sol ar = true -> unified_ok prog sol ar.
  Proof.
    intros ar H. unfold unified_okb in H.
    destruct (a_target ar) as [t|] eqn:Et; [|discriminate].
    destruct (find_atom sol t) as [tr|] eqn:Etr; [|discriminate].
    destruct (rule_chain (pfuel prog) prog (a_pred ar)) as [ch|] eqn:Ech; [|discriminate].
    destruct (find_pred prog (a_pred ar)) as [pd|] eqn:Epd; [|discriminate].
    apply andb_true_iff in H as [H Hargs]. apply andb_true_iff in H as [H Hne]. apply andb_true_iff in H as [Hact Hp].
    unfold unified_ok. exists t, tr, (pfuel prog), ch, pd. split; [exact Et|]. split; [exact Etr|].
    split; [unfold is_active in Hact; destruct (a_state tr); try discriminate; reflexivity|].
    split; [apply N.eqb_eq; exact Hp|].
    split; [intro Heq; subst t; rewrite N.eqb_refl in Hne; discriminate|].
    split; [exact Ech|]. split; [exact Epd|].
    intros f Hf. rewrite forallb_forall in Hargs. apply veq_opt_sound. exact (Hargs f Hf).
  Qed.

  (* C03: soundness of the checker, for every program and every solution *)
  Theorem check_justified_sound : check_justified prog sol = true -> justified prog sol.
  Proof.
    intros H. unfold check_justified in H. apply andb_true_iff in H as [H Hac]. apply andb_true_iff in H as [Hg Hu].
    split; [|split].
    - intros ar Hin Hact Hfact. unfold check_goals in Hg. rewrite forallb_forall in Hg. specialize (Hg ar Hin).
      unfold is_active in Hg. rewrite Hact, Hfact in Hg. simpl in Hg. apply goal_rules_okb_sound. exact Hg.
    - intros ar Hin Hun. unfold check_unified in Hu. rewrite forallb_forall in Hu. specialize (Hu ar Hin).
      unfold is_unified in Hu. rewrite Hun in Hu. apply unified_okb_sound. exact Hu.
    - apply rank_okb_acyclic. exact Hac.
  Qed.
End Sound.

Local Open Scope Z_scope.

Definition jactive (fs : list jflaw) (x : ident) : bool :=
  match find (fun f => N.eqb (jf_id f) x) fs with Some f => jf_active f | None => true end.

Definition jrank (fs : list jflaw) (pos : ident -> Z) (x : ident) : Z :=
  2 * pos x + (if jactive fs x then 0 else 1).

Lemma jactive_of : forall fs f, ids_unique fs -> In f fs -> jactive fs (jf_id f) = jf_active f.
Proof.
  intros fs f Hu Hin. unfold jactive.
  destruct (find (fun g => N.eqb (jf_id g) (jf_id f)) fs) as [g|] eqn:E.
  - destruct (find_key jf_id _ _ _ E) as [Hg He]. rewrite (Hu g f Hg Hin He). reflexivity.
  - exfalso. pose proof (find_none _ _ E f Hin) as Hn. simpl in Hn. rewrite N.eqb_refl in Hn. discriminate.
Qed.

Theorem positions_forbid_cycles : forall fs pos,
  ids_unique fs -> unif_ok fs ->
  (forall c, In c (plan_constraints fs) -> sat_dc pos c) ->
  jacyclic fs.
Proof.
  intros fs pos Hu Hok Hsat. unfold jacyclic. apply rank_no_cycle_Z with (rank := jrank fs pos).
  intros x y Hxy. unfold jedges in Hxy. apply in_flat_map in Hxy as [f [Hf Hxy]].
  assert (Hc : forall c, In c (init_constraints f) \/ In c (link_constraints f) -> sat_dc pos c).
  { intros c Hc. apply Hsat. apply in_flat_map. exists f. split; [exact Hf | apply in_or_app; exact Hc]. }
  unfold jrank, sat_dc in *. apply in_app_or in Hxy as [Hxy | Hxy].
  - (* cause -> introduced flaw: strict *)
    apply in_map_iff in Hxy as [c [Heq Hin]]. injection Heq as <- <-.
    assert (Hs : pos (jf_id f) - pos c <= -1).
    { apply (Hc (mkDc c (jf_id f) (-1))). left. right. exact (in_map (fun c => mkDc c (jf_id f) (-1)) _ _ Hin). }
    destruct (jactive fs (jf_id f)); destruct (jactive fs c); lia.
  - (* unifier -> target: weak, from a non active to an active atom *)
    unfold link_constraints in Hc. destruct (jf_unified_with f) as [t|] eqn:Et; [|destruct Hxy].
    destruct Hxy as [Heq | []]. injection Heq as <- <-.
    destruct (Hok f t Hf Et) as [Hna [g [Hg [<- Hga]]]].
    assert (Hs : pos (jf_id g) - pos (jf_id f) <= 0).
    { apply (Hc (mkDc (jf_id f) (jf_id g) 0)). right. left. reflexivity. }
    rewrite (jactive_of fs f Hu Hf), Hna, (jactive_of fs g Hu Hg), Hga. lia.
Qed.

(* the hypotheses are satisfiable by a non trivial plan: goal 1 gave rise to goal 2, goal 3 is unified with 2 *)
Example positions_example :
  let fs := [mkFlaw 1%N [] true None; mkFlaw 2%N [1%N] true None; mkFlaw 3%N [] false (Some 2%N)] in
  let pos := fun x : ident => if N.eqb x 1%N then 1 else if N.eqb x 3%N then 1 else 0 in
  ids_unique fs /\ unif_ok fs /\ (forall c, In c (plan_constraints fs) -> sat_dc pos c) /\ jedges fs = [(1%N, 2%N); (3%N, 2%N)].
Proof.
  cbv zeta. split; [|split; [|split]].
  - intros f g Hf Hg He. simpl in Hf, Hg.
    destruct Hf as [<- | [<- | [<- | []]]]; destruct Hg as [<- | [<- | [<- | []]]]; simpl in He; try discriminate; reflexivity.
  - intros f t Hf Ht. simpl in Hf. destruct Hf as [<- | [<- | [<- | []]]]; simpl in Ht; try discriminate.
    inversion Ht; subst. split; [reflexivity|]. exists (mkFlaw 2%N [1%N] true None). simpl. auto.
  - intros c Hc. simpl in Hc. unfold sat_dc.
    repeat (destruct Hc as [<- | Hc]; [simpl; lia|]). destruct Hc.
  - reflexivity.
Qed.

(* without the ordering of new_causal_link a unification with an ancestor (a causal cycle) would be possible:
   goal 1 gave rise to goal 2, and 2 is unified with 1 *)
Example cycle_without_positions :
  let fs := [mkFlaw 1%N [] true None; mkFlaw 2%N [1%N] false (Some 1%N)] in
  path (jedges fs) 1%N 1%N /\ ~ exists pos, forall c, In c (plan_constraints fs) -> sat_dc pos c.
Proof.
  cbv zeta. split.
  - apply path_step with (y := 2%N); [simpl; auto | apply path_one; simpl; auto].
  - intros [pos H].
    assert (H1 := H (mkDc 1%N 2%N (-1))). assert (H2 := H (mkDc 2%N 1%N 0)).
    unfold sat_dc in H1, H2. simpl in H1, H2.
    assert (pos 2%N - pos 1%N <= -1) by (apply H1; auto 10).
    assert (pos 1%N - pos 2%N <= 0) by (apply H2; auto 10). lia.
Qed.
