(* The printers of smt/arith (base/ArithStr.v) determine the values they print: to_string(rational) on canonical
   rationals (infinities included), to_string(inf_rational) on canonical values whose infinitesimal part is zero when the
   rational part is infinite (otherwise REFUTED: the code prints every such value as "+inf" / "-inf"), to_string(lin) on
   expressions with canonical coefficients and known term (sortedness, finiteness and zero-freeness are not even needed). These are the
   facts the sharing keys of lra_theory rely on. Method: a printed text is cut at the end of its longest prefix inside a
   character class (DecStr_Proofs.span_unique), space-separated texts are cut at the spaces (join_inj). *)
From Coq Require Import ZArith NArith List Bool String Ascii Lia.
From ORatio Require Import gen.Gen_arith base.RatSpec base.Lin base.DecStr base.ArithStr proofs.DecStr_Proofs proofs.Rat_Proofs.
Import ListNotations.
Local Open Scope string_scope.
Local Open Scope Z_scope.

(* the characters a printed rational can contain: digits - / + i n f (no space, no x, no *, no byte of epsilon) *)
Definition is_ratc (a : ascii) : bool :=
  is_num a || Ascii.eqb a "/" || Ascii.eqb a "+" || Ascii.eqb a "i" || Ascii.eqb a "n" || Ascii.eqb a "f".

Lemma num_ratc s : allc is_num s = true -> allc is_ratc s = true.
Proof. apply allc_impl. intros a H. unfold is_ratc. now rewrite H. Qed.

(* the text cut after its longest integer-like prefix *)
Definition rparts (r : rat) : string * string :=
  if Z.eqb (rat_den r) 0 then (if Z.gtb (rat_num r) 0 then ("", "+inf") else ("-", "inf"))
  else if Z.eqb (rat_den r) 1 then (str_Z (rat_num r), "")
  else (str_Z (rat_num r), "/" ++ str_Z (rat_den r)).

Lemma rparts_cut r :
  rat_to_string r = fst (rparts r) ++ snd (rparts r) /\ allc is_num (fst (rparts r)) = true /\ nhead is_num (snd (rparts r)).
Proof.
  unfold rat_to_string, rparts. destruct (Z.eqb (rat_den r) 0).
  - destruct (Z.gtb (rat_num r) 0); cbn; auto.
  - destruct (Z.eqb (rat_den r) 1); cbn [fst snd].
    + rewrite app_nil_r_s. split; [reflexivity|]. split; [apply str_Z_num|exact I].
    + split; [reflexivity|]. split; [apply str_Z_num|reflexivity].
Qed.

Lemma rat_str_ratc r : allc is_ratc (rat_to_string r) = true.
Proof.
  unfold rat_to_string. destruct (Z.eqb (rat_den r) 0); [destruct (Z.gtb (rat_num r) 0); reflexivity|].
  destruct (Z.eqb (rat_den r) 1); [apply num_ratc, str_Z_num|].
  rewrite !allc_app. rewrite (num_ratc _ (str_Z_num _)), (num_ratc _ (str_Z_num _)). reflexivity.
Qed.

Lemma rat_str_nonempty r : rat_to_string r <> "".
Proof.
  unfold rat_to_string. destruct (Z.eqb (rat_den r) 0); [destruct (Z.gtb (rat_num r) 0); discriminate|].
  destruct (Z.eqb (rat_den r) 1); [apply str_Z_nonempty|].
  pose proof (str_Z_nonempty (rat_num r)). destruct (str_Z (rat_num r)); [congruence|discriminate].
Qed.

Lemma rat_str_not_minus r : rat_to_string r <> "-".
Proof.
  unfold rat_to_string. destruct (Z.eqb (rat_den r) 0); [destruct (Z.gtb (rat_num r) 0); discriminate|].
  destruct (Z.eqb (rat_den r) 1); [apply str_Z_not_minus|].
  pose proof (str_Z_nonempty (rat_num r)) as N. destruct (str_Z (rat_num r)) as [|a [|b t]]; [congruence|discriminate|discriminate].
Qed.

(* a negative rational is printed with a leading '-' *)
Lemma rat_str_negative r : rat_num r < 0 -> exists t, rat_to_string r = String "-" t.
Proof.
  intros H. unfold rat_to_string. destruct (rat_num r) as [|p|p] eqn:E; try lia.
  destruct (Z.eqb (rat_den r) 0); [cbn; eauto|]. destruct (Z.eqb (rat_den r) 1); cbn; eauto.
Qed.

Theorem rat_to_string_inj r r' : wf r -> wf r' -> rat_to_string r = rat_to_string r' -> r = r'.
Proof.
  intros Hr Hr' E.
  destruct (rparts_cut r) as (E1 & A1 & N1). destruct (rparts_cut r') as (E2 & A2 & N2).
  rewrite E1, E2 in E. destruct (span_unique is_num _ _ _ _ A1 A2 N1 N2 E) as [P Q]. clear E E1 E2 A1 A2 N1 N2.
  destruct r as [n d], r' as [n' d']. unfold rparts in P, Q; cbn [rat_num rat_den] in *.
  destruct (Z.eqb_spec d 0) as [D0|D0], (Z.eqb_spec d' 0) as [D0'|D0'].
  - subst. pose proof (wf_inf _ Hr eq_refl) as I1. pose proof (wf_inf _ Hr' eq_refl) as I2. cbn in I1, I2.
    destruct I1 as [->| ->], I2 as [->| ->]; cbn in P; try discriminate P; reflexivity.
  - destruct (Z.gtb n 0), (Z.eqb d' 1); cbn in Q; discriminate Q.
  - destruct (Z.gtb n' 0), (Z.eqb d 1); cbn in Q; discriminate Q.
  - destruct (Z.eqb_spec d 1) as [D1|D1], (Z.eqb_spec d' 1) as [D1'|D1']; cbn [fst snd] in *; try discriminate Q.
    + apply str_Z_inj in P. now subst.
    + apply str_Z_inj in P. cbn in Q. inversion Q as [Q']. apply str_Z_inj in Q'. now subst.
Qed.

Example rat_to_string_examples :
  rat_to_string (mk_rat (-7) 12) = "-7/12" /\ rat_to_string (mk_rat 3 1) = "3" /\ rat_to_string (mk_rat 1 0) = "+inf" /\
  rat_to_string (mk_rat (-1) 0) = "-inf" /\ wf (mk_rat (-7) 12).
Proof. repeat split. left; cbn; split; [lia|reflexivity]. Qed.

Lemma is_empty_rat_str r : is_empty (rat_to_string r) = false.
Proof. pose proof (rat_str_nonempty r). destruct (rat_to_string r); [congruence|reflexivity]. Qed.

(* The printers choose the text of a coefficient by the cascade `c == 1 ? A : c == -1 ? B : O`. Such a text determines its
   argument when the three branches have disjoint images and each of them is injective. *)
Lemma cascade_inj {T A : Type} (coef : T -> rat) (fa fb fo : T -> A) :
  let F t := if rat_eq_rat (coef t) rat_ONE then fa t else if rat_eq_rat (coef t) (rat_neg rat_ONE) then fb t else fo t in
  (forall t t', fa t <> fb t') -> (forall t t', fa t <> fo t') -> (forall t t', fb t <> fo t') ->
  forall t t',
  (coef t = coef t' -> fa t = fa t' -> t = t') -> (coef t = coef t' -> fb t = fb t' -> t = t') -> (fo t = fo t' -> t = t') ->
  F t = F t' -> t = t'.
Proof.
  intros F AB AO BO t t' IA IB IO. unfold F.
  destruct (rat_eq_rat (coef t) rat_ONE) eqn:E1; [apply eq_rat_true in E1|];
    (destruct (rat_eq_rat (coef t') rat_ONE) eqn:E1'; [apply eq_rat_true in E1'|]).
  - apply IA. congruence.
  - destruct (rat_eq_rat (coef t') (rat_neg rat_ONE)); intros H; [elim (AB _ _ H)|elim (AO _ _ H)].
  - destruct (rat_eq_rat (coef t) (rat_neg rat_ONE)); intros H; symmetry in H; [elim (AB _ _ H)|elim (AO _ _ H)].
  - destruct (rat_eq_rat (coef t) (rat_neg rat_ONE)) eqn:E2; [apply eq_rat_true in E2|];
      (destruct (rat_eq_rat (coef t') (rat_neg rat_ONE)) eqn:E2'; [apply eq_rat_true in E2'|]).
    + apply IB. congruence.
    + intros H. elim (BO _ _ H).
    + intros H. elim (BO _ _ (eq_sym H)).
    + exact IO.
Qed.

(* btext i: what stands before ε when the rational part is zero and not printed. ctext i: what follows "<rat> " when it is
   printed, as a pair (longest rational-like prefix, rest), the convention of rparts and iparts. *)
Definition btext (i : rat) : string :=
  if rat_eq_rat i rat_ONE then "" else if rat_eq_rat i (rat_neg rat_ONE) then "-" else rat_to_string i.
Definition ctext (i : rat) : string * string :=
  if rat_eq_rat i rat_ONE then ("+", " " ++ eps)
  else if rat_eq_rat i (rat_neg rat_ONE) then ("-", " " ++ eps)
  else if is_negative_rat i then (rat_to_string i, eps)
  else ("+" ++ rat_to_string i, eps).

Lemma btext_ratc i : allc is_ratc (btext i) = true.
Proof. unfold btext. destruct (rat_eq_rat i rat_ONE); [reflexivity|]. destruct (rat_eq_rat i (rat_neg rat_ONE)); [reflexivity|apply rat_str_ratc]. Qed.

Lemma btext_inj i i' : wf i -> wf i' -> btext i = btext i' -> i = i'.
Proof.
  intros Hi Hi'. unfold btext. apply (cascade_inj (fun c => c) (fun _ => "") (fun _ => "-") rat_to_string).
  - discriminate.
  - intros _ c H. exact (rat_str_nonempty c (eq_sym H)).
  - intros _ c H. exact (rat_str_not_minus c (eq_sym H)).
  - auto.
  - auto.
  - now apply rat_to_string_inj.
Qed.

Lemma ctext_cut i : allc is_ratc (fst (ctext i)) = true /\ nhead is_ratc (snd (ctext i)).
Proof.
  unfold ctext. destruct (rat_eq_rat i rat_ONE); [split; reflexivity|]. destruct (rat_eq_rat i (rat_neg rat_ONE)); [split; reflexivity|].
  destruct (is_negative_rat i); cbn [fst snd]; (split; [|reflexivity]); [apply rat_str_ratc|].
  change (is_ratc "+" && allc is_ratc (rat_to_string i) = true). now rewrite rat_str_ratc.
Qed.

Lemma ctext_inj i i' : wf i -> wf i' -> ctext i = ctext i' -> i = i'.
Proof.
  intros Hi Hi'. unfold ctext.
  apply (cascade_inj (fun c => c) (fun _ => ("+", " " ++ eps)) (fun _ => ("-", " " ++ eps))
           (fun c => if is_negative_rat c then (rat_to_string c, eps) else ("+" ++ rat_to_string c, eps))).
  - discriminate.
  - intros _ c. destruct (is_negative_rat c); discriminate.
  - intros _ c. destruct (is_negative_rat c); discriminate.
  - auto.
  - auto.
  - (* a negative coefficient is printed with its own '-', the others get a '+' *)
    assert (M : forall c c', is_negative_rat c = true -> rat_to_string c <> "+" ++ rat_to_string c').
    { intros c c' N H. apply Z.ltb_lt in N. destruct (rat_str_negative c N) as [t Et]. rewrite Et in H. discriminate H. }
    destruct (is_negative_rat i) eqn:N, (is_negative_rat i') eqn:N'; intros H; inversion H as [H'].
    + now apply rat_to_string_inj.
    + elim (M _ _ N H').
    + elim (M _ _ N' (eq_sym H')).
    + now apply rat_to_string_inj.
Qed.

(* the text cut after its longest rational-like prefix: a bare rational, a rational followed by " <sign/coefficient>ε", or a
   coefficient followed by ε *)
Definition iparts (x : irat) : string * string :=
  if is_infinite_rat (irat_rat x) || rat_eq_rat (irat_inf x) rat_ZERO then (rat_to_string (irat_rat x), "")
  else if rat_ne_rat (irat_rat x) rat_ZERO then (rat_to_string (irat_rat x), " " ++ fst (ctext (irat_inf x)) ++ snd (ctext (irat_inf x)))
  else (btext (irat_inf x), eps).

Lemma iparts_cut x :
  irat_to_string x = fst (iparts x) ++ snd (iparts x) /\ allc is_ratc (fst (iparts x)) = true /\ nhead is_ratc (snd (iparts x)).
Proof.
  unfold irat_to_string, iparts. cbv zeta.
  destruct (is_infinite_rat (irat_rat x) || rat_eq_rat (irat_inf x) rat_ZERO); cbn [fst snd].
  { rewrite app_nil_r_s. split; [reflexivity|]. split; [apply rat_str_ratc|exact I]. }
  destruct (rat_ne_rat (irat_rat x) rat_ZERO); cbn [fst snd].
  - rewrite is_empty_rat_str. split; [|split; [apply rat_str_ratc|reflexivity]]. unfold ctext.
    destruct (rat_eq_rat (irat_inf x) rat_ONE); [reflexivity|].
    destruct (rat_eq_rat (irat_inf x) (rat_neg rat_ONE)); [reflexivity|].
    destruct (is_negative_rat (irat_inf x)); cbn [fst snd]; [reflexivity|].
    now rewrite (app_assoc_s "+" (rat_to_string (irat_inf x)) eps).
  - split; [|split; [apply btext_ratc|reflexivity]]. unfold btext. cbn [is_empty append].
    destruct (rat_eq_rat (irat_inf x) rat_ONE); [reflexivity|].
    destruct (rat_eq_rat (irat_inf x) (rat_neg rat_ONE)); [reflexivity|].
    destruct (is_negative_rat (irat_inf x)); reflexivity.
Qed.

Theorem irat_to_string_inj x x' : icanon x -> icanon x' -> irat_to_string x = irat_to_string x' -> x = x'.
Proof.
  intros [[Wr Wi] C] [[Wr' Wi'] C'] E.
  destruct (iparts_cut x) as (E1 & A1 & N1), (iparts_cut x') as (E2 & A2 & N2). rewrite E1, E2 in E.
  destruct (span_unique is_ratc _ _ _ _ A1 A2 N1 N2 E) as [P Q]. clear E E1 E2 A1 A2 N1 N2.
  destruct x as [r i], x' as [r' i']; unfold iparts in P, Q; cbn [irat_rat irat_inf] in *.
  assert (A : forall r i, (rat_den r = 0 -> i = rat_ZERO) -> is_infinite_rat r || rat_eq_rat i rat_ZERO = true -> i = rat_ZERO).
  { intros r0 i0 C0 H. apply orb_true_iff in H as [H|H]; [apply C0; now apply Z.eqb_eq in H|now apply eq_rat_true]. }
  destruct (is_infinite_rat r || rat_eq_rat i rat_ZERO) eqn:T, (is_infinite_rat r' || rat_eq_rat i' rat_ZERO) eqn:T'; cbn [fst snd] in *.
  - apply rat_to_string_inj in P; try assumption. now rewrite (A r i C T), (A r' i' C' T'), P.
  - destruct (rat_ne_rat r' rat_ZERO); discriminate Q.
  - destruct (rat_ne_rat r rat_ZERO); discriminate Q.
  - destruct (rat_ne_rat r rat_ZERO) eqn:Z, (rat_ne_rat r' rat_ZERO) eqn:Z'; cbn [fst snd] in *; try discriminate Q.
    + apply rat_to_string_inj in P; try assumption. cbn in Q. inversion Q as [Q'].
      destruct (ctext_cut i) as [F N]. destruct (ctext_cut i') as [F' N'].
      destruct (span_unique is_ratc _ _ _ _ F F' N N' Q') as [Q1 Q2].
      assert (ctext i = ctext i') by (destruct (ctext i), (ctext i'); cbn in *; congruence).
      f_equal; [exact P|now apply ctext_inj].
    + rewrite rat_ne_as_eq, negb_false_iff, eq_rat_true in Z, Z'. apply btext_inj in P; try assumption. now subst.
Qed.

(* without the side condition the printer is NOT injective on canonical values: every value with an infinite rational
   part is printed as that infinity alone *)
Theorem irat_to_string_refuted_without_side_condition :
  exists x x', iwf x /\ iwf x' /\ x <> x' /\ irat_to_string x = irat_to_string x'.
Proof.
  exists (mk_irat (mk_rat 1 0) (mk_rat 0 1)), (mk_irat (mk_rat 1 0) (mk_rat 1 1)).
  repeat split; try (right; cbn; lia); try (left; cbn; lia); discriminate.
Qed.

Example irat_to_string_examples :
  irat_to_string (mk_irat (mk_rat 1 2) (mk_rat (-2) 1)) = "1/2 -2ε" /\ irat_to_string (mk_irat (mk_rat 3 1) (mk_rat 5 2)) = "3 +5/2ε" /\
  irat_to_string (mk_irat (mk_rat 0 1) (mk_rat (-1) 1)) = "-ε" /\ irat_to_string (mk_irat (mk_rat (-4) 1) (mk_rat 1 1)) = "-4 + ε" /\
  irat_to_string (mk_irat (mk_rat 7 3) (mk_rat 0 1)) = "7/3" /\ icanon (mk_irat (mk_rat 1 2) (mk_rat (-2) 1)).
Proof.
  repeat split; try (left; cbn; split; [lia|reflexivity]). cbn. lia.
Qed.

(* the text as a list of space-separated tokens:  <first term> {<op> <term>} [<op> <known term>] *)
Definition nbody (t : var * rat) : string * string :=
  if rat_eq_rat (snd t) rat_ONE then ("+", "x" ++ str_N (fst t))
  else if rat_eq_rat (snd t) (rat_neg rat_ONE) then ("-", "x" ++ str_N (fst t))
  else if is_positive_rat (snd t) then ("+", rat_to_string (snd t) ++ "*x" ++ str_N (fst t))
  else ("-", rat_to_string (rat_neg (snd t)) ++ "*x" ++ str_N (fst t)).
Definition ntoks (t : var * rat) : list string := [fst (nbody t); snd (nbody t)].
Definition ktoks (k : rat) : list string :=
  (if is_positive_rat k then ["+"; rat_to_string k] else []) ++ (if is_negative_rat k then ["-"; rat_to_string (rat_neg k)] else []).
Definition toklist (l : lin) : list string :=
  match lin_vars l with
  | [] => [rat_to_string (lin_known l)]
  | t :: ts => term_first t :: flat_map ntoks ts ++ ktoks (lin_known l)
  end.

Definition jtail (ts : list string) : string := fold_right (fun t acc => " " ++ t ++ acc) "" ts.

Lemma join_jtail a r : join (a :: r) = a ++ jtail r.
Proof.
  revert a. induction r as [|b r IH]; intros a; [cbn; now rewrite app_nil_r_s|].
  rewrite join_cons by discriminate. rewrite IH. reflexivity.
Qed.

Lemma jtail_app a b : jtail (a ++ b) = jtail a ++ jtail b.
Proof. induction a as [|x a IH]; [reflexivity|]. cbn [jtail fold_right List.app]. fold (jtail (a ++ b)). fold (jtail a). rewrite IH.
  cbn. now rewrite app_assoc_s. Qed.

Lemma term_next_toks t : term_next t = jtail (ntoks t).
Proof.
  unfold term_next, ntoks, nbody. destruct (rat_eq_rat (snd t) rat_ONE); [cbn; now rewrite app_nil_r_s|].
  destruct (rat_eq_rat (snd t) (rat_neg rat_ONE)); [cbn; now rewrite app_nil_r_s|].
  destruct (is_positive_rat (snd t)); cbn; now rewrite app_nil_r_s.
Qed.

Lemma known_suffix_toks k : known_suffix k = jtail (ktoks k).
Proof.
  unfold known_suffix, ktoks. rewrite jtail_app.
  destruct (is_positive_rat k), (is_negative_rat k); cbn; now rewrite ?app_nil_r_s.
Qed.

Lemma lin_to_string_join l : lin_to_string l = join (toklist l).
Proof.
  unfold lin_to_string, toklist. destruct (lin_vars l) as [|t ts]; [reflexivity|].
  rewrite join_jtail. f_equal. induction ts as [|u ts IH]; cbn [fold_right flat_map List.app].
  - apply known_suffix_toks.
  - rewrite IH, term_next_toks, <- List.app_assoc. symmetry. apply jtail_app.
Qed.

Lemma ratc_not_space s : allc is_ratc s = true -> allc not_space s = true.
Proof. apply allc_impl. intros a H. unfold not_space. destruct (Ascii.eqb_spec a " "); [subst; discriminate H|reflexivity]. Qed.

Lemma digits_ratc s : allc is_digit s = true -> allc is_ratc s = true.
Proof. apply allc_impl. intros a H. unfold is_ratc, is_num. now rewrite H. Qed.

Lemma strN_ns v : allc not_space (str_N v) = true.
Proof. apply ratc_not_space, digits_ratc, str_N_digits. Qed.

Lemma rat_ns r : allc not_space (rat_to_string r) = true.
Proof. apply ratc_not_space, rat_str_ratc. Qed.

Lemma term_first_ns t : allc not_space (term_first t) = true.
Proof.
  unfold term_first. destruct (rat_eq_rat (snd t) rat_ONE); [|destruct (rat_eq_rat (snd t) (rat_neg rat_ONE))];
    rewrite ?allc_app, ?rat_ns, ?strN_ns; cbn; now rewrite ?strN_ns.
Qed.

Lemma ntoks_ns t : Forall (fun s => allc not_space s = true) (ntoks t).
Proof.
  unfold ntoks, nbody. destruct (rat_eq_rat (snd t) rat_ONE); [|destruct (rat_eq_rat (snd t) (rat_neg rat_ONE)); [|destruct (is_positive_rat (snd t))]];
    cbn [fst snd]; repeat constructor; rewrite ?allc_app, ?rat_ns, ?strN_ns; cbn; now rewrite ?strN_ns.
Qed.

Lemma ktoks_ns k : Forall (fun s => allc not_space s = true) (ktoks k).
Proof.
  unfold ktoks. apply Forall_app. split; [destruct (is_positive_rat k)|destruct (is_negative_rat k)]; repeat constructor; apply rat_ns.
Qed.

Lemma toklist_ns l : Forall (fun s => allc not_space s = true) (toklist l).
Proof.
  unfold toklist. destruct (lin_vars l) as [|t ts]; [repeat constructor; apply rat_ns|].
  constructor; [apply term_first_ns|]. apply Forall_app. split; [|apply ktoks_ns].
  induction ts as [|u ts IH]; [constructor|]. cbn [flat_map]. apply Forall_app. split; [apply ntoks_ns|exact IH].
Qed.

Lemma toklist_nonempty l : toklist l <> [].
Proof. unfold toklist. destruct (lin_vars l); discriminate. Qed.

(* a term token leaves the rational-like characters at 'x' or '*': it is never the text of a rational *)
Lemma allc_break P a c b : P c = false -> allc P (a ++ String c b) = false.
Proof. intros H. rewrite allc_app. cbn. rewrite H. now rewrite andb_false_r. Qed.

Lemma nbody_not_ratc t : allc is_ratc (snd (nbody t)) = false.
Proof.
  unfold nbody. destruct (rat_eq_rat (snd t) rat_ONE); [reflexivity|]. destruct (rat_eq_rat (snd t) (rat_neg rat_ONE)); [reflexivity|].
  destruct (is_positive_rat (snd t)); cbn [snd]; apply allc_break; reflexivity.
Qed.

Lemma term_first_not_ratc t : allc is_ratc (term_first t) = false.
Proof.
  unfold term_first. destruct (rat_eq_rat (snd t) rat_ONE); [reflexivity|]. destruct (rat_eq_rat (snd t) (rat_neg rat_ONE)); [reflexivity|].
  apply allc_break; reflexivity.
Qed.

Lemma rat_str_not_nbody k t : rat_to_string k <> snd (nbody t).
Proof. intros E. pose proof (nbody_not_ratc t) as B. rewrite <- E, rat_str_ratc in B. discriminate B. Qed.

Lemma rat_str_not_term_first k t : rat_to_string k <> term_first t.
Proof. intros E. pose proof (term_first_not_ratc t) as B. rewrite <- E, rat_str_ratc in B. discriminate B. Qed.

(* "<c>*x<v>" determines c and v *)
Lemma coef_var_inj c v c' v' : wf c -> wf c' ->
  rat_to_string c ++ "*x" ++ str_N v = rat_to_string c' ++ "*x" ++ str_N v' -> c = c' /\ v = v'.
Proof.
  intros Hc Hc' E.
  destruct (span_unique is_ratc _ _ ("*x" ++ str_N v) ("*x" ++ str_N v') (rat_str_ratc c) (rat_str_ratc c') eq_refl eq_refl E) as [P Q].
  split; [now apply rat_to_string_inj|]. cbn in Q. inversion Q as [Q']. now apply str_N_inj.
Qed.

Lemma x_vs_coef v c v' : "x" ++ str_N v = rat_to_string c ++ "*x" ++ str_N v' -> False.
Proof.
  intros E. change ("x" ++ str_N v) with ("" ++ ("x" ++ str_N v)) in E.
  destruct (span_unique is_ratc "" _ ("x" ++ str_N v) ("*x" ++ str_N v') eq_refl (rat_str_ratc c) eq_refl eq_refl E) as [_ Q]. discriminate Q.
Qed.

Lemma nbody_inj t t' : wf (snd t) -> wf (snd t') -> nbody t = nbody t' -> t = t'.
Proof.
  intros Hc Hc'. unfold nbody.
  apply (cascade_inj snd (fun t => ("+", "x" ++ str_N (fst t))) (fun t => ("-", "x" ++ str_N (fst t)))
           (fun t => if is_positive_rat (snd t) then ("+", rat_to_string (snd t) ++ "*x" ++ str_N (fst t))
                     else ("-", rat_to_string (rat_neg (snd t)) ++ "*x" ++ str_N (fst t)))).
  - discriminate.
  - intros u u' H. destruct (is_positive_rat (snd u')); inversion H as [H']. now apply x_vs_coef in H'.
  - intros u u' H. destruct (is_positive_rat (snd u')); inversion H as [H']. now apply x_vs_coef in H'.
  - intros Ec H. inversion H as [H']. apply str_N_inj in H'. destruct t, t'; cbn in *; congruence.
  - intros Ec H. inversion H as [H']. apply str_N_inj in H'. destruct t, t'; cbn in *; congruence.
  - destruct t as [v c], t' as [v' c']; cbn [fst snd] in *.
    destruct (is_positive_rat c), (is_positive_rat c'); try discriminate; intros H; inversion H as [H'].
    + apply coef_var_inj in H' as [-> ->]; auto.
    + apply coef_var_inj in H' as [N ->]; try (now apply wf_neg). apply neg_inj in N. now subst.
Qed.

(* the first term cut after its coefficient text: "x<v>" after "" or "-", "*x<v>" after a printed coefficient *)
Definition xtail (c : rat) (v : var) : string :=
  if rat_eq_rat c rat_ONE then "x" ++ str_N v else if rat_eq_rat c (rat_neg rat_ONE) then "x" ++ str_N v else "*x" ++ str_N v.

Lemma term_first_cut v c : term_first (v, c) = btext c ++ xtail c v /\ nhead is_ratc (xtail c v).
Proof.
  unfold term_first, btext, xtail; cbn [fst snd].
  destruct (rat_eq_rat c rat_ONE); [split; reflexivity|]. destruct (rat_eq_rat c (rat_neg rat_ONE)); split; reflexivity.
Qed.

Lemma term_first_inj t t' : wf (snd t) -> wf (snd t') -> term_first t = term_first t' -> t = t'.
Proof.
  destruct t as [v c], t' as [v' c']; cbn [fst snd]. intros Hc Hc' E.
  destruct (term_first_cut v c) as [E1 N1], (term_first_cut v' c') as [E2 N2]. rewrite E1, E2 in E.
  destruct (span_unique is_ratc _ _ _ _ (btext_ratc c) (btext_ratc c') N1 N2 E) as [P Q].
  apply btext_inj in P; try assumption. subst c'. f_equal. unfold xtail in Q.
  destruct (rat_eq_rat c rat_ONE); [|destruct (rat_eq_rat c (rat_neg rat_ONE))]; cbn in Q; inversion Q as [Q']; now apply str_N_inj.
Qed.

Lemma ktoks_cases k : ktoks k = [] \/ ktoks k = ["+"; rat_to_string k] \/ ktoks k = ["-"; rat_to_string (rat_neg k)].
Proof.
  unfold ktoks, is_positive_rat, is_negative_rat. destruct (Z.gtb_spec (rat_num k) 0), (Z.ltb_spec (rat_num k) 0); cbn; auto. lia.
Qed.

Lemma ktoks_inj k k' : wf k -> wf k' -> ktoks k = ktoks k' -> k = k'.
Proof.
  intros Hk Hk'. unfold ktoks, is_positive_rat, is_negative_rat.
  destruct (Z.gtb_spec (rat_num k) 0), (Z.ltb_spec (rat_num k) 0), (Z.gtb_spec (rat_num k') 0), (Z.ltb_spec (rat_num k') 0);
    try lia; cbn; intros E; try discriminate E.
  - inversion E as [E']. now apply rat_to_string_inj.
  - inversion E as [E']. apply rat_to_string_inj in E'; try (now apply wf_neg). now apply neg_inj.
  - assert (Z1 : rat_num k = 0) by lia. assert (Z2 : rat_num k' = 0) by lia.
    pose proof (wf_zero_num k Hk Z1) as D1. pose proof (wf_zero_num k' Hk' Z2) as D2.
    destruct k, k'; cbn in *; congruence.
Qed.

Lemma tail_toks_inj ts : forall ts' k k', Forall (fun t => wf (snd t)) ts -> Forall (fun t => wf (snd t)) ts' -> wf k -> wf k' ->
  (flat_map ntoks ts ++ ktoks k = flat_map ntoks ts' ++ ktoks k')%list -> ts = ts' /\ k = k'.
Proof.
  induction ts as [|t r IH]; intros ts' k k' F F' Hk Hk' E.
  - destruct ts' as [|t' r']; [cbn in E; split; [reflexivity|now apply ktoks_inj]|]. exfalso.
    cbn [flat_map List.app] in E. unfold ntoks at 1 in E. cbn [List.app] in E.
    destruct (ktoks_cases k) as [K|[K|K]]; rewrite K in E; try discriminate E; inversion E as [[E1 E2]];
      exact (rat_str_not_nbody _ _ E2).
  - destruct ts' as [|t' r'].
    + exfalso. cbn [flat_map List.app] in E. unfold ntoks at 1 in E. cbn [List.app] in E.
      destruct (ktoks_cases k') as [K|[K|K]]; rewrite K in E; try discriminate E; inversion E as [[E1 E2]];
        exact (rat_str_not_nbody _ _ (eq_sym E2)).
    + inversion F as [|? ? Ft Fr]; inversion F' as [|? ? Ft' Fr']; subst.
      cbn [flat_map] in E. rewrite <- !List.app_assoc in E. unfold ntoks at 1 3 in E. cbn [List.app] in E.
      inversion E as [[E1 E2 E3]].
      assert (T : t = t') by (apply nbody_inj; try assumption; destruct (nbody t), (nbody t'); cbn in *; congruence).
      destruct (IH r' k k' Fr Fr' Hk Hk' E3) as [-> ->]. now subst.
Qed.

Theorem lin_to_string_inj_coefs l l' :
  Forall (fun t => wf (snd t)) (lin_vars l) -> wf (lin_known l) -> Forall (fun t => wf (snd t)) (lin_vars l') -> wf (lin_known l') ->
  lin_to_string l = lin_to_string l' -> l = l'.
Proof.
  intros F K F' K' E. rewrite !lin_to_string_join in E.
  apply join_inj in E; try apply toklist_ns; try apply toklist_nonempty.
  destruct l as [vs k], l' as [vs' k']; unfold toklist in E; cbn [lin_vars lin_known] in *.
  destruct vs as [|t ts], vs' as [|t' ts'].
  - inversion E as [E']. apply rat_to_string_inj in E'; try assumption. now subst.
  - inversion E as [[E1 E2]]. elim (rat_str_not_term_first _ _ E1).
  - inversion E as [[E1 E2]]. elim (rat_str_not_term_first _ _ (eq_sym E1)).
  - inversion F as [|? ? Ft Fr]; inversion F' as [|? ? Ft' Fr']; subst. inversion E as [[E1 E2]].
    apply term_first_inj in E1; try assumption. destruct (tail_toks_inj ts ts' k k' Fr Fr' K K' E2) as [-> ->]. now subst.
Qed.

Lemma coefs_finite_wf m : coefs_finite m -> Forall (fun t => wf (snd t)) m.
Proof. apply Forall_impl. intros t H. now left. Qed.

(* the sharing key of an expression determines the expression (well-formed = sorted keys, canonical finite coefficients
   and known term; zero-freeness is not needed: a stored zero is printed as "0*x<v>") *)
Theorem lin_to_string_inj l l' : lwf l -> lwf l' -> lin_to_string l = lin_to_string l' -> l = l'.
Proof.
  intros (_ & F & K) (_ & F' & K'). apply lin_to_string_inj_coefs; try (now apply coefs_finite_wf); now left.
Qed.

Example lin_to_string_examples :
  lin_to_string (mk_lin [(0%N, mk_rat 1 2); (3%N, mk_rat (-2) 1); (12%N, mk_rat (-1) 1)] (mk_rat (-5) 3)) = "1/2*x0 - 2*x3 - x12 - 5/3" /\
  lin_to_string (mk_lin [(7%N, mk_rat 1 1); (8%N, mk_rat 3 4)] (mk_rat 4 1)) = "x7 + 3/4*x8 + 4" /\
  lin_to_string (mk_lin [] (mk_rat 0 1)) = "0" /\
  lwf (mk_lin [(0%N, mk_rat 1 2); (3%N, mk_rat (-2) 1); (12%N, mk_rat (-1) 1)] (mk_rat (-5) 3)).
Proof.
  repeat split; try reflexivity.
  - unfold sorted; cbn. repeat constructor.
  - repeat (constructor; [split; cbn; [lia|reflexivity]|]). constructor.
Qed.

Theorem asrt_key_inj s g c s' g' c' : icanon c -> icanon c' -> asrt_key s g c = asrt_key s' g' c' -> s = s' /\ g = g' /\ c = c'.
Proof.
  intros Hc Hc' E. unfold asrt_key in E. cbn in E. inversion E as [E'].
  assert (N : forall (b : bool) t, nhead is_digit ((if b then " >= " else " <= ") ++ t)) by (intros [] t; reflexivity).
  destruct (span_unique is_digit _ _ _ _ (str_N_digits s) (str_N_digits s') (N g _) (N g' _) E') as [P Q].
  apply str_N_inj in P. destruct g, g'; cbn in Q; inversion Q as [Q']; try discriminate Q.
  - apply irat_to_string_inj in Q'; auto.
  - apply irat_to_string_inj in Q'; auto.
Qed.

Example asrt_key_example : asrt_key 5%N false (mk_irat (mk_rat 3 1) (mk_rat (-1) 1)) = "x5 <= 3 - ε".
Proof. reflexivity. Qed.
