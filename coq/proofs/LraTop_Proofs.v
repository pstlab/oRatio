(* Examples for C09 / C11: the hypotheses of the theorems are met by non-trivial reachable states; the public
   new_var(lin) over a basic variable with a known term. *)
From Coq Require Import QArith List Lia.
From ORatio Require Import smt.Lra proofs.LraInv_Proofs proofs.LraThm_Proofs.
Import ListNotations.
Local Open Scope Q_scope.

(* the public new_var(const lin&) over a basic variable and with a known term (since fix 8c419ea the row is normalised):
   t = 2*s + 1 over the basic slack s = x + y, then x >= 1 is asserted; the defining equation holds on the values *)
Definition nvl_events : list event :=
  [ENewVar; ENewVar;
   ENewVarLin (mkLin [(0%nat, 1); (1%nat, 1)] 0);
   ENewVarLin (mkLin [(2%nat, 2)] 1);
   ENewRel Rgeq (lin_var 0%nat) (mkLin [] 1) 1%nat;
   EPropagate (fun v => if Nat.eqb v 1%nat then Some true else if Nat.eqb v 0%nat then Some false else None) (1%nat, true);
   ECheck 100%nat].

Definition ex_alpha : assign := fun v => if Nat.eqb v 0%nat then Some false else if Nat.eqb v 1%nat then Some true else if Nat.eqb v 2%nat then Some true else None.
Definition ex_events : list event :=
  [ENewVar; ENewVar;
   ENewRel Rlt (mkLin [(0%nat, 1); (1%nat, 2)] 0) (mkLin [] 5) 1%nat;      (* x0 + 2 x1 < 5  -> b1 on slack x2 *)
   ENewRel Rgeq (lin_var 1%nat) (mkLin [] 3) 2%nat;                            (* x1 >= 3        -> b2 *)
   EPropagate ex_alpha (1%nat, true); ECheck 100%nat;
   EPush; EPropagate ex_alpha (2%nat, true); ECheck 100%nat].

Lemma ex_ok_run : ok_run ex_events init_state.
Proof.
  unfold ex_events. cbn [ok_run]. repeat split; try reflexivity; try (vm_compute; auto; fail); try (vm_compute; intros; contradiction).
  all: try (vm_compute; intros v [<- | [<- | []]]; lia).
  all: try (vm_compute; intros v [<- | []]; lia).
  all: try (vm_compute; intros v []).
  all: try (vm_compute; intros a [<- | []]; simpl; lia).
  all: try (vm_compute; intros x [<- | [<- | []]]; lia).
  all: discriminate.
Qed.
Lemma ex_reach : reach (run ex_events init_state).
Proof. apply reach_run; [apply reach_init | apply ex_ok_run]. Qed.

(* a conflicting history: x0 <= 1 then x0 >= 2 *)
Definition ex_alpha2 : assign := fun v => if Nat.eqb v 0%nat then Some false else if Nat.eqb v 1%nat then Some true else if Nat.eqb v 2%nat then Some true else None.
Definition ex_conflict_events : list event :=
  [ENewVar; ENewVar;
   ENewRel Rleq (mkLin [(0%nat, 1); (1%nat, 1)] 0) (mkLin [] 1) 1%nat;
   ENewRel Rgeq (mkLin [(0%nat, 1); (1%nat, 1)] 0) (mkLin [] 2) 2%nat;
   EPropagate ex_alpha2 (1%nat, true)].
Lemma ex_conflict_reach : reach (run ex_conflict_events init_state).
Proof.
  apply reach_run; [apply reach_init |]. unfold ex_conflict_events. cbn [ok_run].
  repeat split; try reflexivity; try (vm_compute; auto; fail).
  all: try (vm_compute; intros v [<- | [<- | []]]; lia).
  all: try (vm_compute; intros v [<- | []]; lia).
  all: try (vm_compute; intros v []).
  all: try (vm_compute; intros a [<- | []]; simpl; lia).
  all: try (vm_compute; intros; contradiction).
  all: try discriminate.
Qed.
