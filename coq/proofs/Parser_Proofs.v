(* Proofs about the parser model (lang/Parser.v) and the printer `pp` (lang/Printer.v), property C16, expressions:
     reads                `reads F a r`: the parser function F (of its fuel) returns Ok a r with every fuel from some point on;
                          all round-trip lemmas are stated with it (it composes along bind without side conditions)
     expr_roundtrip_loop  reading `pp e` followed by `rest` is the same as continuing the operator loop with e already
                          read  (the induction over all expression trees; operands of any number, any nesting)
     parse_expr_pp        parse_expr (pp e ++ rest) = Ok e rest
     parse_expr_stmt      parse (pp e ++ [;]) = the program consisting of the statement `e;`
   for every well-formed expression tree whose nesting needs at most MAX_DEPTH frames (hgt e, an upper bound). *)
From Coq Require Import List String Bool Arith Lia.
From ORatio Require Import lang.Token lang.Lexer lang.Ast lang.Parser lang.Printer.
From ORatio Require Import proofs.Parser_Len_Proofs proofs.Parser_Total_Proofs.
Import ListNotations.
(* fuel-free view: F reads a and leaves r, with every fuel from some point on *)
Definition reads {A} (F : nat -> res A) (a : A) (r : list token) : Prop := exists f0, forall f, f0 <= f -> F f = Ok a r.

Lemma reads_pure {A} (x : res A) a r : x = Ok a r -> reads (fun _ => x) a r.
Proof. intros ->. exists 0. reflexivity. Qed.
Lemma reads_ret {A} (a : A) r : reads (fun _ => Ok a r) a r.
Proof. apply reads_pure. reflexivity. Qed.
Lemma reads_bind {A B} (F : nat -> res A) (K : nat -> A -> list token -> res B) a r b r' :
  reads F a r -> reads (fun f => K f a r) b r' -> reads (fun f => bind (F f) (K f)) b r'.
Proof.
  intros [f1 H1] [f2 H2]. exists (max f1 f2). intros f Hf. rewrite H1 by lia. apply H2. lia.
Qed.
(* a function that spends one unit of fuel on a body F *)
Lemma reads_S {A} (G F : nat -> res A) a r : (forall f, G (S f) = F f) -> reads F a r -> reads G a r.
Proof.
  intros E [f0 H]. exists (S f0). intros f Hf. destruct f as [|f]; [lia|]. rewrite E. apply H. lia.
Qed.
Lemma reads_ext {A} (G F : nat -> res A) a r : (forall f, G f = F f) -> reads F a r -> reads G a r.
Proof. intros E [f0 H]. exists f0. intros f Hf. rewrite E. exact (H f Hf). Qed.
Lemma reads_ex {A} (F : nat -> res A) a r : reads F a r -> exists f, F f = Ok a r.
Proof. intros [f H]. exists f. apply H, le_n. Qed.
(* one round of a loop G: an item read by PX, then the rest of the loop PG *)
Lemma loop_step {X Y} (G : nat -> res Y) (PX : nat -> res X) (PG : nat -> list token -> res Y) (k : X -> Y -> Y) x T y rest :
  (forall f, G (S f) = do (a, r) <- PX f; do (b, r1) <- PG f r; Ok (k a b) r1) ->
  reads PX x T -> reads (fun f => PG f T) y rest -> reads G (k x y) rest.
Proof. intros E Hx Hy. eapply reads_S; [exact E|]. eapply reads_bind; [exact Hx|]. eapply reads_bind; [exact Hy|apply reads_ret]. Qed.

(* since more fuel never changes a result other than OutOfFuel (field run_mono of the invariants in Parser_Len_Proofs),
   what is read with much fuel is the result with any fuel that is enough *)
Lemma mono_le {A} (F : nat -> res A) :
  (forall f, NF (F f) -> F (S f) = F f) -> forall f f', f <= f' -> NF (F f) -> F f' = F f.
Proof. intros HS f f' Hle H. induction Hle; [reflexivity|]. rewrite HS; [exact IHHle|]. rewrite IHHle. exact H. Qed.
Lemma mono_ok {A} (F : nat -> res A) (a : A) (r : list token) :
  (forall f, NF (F f) -> F (S f) = F f) -> forall f f', f <= f' -> F f = Ok a r -> F f' = Ok a r.
Proof. intros HS f f' Hle H. rewrite (mono_le F HS f f' Hle); [exact H|]. rewrite H. discriminate. Qed.
Lemma reads_det {A} (F : nat -> res A) a r f :
  (forall f, NF (F f) -> F (S f) = F f) -> reads F a r -> NF (F f) -> F f = Ok a r.
Proof.
  intros HS [f0 H] N. destruct (Nat.le_ge_cases f0 f) as [L|L]; [exact (H f L)|].
  rewrite <- (mono_le F HS f f0 L N). apply H, le_n.
Qed.

Definition RE d pr ts := reads (fun f => p_expr f d pr ts).
Definition RP d ts := reads (fun f => p_primary f d ts).
Definition RL d c pr e0 ts := reads (fun f => p_loop f d c pr e0 ts).
Definition RC d o rp ts := reads (fun f => p_collect f d o rp ts).
Definition RA d ts := reads (fun f => p_args f d ts).
Definition RA1 d ts := reads (fun f => p_args1 f d ts).

Lemma RE_intro d pr ts e r e' r' : RP d ts e r -> RL d d pr e r e' r' -> RE (S d) pr ts e' r'.
Proof. intros H1 H2. eapply reads_S; [reflexivity|]. exact (reads_bind _ _ _ _ _ _ H1 H2). Qed.

Lemma RP_bool d b r : RP d (TBoolLit b :: r) (EBool b) r.  Proof. exists 1. intros [|f] Hf; [lia|reflexivity]. Qed.
Lemma RP_int d ds r : RP d (TIntLit ds :: r) (EInt ds) r.  Proof. exists 1. intros [|f] Hf; [lia|reflexivity]. Qed.
Lemma RP_real d ip dp r : RP d (TRealLit ip dp :: r) (EReal ip dp) r.  Proof. exists 1. intros [|f] Hf; [lia|reflexivity]. Qed.
Lemma RP_str d s r : RP d (TStrLit s :: r) (EStr s) r.  Proof. exists 1. intros [|f] Hf; [lia|reflexivity]. Qed.

Lemma RP_paren d r e r2 : is_cast r = false -> RE d 0 r e (TRParen :: r2) -> RP d (TLParen :: r) e r2.
Proof.
  intros Hc H. eapply reads_S; [intros f; cbn [p_primary]; rewrite Hc; reflexivity|].
  eapply reads_bind; [exact H|apply reads_ret].
Qed.

Lemma RP_cast d r q r2 e r3 :
  is_cast r = true -> p_qid r = Ok q (TRParen :: r2) -> RE d 0 r2 e r3 -> RP d (TLParen :: r) (ECast q e) r3.
Proof.
  intros Hc Hq H. eapply reads_S; [intros f; cbn [p_primary]; rewrite Hc, Hq; cbn [bind expect_rparen]; reflexivity|].
  eapply reads_bind; [exact H|apply reads_ret].
Qed.

Lemma RP_un d o r e r1 : RE d 4 r e r1 -> RP d (un_tok o :: r) (EUn o e) r1.
Proof.
  intros H. apply reads_S with (F := fun f => do (e, r1) <- p_expr f d 4 r; Ok (EUn o e) r1); [destruct o; reflexivity|].
  eapply reads_bind; [exact H|apply reads_ret].
Qed.

Lemma RP_new d r q r2 es r3 : p_qid r = Ok q (TLParen :: r2) -> RA d r2 es r3 -> RP d (TNew :: r) (ENew q es) r3.
Proof.
  intros Hq H. eapply reads_S; [intros f; cbn [p_primary]; rewrite Hq; cbn [bind expect_lparen]; reflexivity|].
  eapply reads_bind; [exact H|apply reads_ret].
Qed.

Lemma RP_id d x r xs r1 :
  p_dots r = Ok xs r1 -> match r1 with TLParen :: _ => False | _ => True end -> RP d (TId x :: r) (EId (x :: xs)) r1.
Proof.
  intros Hd Hn. eapply reads_S; [|apply reads_ret]. intros f. cbn [p_primary]. rewrite Hd. cbn [bind].
  destruct r1 as [|[] ?]; try reflexivity. contradiction.
Qed.

Lemma RP_fun d x r xs r2 es r3 q fn :
  p_dots r = Ok xs (TLParen :: r2) -> split_last (x :: xs) = (q, fn) -> RA d r2 es r3 -> RP d (TId x :: r) (EFun q fn es) r3.
Proof.
  intros Hd Hs H. injection Hs as <- <-. eapply reads_S; [intros f; cbn [p_primary]; rewrite Hd; cbn [bind split_last]; reflexivity|].
  eapply reads_bind; [exact H|apply reads_ret].
Qed.

(* level of a token as a binary operator of the loop *)
Definition op_lvl (t : token) : option nat :=
  match bin_of t with
  | Some (_, lv, _) => Some lv
  | None => match nary_of t with Some (_, lv, _) => Some lv | None => None end
  end.

(* the loop of a frame with level pr stops in front of rest: no operator of level >= pr comes next *)
Definition stops (pr : nat) (rest : list token) : Prop :=
  match rest with [] => True | t :: _ => match op_lvl t with Some l => l < pr | None => True end end.

Lemma RL_stop d c pr e ts : stops pr ts -> RL d c pr e ts e ts.
Proof.
  intros H. eapply reads_S; [|apply reads_ret]. intros f. cbn [p_loop]. destruct ts as [|t r]; [reflexivity|]. unfold stops, op_lvl in H.
  destruct (bin_of t) as [[[o lv] rp]|].
  - apply Nat.leb_gt in H. rewrite H. reflexivity.
  - destruct (nary_of t) as [[[o lv] rp]|]; [|reflexivity]. apply Nat.leb_gt in H. rewrite H. reflexivity.
Qed.

Lemma RL_bin d c pr e t r o lv rp x r1 e' r' :
  bin_of t = Some (o, lv, rp) -> pr <= lv -> RE d rp r x r1 -> RL d c pr (EBin o e x) r1 e' r' -> RL d (S c) pr e (t :: r) e' r'.
Proof.
  intros Hb Hl H1 H2. apply Nat.leb_le in Hl. eapply reads_S; [intros f; cbn [p_loop]; rewrite Hb, Hl; reflexivity|].
  exact (reads_bind _ _ _ _ _ _ H1 H2).
Qed.

Lemma RL_nary d c pr e t r o lv rp xs r1 e' r' :
  bin_of t = None -> nary_of t = Some (o, lv, rp) -> pr <= lv -> RC d o rp (t :: r) xs r1 ->
  RL d c pr (ENary o (e :: xs)) r1 e' r' -> RL d (S c) pr e (t :: r) e' r'.
Proof.
  intros Hb Hn Hl H1 H2. apply Nat.leb_le in Hl. eapply reads_S; [intros f; cbn [p_loop]; rewrite Hb, Hn, Hl; reflexivity|].
  exact (reads_bind _ _ _ _ _ _ H1 H2).
Qed.

Lemma RC_stop d o rp ts : match ts with [] => True | t :: _ => is_nop o t = false end -> RC d o rp ts [] ts.
Proof.
  intros H. eapply reads_S; [|apply reads_ret]. intros f. cbn [p_collect]. destruct ts as [|t r]; [reflexivity|]. rewrite H. reflexivity.
Qed.

Lemma RC_step d o rp t r x r1 xs r2 :
  is_nop o t = true -> RE d rp r x r1 -> RC d o rp r1 xs r2 -> RC d o rp (t :: r) (x :: xs) r2.
Proof.
  intros Hn H1 H2. eapply reads_S; [intros f; cbn [p_collect]; rewrite Hn; reflexivity|].
  eapply reads_bind; [exact H1|]. eapply reads_bind; [exact H2|apply reads_ret].
Qed.

Lemma RA_nil d r : RA d (TRParen :: r) [] r.  Proof. exists 1. intros [|f] Hf; [lia|reflexivity]. Qed.
Lemma RA_some d ts es r : match ts with TRParen :: _ => False | _ => True end -> RA1 d ts es r -> RA d ts es r.
Proof. intros Hn. apply reads_S. intros f. destruct ts as [|[] ?]; try reflexivity. contradiction. Qed.
Lemma RA1_last d ts e r2 : RE d 0 ts e (TRParen :: r2) -> RA1 d ts [e] r2.
Proof. intros H. eapply reads_S; [reflexivity|]. eapply reads_bind; [exact H|apply reads_ret]. Qed.
Lemma RA1_more d ts e r2 es r3 : RE d 0 ts e (TComma :: r2) -> RA1 d r2 es r3 -> RA1 d ts (e :: es) r3.
Proof.
  intros H1 H2. eapply reads_S; [reflexivity|]. eapply reads_bind; [exact H1|]. eapply reads_bind; [exact H2|apply reads_ret].
Qed.
Section ExprInd.
  Variable P : expr -> Prop.
  Hypothesis HBool : forall b, P (EBool b).
  Hypothesis HInt : forall ds, P (EInt ds).
  Hypothesis HReal : forall ip dp, P (EReal ip dp).
  Hypothesis HStr : forall s, P (EStr s).
  Hypothesis HCast : forall q x, P x -> P (ECast q x).
  Hypothesis HUn : forall o x, P x -> P (EUn o x).
  Hypothesis HNew : forall q es, Forall P es -> P (ENew q es).
  Hypothesis HBin : forall o l r, P l -> P r -> P (EBin o l r).
  Hypothesis HFun : forall q fn es, Forall P es -> P (EFun q fn es).
  Hypothesis HId : forall q, P (EId q).
  Hypothesis HNary : forall o es, Forall P es -> P (ENary o es).
  Fixpoint expr_ind' (e : expr) : P e :=
    let all := fix all (l : list expr) : Forall P l :=
                 match l with [] => Forall_nil P | x :: r => Forall_cons x (expr_ind' x) (all r) end in
    match e with
    | EBool b => HBool b | EInt ds => HInt ds | EReal ip dp => HReal ip dp | EStr s => HStr s
    | ECast q x => HCast q x (expr_ind' x)
    | EUn o x => HUn o x (expr_ind' x)
    | ENew q es => HNew q es (all es)
    | EBin o l r => HBin o l r (expr_ind' l) (expr_ind' r)
    | EFun q fn es => HFun q fn es (all es)
    | EId q => HId q
    | ENary o es => HNary o es (all es)
    end.
End ExprInd.

Lemma fold_and_all {A} (P : A -> Prop) l : fold_right (fun x acc => P x /\ acc) True l <-> Forall P l.
Proof. induction l as [|x r IH]; cbn; split; intros H; try constructor; try tauto; inversion H; subst; tauto. Qed.

(* an upper bound on the number of nested _expression frames needed to read `pp e` *)
Definition maxl (f : expr -> nat) (es : list expr) : nat := fold_right (fun x acc => max (f x) acc) 0 es.
Fixpoint hgt (e : expr) : nat :=
  match e with
  | ECast _ x | EUn _ x => 2 + hgt x
  | EBin _ l r => 2 + max (hgt l) (hgt r)
  | ENew _ es | EFun _ _ es | ENary _ es => 2 + maxl hgt es
  | _ => 1
  end.
Lemma fold_max_all {A} (f : A -> nat) l n : fold_right (fun x acc => max (f x) acc) 0 l <= n -> Forall (fun x => f x <= n) l.
Proof.
  induction l as [|y r IH]; cbn [fold_right]; intros H; constructor; apply Nat.max_lub_iff in H; [apply H|apply IH, H].
Qed.
Lemma maxl_all f es n : maxl f es <= n -> Forall (fun x => f x <= n) es.
Proof. apply fold_max_all. Qed.

Lemma bin_of_tok o : bin_of (bin_tok o) = Some (o, bin_lvl o, S (bin_lvl o)).  Proof. destruct o; reflexivity. Qed.
Lemma bin_of_nop o : bin_of (nop_tok o) = None.  Proof. destruct o; reflexivity. Qed.
Lemma nary_of_tok o : nary_of (nop_tok o) = Some (o, nop_lvl o, S (nop_lvl o)).  Proof. destruct o; reflexivity. Qed.
Lemma is_nop_tok o : is_nop o (nop_tok o) = true.  Proof. destruct o; reflexivity. Qed.
Lemma is_nop_inj o' o : is_nop o' (nop_tok o) = true -> o' = o.  Proof. destruct o', o; cbn; congruence. Qed.
Lemma is_nop_bin o' o : is_nop o' (bin_tok o) = false.  Proof. destruct o', o; reflexivity. Qed.
Lemma op_lvl_bin o : op_lvl (bin_tok o) = Some (bin_lvl o).  Proof. destruct o; reflexivity. Qed.
Lemma op_lvl_nop o : op_lvl (nop_tok o) = Some (nop_lvl o).  Proof. destruct o; reflexivity. Qed.
Lemma op_lvl_le3 t l : op_lvl t = Some l -> l <= 3.
Proof. destruct t; cbn; intros H; inversion H; lia. Qed.
Lemma is_nop_lvl o t : is_nop o t = true -> op_lvl t = Some (nop_lvl o).
Proof. destruct o, t; cbn; congruence. Qed.

(* what may follow an expression: not '(' nor '.', and no binary operator of level >= m *)
Definition tail_ok (m : nat) (rest : list token) : Prop :=
  match rest with
  | [] => True
  | t :: _ => t <> TLParen /\ t <> TDot /\ match op_lvl t with Some l => l < m | None => True end
  end.
Definition not_op (o : nop) (rest : list token) : Prop :=
  match rest with t :: _ => is_nop o t = false | [] => True end.

Lemma tail_ok_mono m m' rest : m <= m' -> tail_ok m rest -> tail_ok m' rest.
Proof. intros Hm. destruct rest as [|t r]; cbn; [tauto|]. destruct (op_lvl t); intuition lia. Qed.
Lemma tail_ok_stop m rest : tail_ok m rest -> stops m rest.
Proof. destruct rest; cbn; tauto. Qed.
Lemma tail_ok_any m rest : tail_ok m rest -> tail_ok 4 rest.
Proof.
  destruct rest as [|t r]; cbn; [tauto|]. destruct (op_lvl t) eqn:E; [|tauto]. apply op_lvl_le3 in E. intuition lia.
Qed.
Lemma tail_ok_not_op m o rest : tail_ok m rest -> m <= nop_lvl o -> not_op o rest.
Proof.
  destruct rest as [|t r]; cbn; [tauto|]. intros (_ & _ & H) Hm. destruct (is_nop o t) eqn:E; [|reflexivity].
  apply is_nop_lvl in E. rewrite E in H. lia.
Qed.
Lemma tail_ok_bin m o r : bin_lvl o < m -> tail_ok m (bin_tok o :: r).
Proof. intros H. cbn. rewrite op_lvl_bin. repeat split; try (destruct o; discriminate). exact H. Qed.
Lemma tail_ok_nop m o r : nop_lvl o < m -> tail_ok m (nop_tok o :: r).
Proof. intros H. cbn. rewrite op_lvl_nop. repeat split; try (destruct o; discriminate). exact H. Qed.
Lemma tail_ok_rparen m r : tail_ok m (TRParen :: r).  Proof. cbn. repeat split; discriminate. Qed.
Lemma tail_ok_comma m r : tail_ok m (TComma :: r).  Proof. cbn. repeat split; discriminate. Qed.

(* token lists as `t1 :: t2 :: .. ++ rest`, the form the parser functions match on *)
Ltac assoc_app := repeat (first [rewrite <- app_assoc | progress cbn [fst snd app flat_map]]).

Definition dots (xs : list ident) : list token := flat_map (fun y => [TDot; TId y]) xs.
Lemma sep_by_two (sep a b : list token) l : sep_by sep (a :: b :: l) = a ++ sep ++ sep_by sep (b :: l).
Proof. reflexivity. Qed.
Lemma sep_by_cons {A} (sep : list token) (f : A -> list token) x xs :
  sep_by sep (map f (x :: xs)) = f x ++ flat_map (fun y => sep ++ f y) xs.
Proof.
  revert x. induction xs as [|y r IH]; intros x.
  - cbn. rewrite app_nil_r. reflexivity.
  - change (map f (x :: y :: r)) with (f x :: f y :: map f r). rewrite sep_by_two.
    change (f y :: map f r) with (map f (y :: r)). rewrite IH. cbn [flat_map]. rewrite <- !app_assoc. reflexivity.
Qed.
Lemma pp_qid_cons x xs : pp_qid (x :: xs) = TId x :: dots xs.
Proof. unfold pp_qid. rewrite sep_by_cons. reflexivity. Qed.

Definition no_dot (rest : list token) : Prop := match rest with TDot :: _ => False | _ => True end.
Lemma tail_ok_no_dot m rest : tail_ok m rest -> no_dot rest.
Proof. destruct rest as [|[] r]; cbn; tauto. Qed.

Lemma p_dots_pp xs rest : no_dot rest -> p_dots (dots xs ++ rest) = Ok xs rest.
Proof.
  intros Hn. induction xs as [|y r IH]; cbn [dots flat_map app].
  - destruct rest as [|[] ?]; try reflexivity. contradiction.
  - fold (dots r). cbn [p_dots]. rewrite IH. reflexivity.
Qed.
Lemma p_qid_pp q rest : q <> [] -> no_dot rest -> p_qid (pp_qid q ++ rest) = Ok q rest.
Proof. intros Hq Hn. destruct q as [|x xs]; [congruence|]. rewrite pp_qid_cons. cbn [app p_qid]. rewrite p_dots_pp by exact Hn. reflexivity. Qed.
Lemma after_dots_pp xs rest : no_dot rest -> after_dots (dots xs ++ rest) = Some rest.
Proof.
  intros Hn. induction xs as [|y r IH]; cbn [dots flat_map app].
  - destruct rest as [|[] ?]; try reflexivity. contradiction.
  - fold (dots r). cbn [after_dots]. exact IH.
Qed.
Lemma is_cast_qid q rest : q <> [] -> no_dot rest ->
  is_cast (pp_qid q ++ rest) = match rest with TRParen :: t :: _ => starts_operand t | _ => false end.
Proof.
  intros Hq Hn. destruct q as [|x xs]; [congruence|]. rewrite pp_qid_cons. cbn [app is_cast].
  rewrite after_dots_pp by exact Hn. reflexivity.
Qed.

Definition cast_arg (x : expr) : list token :=
  match pp x with TPlus :: _ | TMinus :: _ => paren (pp x) | _ => pp x end.
Lemma pp_bin o l r : pp (EBin o l r) = pp_at (bin_lvl o) l ++ bin_tok o :: pp_at (S (bin_lvl o)) r.  Proof. reflexivity. Qed.
Lemma pp_nary o e1 es : pp (ENary o (e1 :: es)) = pp_first o e1 ++ flat_map (fun x => [nop_tok o] ++ pp_at (S (nop_lvl o)) x) es.  Proof. reflexivity. Qed.
Lemma pp_un o x : pp (EUn o x) = un_tok o :: pp_at 4 x.  Proof. reflexivity. Qed.
Lemma pp_cast q x : pp (ECast q x) = TLParen :: pp_qid q ++ TRParen :: cast_arg x.  Proof. reflexivity. Qed.
Lemma pp_new q es : pp (ENew q es) = TNew :: pp_qid q ++ TLParen :: sep_by [TComma] (map pp es) ++ [TRParen].  Proof. reflexivity. Qed.
Lemma pp_fun q fn es : pp (EFun q fn es) = pp_qid (q ++ [fn]) ++ TLParen :: sep_by [TComma] (map pp es) ++ [TRParen].  Proof. reflexivity. Qed.

Definition first_ok (t : token) : Prop := starts_operand t = true \/ t = TPlus \/ t = TMinus.

Lemma pp_at_head m x : (exists t r, pp x = t :: r /\ first_ok t) -> exists t r, pp_at m x = t :: r /\ first_ok t.
Proof. intros H. unfold pp_at. destruct (bare m x); [exact H|]. eexists _, _. split; [reflexivity|]. left. reflexivity. Qed.

Lemma pp_first_head o x : (exists t r, pp x = t :: r /\ first_ok t) -> exists t r, pp_first o x = t :: r /\ first_ok t.
Proof. intros H. unfold pp_first. destruct (_ && _); [exact H|]. eexists _, _. split; [reflexivity|]. left. reflexivity. Qed.

Lemma head_pp e : wf_expr e -> exists t r, pp e = t :: r /\ first_ok t.
Proof.
  (* immediate when the text begins with a literal, with '(' or with `new` *)
  induction e using expr_ind'; intros W; cbn [wf_expr] in W; try (eexists _, _; split; [reflexivity|left; reflexivity]).
  - rewrite pp_un. eexists _, _. split; [reflexivity|]. destruct o; unfold first_ok; cbn; tauto.
  - destruct W as [Wl Wr]. rewrite pp_bin. destruct (pp_at_head (bin_lvl o) e1 (IHe1 Wl)) as (t & r & E & F).
    rewrite E. eexists _, _. split; [reflexivity|exact F].
  - rewrite pp_fun. destruct q as [|x xs]; cbn [app]; rewrite pp_qid_cons; eexists _, _; (split; [reflexivity|left; reflexivity]).
  - destruct q as [|x xs]; [congruence|]. cbn [pp]. rewrite pp_qid_cons. eexists _, _. split; [reflexivity|left; reflexivity].
  - destruct W as [Wn Wa]. apply fold_and_all in Wa. destruct es as [|e1 es']; [cbn in Wn; lia|].
    rewrite pp_nary. inversion H as [|? ? H1 _]; subst. inversion Wa as [|? ? W1 _]; subst.
    destruct (pp_first_head o e1 (H1 W1)) as (t & r & E & F). rewrite E. eexists _, _. split; [reflexivity|exact F].
Qed.

Lemma is_cast_first t r : (forall s, t <> TId s) -> is_cast (t :: r) = false.
Proof. intros H. destruct t; try reflexivity. exfalso. eapply H. reflexivity. Qed.

Definition not_id (e : expr) : Prop := match e with EId _ => False | _ => True end.

Lemma is_cast_pp e : wf_expr e -> not_id e -> forall rest, is_cast (pp e ++ rest) = false.
Proof.
  induction e using expr_ind'; intros W NI rest; cbn [wf_expr] in W; try reflexivity.
  - rewrite pp_un. destruct o; reflexivity.
  - destruct W as [Wl Wr]. rewrite pp_bin, <- app_assoc. unfold pp_at at 1. destruct (bare (bin_lvl o) e1); [|reflexivity].
    destruct e1; try (apply IHe1; [exact Wl|exact I]).
    cbn [pp wf_expr] in *. rewrite is_cast_qid; [|exact Wl|destruct o; exact I]. cbn [app]. destruct o; reflexivity.
  - rewrite pp_fun, <- app_assoc. rewrite is_cast_qid; [reflexivity|destruct q; discriminate|exact I].
  - contradiction.
  - destruct W as [Wn Wa]. apply fold_and_all in Wa. destruct es as [|e1 es']; [cbn in Wn; lia|].
    rewrite pp_nary, <- app_assoc. inversion H as [|? ? H1 _]; subst. inversion Wa as [|? ? W1 _]; subst.
    unfold pp_first. destruct (bare (nop_lvl o) e1 && negb (same_nop o e1)); [|reflexivity].
    destruct e1; try (apply H1; [exact W1|exact I]).
    cbn [pp wf_expr] in *. rewrite is_cast_qid; [|exact W1|].
    + destruct es' as [|e2 es'']; [cbn in Wn; lia|]. cbn [flat_map app]. destruct o; reflexivity.
    + destruct es' as [|e2 es'']; [cbn in Wn; lia|]. cbn [flat_map app]. destruct o; exact I.
Qed.

Lemma cast_arg_cases x : wf_expr x ->
  (cast_arg x = pp x /\ exists t r, pp x = t :: r /\ starts_operand t = true) \/
  (cast_arg x = paren (pp x) /\ exists t r, pp x = t :: r /\ (t = TPlus \/ t = TMinus)).
Proof.
  intros W. destruct (head_pp x W) as (t & r & E & [F|[F|F]]); unfold cast_arg; rewrite E.
  - left. split; [destruct t; try reflexivity; discriminate F|]. eexists _, _. split; [reflexivity|exact F].
  - right. subst t. split; [reflexivity|]. eexists _, _. split; [reflexivity|tauto].
  - right. subst t. split; [reflexivity|]. eexists _, _. split; [reflexivity|tauto].
Qed.

Lemma hgt_pos e : 1 <= hgt e.
Proof. destruct e; cbn; lia. Qed.

(* the main lemma: reading `pp e` followed by `rest` = continuing the loop with e already read *)
Definition fits (pr : nat) (e : expr) : Prop := match lvl e with Some l => pr <= l | None => True end.
Definition no_extend (e : expr) (rest : list token) : Prop :=
  match e with
  | ECast _ _ => tail_ok 0 rest
  | EBin o _ _ => tail_ok (S (bin_lvl o)) rest
  | ENary o _ => tail_ok (S (nop_lvl o)) rest /\ not_op o rest
  | _ => tail_ok 5 rest
  end.

(* the number of operators the loop of the frame that reads `pp x` applies before x is built: the first operand of an
   operator standing bare (without parentheses) is built by the same loop *)
Fixpoint spine (e : expr) : nat :=
  match e with
  | EBin o l _ => 1 + (if bare (bin_lvl o) l then spine l else 0)
  | ENary o (e1 :: _) => 1 + (if bare (nop_lvl o) e1 && negb (same_nop o e1) then spine e1 else 0)
  | _ => 0
  end.
Lemma spine_lt e : spine e < hgt e.
Proof.
  induction e using expr_ind'; cbn [spine hgt]; try lia.
  - destruct (bare (bin_lvl o) e1); lia.
  - destruct es as [|e1 es']; [lia|]. inversion H as [|? ? H1 _]; subst. cbn [maxl fold_right].
    destruct (bare (nop_lvl o) e1 && negb (same_nop o e1)); lia.
Qed.

(* c = what is left of the budget of operators of the loop once x is built *)
Definition resumes (x : expr) : Prop := forall d c pr rest e' r',
  hgt x <= S d -> spine x + c = d -> fits pr x -> no_extend x rest -> RL d c pr x rest e' r' -> RE (S d) pr (pp x ++ rest) e' r'.

Lemma no_extend_tail0 x rest : tail_ok 0 rest -> no_extend x rest.
Proof.
  intros H. destruct x; cbn [no_extend]; try (eapply tail_ok_mono; [|exact H]; lia).
  split; [eapply tail_ok_mono; [|exact H]; lia|]. eapply tail_ok_not_op; [exact H|lia].
Qed.

Lemma no_extend_bare m x rest : bare m x = true -> tail_ok m rest -> no_extend x rest.
Proof.
  intros Hb H. unfold bare in Hb. destruct x; cbn [lvl] in Hb; try discriminate Hb; cbn [no_extend];
    apply Nat.leb_le in Hb; try (eapply tail_ok_mono; [|exact H]; lia).
  split; [eapply tail_ok_mono; [|exact H]; lia|]. eapply tail_ok_not_op; [exact H|lia].
Qed.

Lemma not_op_rparen o r : not_op o (TRParen :: r).  Proof. destruct o; reflexivity. Qed.
Lemma no_extend_rparen x r : no_extend x (TRParen :: r).
Proof. destruct x; cbn [no_extend]; try apply tail_ok_rparen. split; [apply tail_ok_rparen|apply not_op_rparen]. Qed.
Lemma not_op_comma o r : not_op o (TComma :: r).  Proof. destruct o; reflexivity. Qed.
Lemma no_extend_comma x r : no_extend x (TComma :: r).
Proof. destruct x; cbn [no_extend]; try apply tail_ok_comma. split; [apply tail_ok_comma|apply not_op_comma]. Qed.
Lemma fits0 x : fits 0 x.
Proof. unfold fits. destruct (lvl x); [lia|exact I]. Qed.

(* the loop stops after x *)
Lemma A_stop x d pr rest : resumes x -> hgt x <= S d -> fits pr x -> no_extend x rest ->
  stops pr rest ->
  RE (S d) pr (pp x ++ rest) x rest.
Proof.
  intros A Hh Hf Hne Hs. pose proof (spine_lt x). apply (A d (d - spine x)); [exact Hh|lia|exact Hf|exact Hne|apply RL_stop; exact Hs].
Qed.

(* `( pp x )` *)
Lemma paren_ok x d0 R : resumes x -> hgt x <= S d0 -> is_cast (pp x ++ TRParen :: R) = false ->
  RP (S d0) (TLParen :: pp x ++ TRParen :: R) x R.
Proof.
  intros A Hh Hc. apply RP_paren; [exact Hc|]. apply A_stop; [exact A|exact Hh|apply fits0|apply no_extend_rparen|reflexivity].
Qed.

(* an operand that continues the loop of the current frame *)
Lemma operand_cont x d c pr m R e' r' : resumes x -> wf_expr x -> hgt x <= d -> pr <= m -> m <= 4 ->
  (if bare m x then spine x else 0) + c = d ->
  (bare m x = true -> no_extend x R) -> RL d c pr x R e' r' -> RE (S d) pr (pp_at m x ++ R) e' r'.
Proof.
  intros A W Hh Hpm Hm Hc Hne HL. unfold pp_at. destruct (bare m x) eqn:Eb.
  - apply (A d c); [lia|exact Hc| |apply Hne; reflexivity|exact HL].
    unfold bare in Eb. unfold fits. destruct (lvl x); [|exact I]. apply Nat.leb_le in Eb. lia.
  - cbn [Nat.add] in Hc. subst c. destruct d as [|d0]; [pose proof (hgt_pos x); lia|].
    unfold paren. cbn [app]. rewrite <- app_assoc. cbn [app].
    eapply RE_intro; [|exact HL]. apply paren_ok; [exact A|exact Hh|].
    apply is_cast_pp; [exact W|]. destruct x; try exact I. unfold bare in Eb. cbn [lvl] in Eb. apply Nat.leb_gt in Eb. lia.
Qed.

(* an operand read by its own frame *)
Lemma operand_ok x d m rest : resumes x -> wf_expr x -> hgt x <= d -> m <= 4 -> tail_ok m rest ->
  RE (S d) m (pp_at m x ++ rest) x rest.
Proof.
  intros A W Hh Hm Ht. pose proof (spine_lt x).
  apply (operand_cont x d (d - (if bare m x then spine x else 0))); try assumption; [lia| | |].
  - destruct (bare m x); lia.
  - intros Hb. eapply no_extend_bare; eauto.
  - apply RL_stop. apply tail_ok_stop. exact Ht.
Qed.

(* the arguments of a call:  `e1 , e2 , ... )` *)
Lemma args1_ok d0 x xs rest :
  Forall (fun y => wf_expr y /\ resumes y /\ hgt y <= S d0) (x :: xs) ->
  RA1 (S d0) (pp x ++ flat_map (fun y => [TComma] ++ pp y) xs ++ TRParen :: rest) (x :: xs) rest.
Proof.
  revert x. induction xs as [|y ys IH]; intros x HF; inversion HF as [|? ? (W & A & Hh) HF']; subst.
  - cbn [flat_map app]. apply RA1_last. apply A_stop; [exact A|exact Hh|apply fits0|apply no_extend_rparen|reflexivity].
  - cbn [flat_map]. assoc_app. eapply RA1_more; [|apply IH; exact HF'].
    apply A_stop; [exact A|exact Hh|apply fits0|apply no_extend_comma|reflexivity].
Qed.

Lemma args_ok d0 es rest :
  Forall (fun y => wf_expr y /\ resumes y /\ hgt y <= S d0) es ->
  RA (S d0) (sep_by [TComma] (map pp es) ++ TRParen :: rest) es rest.
Proof.
  intros HF. destruct es as [|x xs]; [apply RA_nil|]. rewrite sep_by_cons, <- app_assoc. apply RA_some.
  - inversion HF as [|? ? (W & _) _]; subst. destruct (head_pp x W) as (t & r & E & F). rewrite E. cbn [app].
    destruct t; try exact I. destruct F as [F|[F|F]]; discriminate F.
  - apply args1_ok. exact HF.
Qed.

(* the operands of an n-ary node after the first:  `OP e2 OP e3 ...` *)
Lemma collect_ok d0 o es rest :
  Forall (fun y => wf_expr y /\ resumes y /\ hgt y <= d0) es -> tail_ok (S (nop_lvl o)) rest -> not_op o rest ->
  RC (S d0) o (S (nop_lvl o)) (flat_map (fun y => [nop_tok o] ++ pp_at (S (nop_lvl o)) y) es ++ rest) es rest.
Proof.
  intros HF Ht Hn. induction HF as [|x xs (W & A & Hh) _ IH]; cbn [flat_map app].
  - apply RC_stop. exact Hn.
  - rewrite <- app_assoc. eapply RC_step; [apply is_nop_tok| |exact IH].
    apply operand_ok; try assumption; [destruct o; cbn; lia|].
    destruct xs as [|y ys]; [exact Ht|]. cbn [flat_map app]. apply tail_ok_nop. lia.
Qed.

Lemma split_last_snoc (q : qid) (fn : ident) : split_last (q ++ [fn]) = (q, fn).
Proof. unfold split_last. rewrite removelast_last, last_last. reflexivity. Qed.

Lemma Forall_and3 {A} (P Q R : A -> Prop) l : Forall P l -> Forall Q l -> Forall R l -> Forall (fun x => P x /\ Q x /\ R x) l.
Proof. induction 1; intros HQ HR; inversion HQ; inversion HR; subst; constructor; auto. Qed.
Lemma Forall_mp {A} (P Q : A -> Prop) l : Forall (fun x => P x -> Q x) l -> Forall P l -> Forall Q l.
Proof. induction 1; intros HP; inversion HP; subst; constructor; auto. Qed.

(* a first operand standing bare at the operator's own level L, followed by that operator (level L, not '(' nor '.',
   and -- if the operand is an n-ary node -- not the operand's own operator) *)
Lemma no_extend_left x t r L : bare L x = true -> op_lvl t = Some L -> t <> TLParen -> t <> TDot ->
  (forall o', is_nop o' t = true -> match x with ENary ox _ => ox <> o' | _ => True end) ->
  no_extend x (t :: r).
Proof.
  intros Hb Hl H1 H2 Hn. unfold bare in Hb. destruct x; cbn [lvl] in Hb; try discriminate Hb; apply Nat.leb_le in Hb;
    cbn [no_extend tail_ok]; rewrite ?Hl; try (repeat split; try assumption; try lia; pose proof (op_lvl_le3 t L Hl); lia).
  split; [repeat split; try assumption; lia|]. cbn [not_op]. destruct (is_nop o t) eqn:E; [|reflexivity].
  exfalso. apply (Hn o E). reflexivity.
Qed.

Theorem expr_roundtrip_loop e : wf_expr e -> resumes e.
Proof.
  induction e using expr_ind'; intros W; cbn [wf_expr] in W; intros d c pr rest e' r' Hh Hc Hf Hne HL; cbn [spine Nat.add] in Hc;
    try (subst c).
  - eapply RE_intro; [apply RP_bool|exact HL].
  - eapply RE_intro; [apply RP_int|exact HL].
  - eapply RE_intro; [apply RP_real|exact HL].
  - eapply RE_intro; [apply RP_str|exact HL].
  - (* cast *)
    destruct W as [Wq Wx]. cbn [hgt] in Hh. cbn [no_extend] in Hne. destruct d as [|d0]; [lia|].
    rewrite pp_cast. cbn [app]. rewrite <- app_assoc. cbn [app].
    eapply RE_intro; [|exact HL].
    destruct (cast_arg_cases e Wx) as [(Ec & t & r & Ep & Hs)|(Ec & t & r & Ep & Hs)]; rewrite Ec.
    + eapply RP_cast.
      * rewrite is_cast_qid; [|exact Wq|exact I]. rewrite Ep. exact Hs.
      * apply p_qid_pp; [exact Wq|exact I].
      * apply A_stop; [apply IHe; exact Wx|lia|apply fits0|apply no_extend_tail0; exact Hne|apply tail_ok_stop; exact Hne].
    + destruct d0 as [|d1]; [pose proof (hgt_pos e); lia|]. eapply RP_cast.
      * rewrite is_cast_qid; [|exact Wq|exact I]. reflexivity.
      * apply p_qid_pp; [exact Wq|exact I].
      * unfold paren. cbn [app]. rewrite <- app_assoc. cbn [app]. eapply RE_intro.
        -- apply paren_ok; [apply IHe; exact Wx|lia|]. rewrite Ep. destruct Hs as [-> | ->]; reflexivity.
        -- apply RL_stop. apply tail_ok_stop. exact Hne.
  - (* unary *)
    cbn [hgt] in Hh. cbn [no_extend] in Hne. destruct d as [|d0]; [lia|]. rewrite pp_un. cbn [app].
    eapply RE_intro; [|exact HL]. apply RP_un. apply operand_ok; [apply IHe; exact W|exact W|lia|lia|exact (tail_ok_any _ _ Hne)].
  - (* new *)
    destruct W as [Wq Wa]. apply fold_and_all in Wa. cbn [hgt] in Hh. destruct d as [|d0]; [lia|].
    rewrite pp_new. cbn [app]. assoc_app.
    eapply RE_intro; [|exact HL]. eapply RP_new; [apply p_qid_pp; [exact Wq|exact I]|].
    apply args_ok. apply Forall_and3; [exact Wa|eapply Forall_mp; eauto|].
    eapply Forall_impl; [|apply (maxl_all hgt es d0); lia]. cbn beta. intros; lia.
  - (* binary *)
    destruct W as [Wl Wr]. cbn [hgt] in Hh. cbn [no_extend] in Hne. unfold fits in Hf. cbn [lvl] in Hf.
    destruct d as [|d0]; [lia|]. rewrite pp_bin, <- app_assoc. cbn [app].
    apply (operand_cont e1 (S d0) (S c)); [apply IHe1; exact Wl|exact Wl|lia|exact Hf|destruct o; cbn; lia|lia| |].
    + intros Hb. apply (no_extend_left _ _ _ (bin_lvl o) Hb (op_lvl_bin o)); [destruct o; discriminate..|].
      intros o' Ho'. rewrite is_nop_bin in Ho'. discriminate Ho'.
    + eapply RL_bin; [apply bin_of_tok|exact Hf| |exact HL].
      apply operand_ok; [apply IHe2; exact Wr|exact Wr|lia|destruct o; cbn; lia|exact Hne].
  - (* function call *)
    apply fold_and_all in W. cbn [hgt] in Hh. destruct d as [|d0]; [lia|].
    rewrite pp_fun. assoc_app.
    destruct (q ++ [fn]) as [|x xs] eqn:Eq; [destruct q; discriminate|]. rewrite pp_qid_cons. cbn [app].
    eapply RE_intro; [|exact HL]. eapply RP_fun; [apply p_dots_pp; exact I|rewrite <- Eq; apply split_last_snoc|].
    apply args_ok. apply Forall_and3; [exact W|eapply Forall_mp; eauto|].
    eapply Forall_impl; [|apply (maxl_all hgt es d0); lia]. cbn beta. intros; lia.
  - (* identifier *)
    cbn [no_extend] in Hne. destruct q as [|x xs]; [congruence|]. cbn [pp]. rewrite pp_qid_cons. cbn [app].
    eapply RE_intro; [|exact HL]. apply RP_id; [apply p_dots_pp; eapply tail_ok_no_dot; exact Hne|].
    destruct rest as [|t r]; [exact I|]. destruct t; try exact I. cbn in Hne. destruct Hne as (Hne & _). congruence.
  - (* n-ary *)
    destruct W as [Wn Wa]. apply fold_and_all in Wa. cbn [hgt] in Hh. cbn [no_extend] in Hne. destruct Hne as [Ht Hno].
    unfold fits in Hf. cbn [lvl] in Hf. destruct d as [|d0]; [lia|].
    destruct es as [|e1 es']; [cbn in Wn; lia|]. destruct es' as [|e2 es'']; [cbn in Wn; lia|]. cbn [spine Nat.add] in Hc.
    rewrite pp_nary, <- app_assoc.
    inversion H as [|? ? H1 H2]; subst. inversion Wa as [|? ? W1 W2]; subst.
    assert (Hall : Forall (fun x => hgt x <= d0) (e1 :: e2 :: es'')) by (apply maxl_all; lia).
    inversion Hall as [|? ? Hh1 Hh2]; subst.
    assert (HRL : RL (S d0) (S c) pr e1 (flat_map (fun x => [nop_tok o] ++ pp_at (S (nop_lvl o)) x) (e2 :: es'') ++ rest) e' r').
    { cbn [flat_map app]. eapply RL_nary; [apply bin_of_nop|apply nary_of_tok|exact Hf| |exact HL].
      apply (collect_ok d0 o (e2 :: es'') rest); [|exact Ht|exact Hno].
      apply Forall_and3; [exact W2|eapply Forall_mp; eauto|exact Hh2]. }
    unfold pp_first. destruct (bare (nop_lvl o) e1 && negb (same_nop o e1)) eqn:Eb.
    + apply andb_true_iff in Eb. destruct Eb as [Eb Es].
      apply (H1 W1 (S d0) (S c)); [lia|lia| | |exact HRL].
      * unfold bare in Eb. unfold fits. destruct (lvl e1); [|exact I]. apply Nat.leb_le in Eb. lia.
      * cbn [flat_map app]. apply (no_extend_left _ _ _ (nop_lvl o) Eb (op_lvl_nop o)); [destruct o; discriminate..|].
        intros o' Ho'. apply is_nop_inj in Ho'. subst o'. destruct e1; try exact I. cbn [same_nop] in Es. intros ->.
        destruct o; discriminate Es.
    + assert (Ec : S c = S d0) by lia. rewrite Ec in HRL. unfold paren. cbn [app]. rewrite <- app_assoc. cbn [app].
      eapply RE_intro; [|exact HRL]. apply paren_ok; [apply H1; exact W1|lia|].
      apply is_cast_pp; [exact W1|]. destruct e1; try exact I. cbn in Eb. destruct (nop_lvl o <=? 4) eqn:E4; [discriminate Eb|].
      apply Nat.leb_gt in E4. destruct o; cbn in E4; lia.
Qed.

(* an expression read as a top-level operand: `pp e` followed by a token that ends it *)
Lemma expr_read e d rest : wf_expr e -> hgt e <= S d -> tail_ok 0 rest -> RE (S d) 0 (pp e ++ rest) e rest.
Proof.
  intros W Hh Ht.
  exact (A_stop e d 0 rest (expr_roundtrip_loop e W) Hh (fits0 e) (no_extend_tail0 e rest Ht) (tail_ok_stop 0 rest Ht)).
Qed.

Lemma p_expr_pp_depth e rest d f : wf_expr e -> hgt e <= S d -> tail_ok 0 rest ->
  8 * List.length (pp e ++ rest) + 1 < f -> p_expr f (S d) 0 (pp e ++ rest) = Ok e rest.
Proof.
  intros W Hh Ht Hf. apply (reads_det (fun f => p_expr f (S d) 0 (pp e ++ rest)) _ _ _ (fun f => run_mono (p_expr_run f _ _ _))).
  - exact (expr_read e d rest W Hh Ht).
  - apply nf_p_expr. exact Hf.
Qed.

(* reading what the printer writes for an expression gives back the expression (up to MAX_DEPTH nested frames) *)
Theorem parse_expr_pp e rest : wf_expr e -> hgt e <= MAX_DEPTH -> tail_ok 0 rest -> parse_expr (pp e ++ rest) = Ok e rest.
Proof.
  intros W Hh Ht. unfold parse_expr. change MAX_DEPTH with (S 999) in *. apply p_expr_pp_depth; try assumption.
  unfold parse_fuel. lia.
Qed.

(* after the identifier(s) an expression begins with comes an operator, '(' or the end of the expression *)
Definition follows_ok (rest : list token) : Prop := exists t r, rest = t :: r /\ expr_follow t = true.

Lemma expr_follow_bin o : expr_follow (bin_tok o) = true.  Proof. destruct o; reflexivity. Qed.
Lemma expr_follow_nop o : expr_follow (nop_tok o) = true.  Proof. destruct o; reflexivity. Qed.

Lemma lead_qid e : wf_expr e -> forall x r rest, pp e = TId x :: r -> follows_ok rest ->
  exists xs r', r ++ rest = dots xs ++ r' /\ follows_ok r'.
Proof.
  induction e using expr_ind'; intros W x r rest E HF; cbn [wf_expr] in W; try discriminate E.
  - rewrite pp_un in E. destruct o; discriminate E.
  - destruct W as [Wl Wr]. rewrite pp_bin in E. unfold pp_at at 1 in E. destruct (bare (bin_lvl o) e1); [|discriminate E].
    destruct (pp e1) as [|t1 r1] eqn:E1; [destruct (head_pp e1 Wl) as (? & ? & E0 & _); congruence|].
    cbn [app] in E. injection E as -> <-.
    destruct (IHe1 Wl x r1 (bin_tok o :: pp_at (S (bin_lvl o)) e2 ++ rest) eq_refl) as (xs & r' & Er & Fr).
    { eexists _, _. split; [reflexivity|apply expr_follow_bin]. }
    exists xs, r'. split; [|exact Fr]. rewrite <- Er. assoc_app. reflexivity.
  - rewrite pp_fun in E. destruct (q ++ [fn]) as [|y ys] eqn:Eq; [destruct q; discriminate|]. rewrite pp_qid_cons in E.
    cbn [app] in E. injection E as -> <-. exists ys. eexists. split; [rewrite <- app_assoc; reflexivity|].
    eexists _, _. split; [reflexivity|reflexivity].
  - destruct q as [|y ys]; [congruence|]. cbn [pp] in E. rewrite pp_qid_cons in E. injection E as -> <-.
    exists ys, rest. split; [reflexivity|exact HF].
  - destruct W as [Wn Wa]. apply fold_and_all in Wa. destruct es as [|e1 es']; [cbn in Wn; lia|]. destruct es' as [|e2 es'']; [cbn in Wn; lia|].
    rewrite pp_nary in E. inversion H as [|? ? H1 _]; subst. inversion Wa as [|? ? W1 _]; subst.
    unfold pp_first in E. destruct (bare (nop_lvl o) e1 && negb (same_nop o e1)); [|discriminate E].
    destruct (pp e1) as [|t1 r1] eqn:E1; [destruct (head_pp e1 W1) as (? & ? & E0 & _); congruence|].
    cbn [app flat_map] in E. injection E as -> <-.
    destruct (H1 W1 x r1 (nop_tok o :: pp_at (S (nop_lvl o)) e2 ++ flat_map (fun y => [nop_tok o] ++ pp_at (S (nop_lvl o)) y) es'' ++ rest) eq_refl)
      as (xs & r' & Er & Fr).
    { eexists _, _. split; [reflexivity|apply expr_follow_nop]. }
    exists xs, r'. split; [|exact Fr]. rewrite <- Er. assoc_app. reflexivity.
Qed.

Lemma tail_ok_semicolon m r : tail_ok m (TSemicolon :: r).  Proof. cbn. repeat split; discriminate. Qed.

(* An expression statement. The statement parser and the dispatch of `parse` take the text of an expression followed by ';'
   for one: they look at its first token, an operand's, or at the token after a leading `ID (. ID)*`. *)

Lemma stmt_operand t r : first_ok t -> (forall s, t <> TId s) ->
  (forall f d, p_stmt (S f) (S d) (t :: r) = p_expr_stmt f d (t :: r)) /\ unit_kind_of (t :: r) = Ok UStmt (t :: r).
Proof.
  intros [H|[->| ->]] N; [|split; reflexivity..].
  destruct t; try discriminate H; try (split; reflexivity). destruct (N _ eq_refl).
Qed.
Lemma stmt_qid s xs t r : expr_follow t = true ->
  (forall f d, p_stmt (S f) (S d) (TId s :: dots xs ++ t :: r) = p_expr_stmt f d (TId s :: dots xs ++ t :: r)) /\
  unit_kind_of (TId s :: dots xs ++ t :: r) = Ok UStmt (TId s :: dots xs ++ t :: r).
Proof.
  intros H. assert (Hd : p_dots (dots xs ++ t :: r) = Ok xs (t :: r)) by (apply p_dots_pp; destruct t; (exact I || discriminate H)).
  split; [intros f d|]; cbn [p_stmt unit_kind_of]; rewrite Hd; cbn [bind]; destruct t; try discriminate H; reflexivity.
Qed.
Lemma expr_stmt_head e rest : wf_expr e ->
  (forall f d, p_stmt (S f) (S d) (pp e ++ TSemicolon :: rest) = p_expr_stmt f d (pp e ++ TSemicolon :: rest)) /\
  unit_kind_of (pp e ++ TSemicolon :: rest) = Ok UStmt (pp e ++ TSemicolon :: rest).
Proof.
  intros W. destruct (head_pp e W) as (t & r & Ep & Ft).
  assert (Hcase : (exists s, t = TId s) \/ (forall s, t <> TId s)).
  { destruct t; try (right; intros; discriminate). left. eexists. reflexivity. }
  destruct Hcase as [[s ->]|N].
  - destruct (lead_qid e W s r (TSemicolon :: rest) Ep) as (xs & r' & Er & t' & r'' & -> & Ft'); [eexists _, _; split; reflexivity|].
    rewrite Ep. cbn [app]. rewrite Er. apply stmt_qid. exact Ft'.
  - rewrite Ep. apply stmt_operand; assumption.
Qed.

(* the statement `e ;` is read with a budget one above what e needs *)
Lemma expr_stmt_read e d rest : wf_expr e -> hgt e <= d -> reads (fun f => p_stmt f (S d) (pp e ++ TSemicolon :: rest)) (SExpr e) rest.
Proof.
  intros W Hh. destruct d as [|d0]; [pose proof (hgt_pos e); lia|].
  eapply reads_S; [intros f; apply (proj1 (expr_stmt_head e rest W))|].
  eapply reads_bind; [exact (expr_read e d0 _ W Hh (tail_ok_semicolon 0 rest))|apply reads_ret].
Qed.

(* one round of the loop of `parse` on a statement *)
Lemma units_stmt ts r0 s rest u : ts <> [] -> unit_kind_of ts = Ok UStmt r0 -> reads (fun f => p_stmt f MAX_DEPTH ts) s rest ->
  reads (fun f => p_units f rest) u [] ->
  reads (fun f => p_units f ts) (CU (cu_types u) (cu_methods u) (cu_preds u) (s :: cu_stmts u)) [].
Proof.
  intros Hne Hk. apply loop_step with (PG := p_units) (k := fun s u => CU (cu_types u) (cu_methods u) (cu_preds u) (s :: cu_stmts u)).
  intros f. destruct ts; [congruence|]. cbn [p_units]. rewrite Hk. reflexivity.
Qed.
Lemma units_nil : reads (fun f => p_units f []) (CU [] [] [] []) [].
Proof. exists 1. intros [|f] Hf; [lia|reflexivity]. Qed.

(* `parse` supplies enough fuel for whatever p_units reads *)
Lemma parse_reads ts u : reads (fun f => p_units f ts) u [] -> parse ts = Ok u [].
Proof.
  intros H. apply (reads_det (fun f => p_units f ts) _ _ _ (fun f => run_mono (p_units_run f ts)) H).
  apply nf_p_units. unfold parse_fuel. lia.
Qed.

(* an expression statement as a whole program *)
Theorem parse_expr_stmt e : wf_expr e -> hgt e <= 999 ->
  parse (pp e ++ [TSemicolon]) = Ok (CU [] [] [] [SExpr e]) [].
Proof.
  intros W Hh. apply parse_reads.
  apply units_stmt with (2 := proj2 (expr_stmt_head e [] W)) (rest := []) (u := CU [] [] [] []);
    [destruct (pp e); discriminate|apply expr_stmt_read; assumption|apply units_nil].
Qed.

Theorem parse_unit_expr_stmt e : wf_expr e -> hgt e <= 999 ->
  parse (pp_unit (CU [] [] [] [SExpr e])) = Ok (CU [] [] [] [SExpr e]) [].
Proof.
  intros W H. cbn [pp_unit cu_types cu_methods cu_preds cu_stmts flat_map pp_stmt app]. rewrite app_nil_r.
  exact (parse_expr_stmt e W H).
Qed.

(* examples: the hypotheses are satisfiable *)
Definition ex_id (s : string) : expr := EId [la s].
(* x == (3.0 + 1.0) * 2.0  and a cast, a call, a constructor, unary operators, n-ary operands *)
Definition ex_expr : expr :=
  EBin BEq (ex_id "x")
    (ENary NMul [ENary NAdd [EReal (la "3") (la "0"); EReal (la "1") (la "0")]; EReal (la "2") (la "0");
                 EUn UMinus (ECast [la "T"] (EFun [la "a"] (la "f") [ENew [la "A"; la "B"] []; EUn UNot (EBool true)]))]).
Example ex_expr_wf : wf_expr ex_expr /\ hgt ex_expr <= 999.
Proof. cbn. repeat split; try discriminate; lia. Qed.
Example ex_expr_roundtrip : parse (pp ex_expr ++ [TSemicolon]) = Ok (CU [] [] [] [SExpr ex_expr]) [].
Proof. apply parse_expr_stmt; apply ex_expr_wf. Qed.

(* the printer writes left-nested chains without parentheses, and only those *)
Example ex_left_assoc_printed :
  pp (ENary NAdd [ENary NSub [ex_id "a"; ex_id "b"]; ex_id "c"]) = [TId (la "a"); TMinus; TId (la "b"); TPlus; TId (la "c")] /\
  pp (ENary NSub [ex_id "a"; ENary NAdd [ex_id "b"; ex_id "c"]]) = [TId (la "a"); TMinus; TLParen; TId (la "b"); TPlus; TId (la "c"); TRParen] /\
  pp (EBin BLt (EBin BLt (ex_id "a") (ex_id "b")) (ex_id "c")) = [TId (la "a"); TLt; TId (la "b"); TLt; TId (la "c")] /\
  pp (ENary NAdd [ENary NAdd [ex_id "a"; ex_id "b"]; ex_id "c"]) = [TLParen; TId (la "a"); TPlus; TId (la "b"); TRParen; TPlus; TId (la "c")].
Proof. repeat split; reflexivity. Qed.

(* a - b + c * d < e == f  groups as  ((a - b) + (c * d) < e) == f ;  a | b & c  as  (a | b) & c ;  -a * b as (-a) * b *)
Example ex_grouping :
  parse_expr [TId (la "a"); TMinus; TId (la "b"); TPlus; TId (la "c"); TStar; TId (la "d"); TLt; TId (la "e"); TEqEq; TId (la "f")]
  = Ok (EBin BEq (EBin BLt (ENary NAdd [ENary NSub [ex_id "a"; ex_id "b"]; ENary NMul [ex_id "c"; ex_id "d"]]) (ex_id "e")) (ex_id "f")) []
  /\ parse_expr [TId (la "a"); TBar; TId (la "b"); TAmp; TId (la "c")] = Ok (ENary NAnd [ENary NOr [ex_id "a"; ex_id "b"]; ex_id "c"]) []
  /\ parse_expr [TMinus; TId (la "a"); TStar; TId (la "b")] = Ok (ENary NMul [EUn UMinus (ex_id "a"); ex_id "b"]) []
  /\ parse_expr [TId (la "a"); TMinus; TId (la "b"); TMinus; TId (la "c")] = Ok (ENary NSub [ex_id "a"; ex_id "b"; ex_id "c"]) [].
Proof. vm_compute. repeat split; reflexivity. Qed.
