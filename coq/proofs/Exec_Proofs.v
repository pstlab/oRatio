(* C19 -- lemmas about the executor model coq/plan/Exec.v.

   The bookkeeping of the start notifications (s_atms, started, delayed_s, the planned time pa_start) and that of the
   end notifications (e_atms, ended, delayed_e, p_end) obey the same rules.  `side_ok` states them once; the invariant
   `Inv` of the executor state, a flat record, amounts to the two sides plus what links them (every pulse has an atom, an
   ended atom was started): Inv_sides, sides_Inv.  `Good` ties the state to the trace, `tick_inv` to the events of the
   tick under way. *)
From Coq Require Import List QArith Lia Lqa.
From ORatio Require Import plan.Exec proofs.PlanLists_Proofs.
Import ListNotations.
Local Close Scope Q_scope.


Section Proofs.
  Variable T : Type.
  Variable leb : T -> T -> bool.
  Variable inj : Q -> T.
  Variable tadd : T -> Q -> T.
  Hypothesis leb_total : forall a b, leb a b = true \/ leb b a = true.
  Hypothesis leb_trans : forall a b c, leb a b = true -> leb b c = true -> leb a c = true.

  Notation ltb := (ltb leb).
  Notation teqb := (teqb leb).
  Notation patom := (patom T).
  Notation plan := (plan T).
  Notation state := (state T).
  Notation ev := (ev T).
  Notation EvStarting := (EvStarting T).
  Notation EvEnding := (EvEnding T).
  Notation EvDelayS := (EvDelayS T).
  Notation EvDelayE := (EvDelayE T).
  Notation EvTick := (EvTick T).

  Lemma leb_refl : forall a, leb a a = true.
  Proof. intro a. destruct (leb_total a a); assumption. Qed.

  Lemma teqb_refl : forall a, teqb a a = true.
  Proof. intro a. unfold Exec.teqb. rewrite leb_refl. reflexivity. Qed.

  Lemma teqb_sym : forall a b, teqb a b = true -> teqb b a = true.
  Proof. unfold Exec.teqb. intros a b H. apply andb_true_iff in H. destruct H as [H1 H2]. rewrite H1, H2. reflexivity. Qed.

  Lemma teqb_trans : forall a b c, teqb a b = true -> teqb b c = true -> teqb a c = true.
  Proof.
    unfold Exec.teqb. intros a b c H1 H2.
    apply andb_true_iff in H1. apply andb_true_iff in H2. destruct H1 as [A1 A2]. destruct H2 as [B1 B2].
    rewrite (leb_trans _ _ _ A1 B1), (leb_trans _ _ _ B2 A2). reflexivity.
  Qed.

  Lemma teqb_leb : forall a b, teqb a b = true -> leb a b = true.
  Proof. unfold Exec.teqb. intros a b H. apply andb_true_iff in H. tauto. Qed.

  Lemma teqb_leb' : forall a b, teqb a b = true -> leb b a = true.
  Proof. unfold Exec.teqb. intros a b H. apply andb_true_iff in H. tauto. Qed.

  Lemma ltb_not_leb : forall a b, ltb a b = true -> leb b a = false.
  Proof. unfold Exec.ltb. intros a b H. apply negb_true_iff in H. exact H. Qed.

  Lemma ltb_leb : forall a b, ltb a b = true -> leb a b = true.
  Proof. intros a b H. apply ltb_not_leb in H. destruct (leb_total a b) as [X|X]; [exact X | congruence]. Qed.

  Lemma leb_ltb_trans : forall a b c, leb a b = true -> ltb b c = true -> ltb a c = true.
  Proof.
    intros a b c H1 H2. unfold Exec.ltb in *. apply negb_true_iff in H2. apply negb_true_iff.
    destruct (leb c a) eqn:E; [|reflexivity]. rewrite (leb_trans _ _ _ E H1) in H2. discriminate.
  Qed.

  Lemma ltb_leb_trans : forall a b c, ltb a b = true -> leb b c = true -> ltb a c = true.
  Proof.
    intros a b c H1 H2. unfold Exec.ltb in *. apply negb_true_iff in H1. apply negb_true_iff.
    destruct (leb c a) eqn:E; [|reflexivity]. rewrite (leb_trans _ _ _ H2 E) in H1. discriminate.
  Qed.

  Lemma mem_In : forall a l, mem a l = true <-> In a l.
  Proof.
    intros a l. unfold mem. rewrite existsb_exists. split.
    - intros [x [Hx He]]. apply Nat.eqb_eq in He. subst. exact Hx.
    - intro H. exists a. split; [exact H | apply Nat.eqb_refl].
  Qed.

  Lemma mem_false : forall a l, mem a l = false <-> ~ In a l.
  Proof. intros a l. rewrite <- mem_In. destruct (mem a l); split; congruence. Qed.

  Lemma nodupb_NoDup : forall l, nodupb l = true <-> NoDup l.
  Proof.
    induction l as [|x r IH]; simpl.
    - split; [constructor | reflexivity].
    - rewrite andb_true_iff, negb_true_iff, IH, mem_false. split.
      + intros [H1 H2]. constructor; assumption.
      + intro H. inversion H; subst. split; assumption.
  Qed.

  Lemma min_pulse_spec : forall l p, min_pulse leb l = Some p -> In p l /\ forall x, In x l -> leb p x = true.
  Proof.
    induction l as [|x r IH]; simpl; intros p H; [discriminate|].
    destruct (min_pulse leb r) as [m|] eqn:E.
    - destruct (IH m eq_refl) as [Hin Hmin].
      destruct (leb x m) eqn:Exm; inversion H; subst; clear H.
      + split; [left; reflexivity|]. intros y [Hy|Hy]; [subst; apply leb_refl|].
        eapply leb_trans; [exact Exm | apply Hmin; exact Hy].
      + split; [right; exact Hin|]. intros y [Hy|Hy]; [subst|apply Hmin; exact Hy].
        destruct (leb_total p y) as [X|X]; [exact X | congruence].
    - inversion H; subst. destruct r; [|simpl in E; destruct (min_pulse leb r); discriminate].
      split; [left; reflexivity|]. intros y [Hy|[]]. subst. apply leb_refl.
  Qed.

  Lemma min_pulse_none : forall l, min_pulse leb l = None -> l = [].
  Proof. destruct l as [|x r]; simpl; [reflexivity|]. destruct (min_pulse leb r); discriminate. Qed.

  Lemma atoms_at_In : forall p l e, In e (atoms_at leb p l) <-> In e l /\ teqb (fst e) p = true.
  Proof. intros p l e. unfold atoms_at. apply filter_In. Qed.

  Lemma drop_pulse_In : forall p l x, In x (drop_pulse leb p l) <-> In x l /\ teqb x p = false.
  Proof. intros p l x. unfold drop_pulse. rewrite filter_In, negb_true_iff. reflexivity. Qed.

  Lemma keys_app : forall (B : Type) (l1 l2 : list (nat * B)), keys (l1 ++ l2) = keys l1 ++ keys l2.
  Proof. intros. unfold keys. apply map_app. Qed.

  Lemma keys_swap : forall (l : list (T * nat)), keys (map (fun e => (snd e, fst e)) l) = map snd l.
  Proof. intros l. unfold keys. rewrite map_map. reflexivity. Qed.

  Lemma In_keys : forall (B : Type) (l : list (nat * B)) a, In a (keys l) <-> exists v, In (a, v) l.
  Proof.
    intros B l a. unfold keys. rewrite in_map_iff. split.
    - intros [[x v] [H1 H2]]. simpl in H1. subst. exists v. exact H2.
    - intros [v H]. exists (a, v). split; [reflexivity | exact H].
  Qed.

  Lemma in_swap : forall (l : list (T * nat)) a v, In (a, v) (map (fun e => (snd e, fst e)) l) <-> In (v, a) l.
  Proof.
    intros l a v. rewrite in_map_iff. split.
    - intros [[q b] [E H]]. simpl in E. inversion E; subst. exact H.
    - intro H. exists (v, a). split; [reflexivity|exact H].
  Qed.

  Lemma in_map_snd : forall (l : list (T * nat)) a, In a (map snd l) <-> exists q, In (q, a) l.
  Proof.
    intros l a. rewrite in_map_iff. split.
    - intros [[q b] [E H]]. simpl in E. subst b. exists q. exact H.
    - intros [q H]. exists (q, a). split; [reflexivity|exact H].
  Qed.

  Lemma nodup_snd_same : forall (l : list (T * nat)) q q' a,
    NoDup (map snd l) -> In (q, a) l -> In (q', a) l -> q = q'.
  Proof. intros l q q' a Hnd H1 H2. exact (f_equal fst (NoDup_map_inj _ _ snd l _ _ Hnd H1 H2 eq_refl)). Qed.

  Definition swap (e : T * nat) : nat * T := (snd e, fst e).

  Notation wf_plan := (wf_plan leb).
  Notation bound_holds := (bound_holds leb).
  Notation respects := (respects leb).

  Lemma wf_planb_sound : forall p, wf_planb leb p = true -> wf_plan p.
  Proof.
    intros p H. unfold wf_planb in H. apply andb_true_iff in H. destruct H as [H1 H2].
    split; [apply nodupb_NoDup; exact H1|]. rewrite forallb_forall in H2. exact H2.
  Qed.

  Lemma frozen_ok_sound : forall id x l, frozen_ok leb id x l = true -> forall v, In (id, v) l -> teqb x v = true.
  Proof.
    intros id x l H v Hv. unfold frozen_ok in H. rewrite forallb_forall in H.
    specialize (H _ Hv). simpl in H. rewrite Nat.eqb_refl in H. exact H.
  Qed.

  Lemma bounds_ok_sound : forall id x l, bounds_ok leb id x l = true -> forall b, In b l -> b_id b = id -> bound_holds b x.
  Proof.
    intros id x l H b Hb Hid. unfold bounds_ok in H. rewrite forallb_forall in H.
    specialize (H _ Hb). rewrite Hid, Nat.eqb_refl in H. unfold Exec.bound_holds. destruct (b_strict b); exact H.
  Qed.

  Lemma respectsb_sound : forall s p, respectsb leb s p = true -> respects s p.
  Proof.
    intros s p H a Ha. unfold respectsb in H. rewrite forallb_forall in H. specialize (H _ Ha).
    repeat (apply andb_true_iff in H; destruct H as [H ?]).
    repeat split; first [apply frozen_ok_sound | apply bounds_ok_sound]; assumption.
  Qed.

  Lemma contract_okb_sound : forall s p, contract_okb leb s p = true -> wf_plan p /\ respects s p.
  Proof.
    intros s p H. unfold contract_okb in H. apply andb_true_iff in H. destruct H.
    split; [apply wf_planb_sound | apply respectsb_sound]; assumption.
  Qed.

  (* two atoms of a well-formed plan with the same identity are the same *)
  Lemma wf_same : forall p a b, NoDup (map (@pa_id T) p) -> In a p -> In b p -> pa_id a = pa_id b -> a = b.
  Proof. intros p a b. apply NoDup_map_inj. Qed.

  (* the executor that consults the started / ended sets (cut_by_time = false: with notes/fixes/C19-02) *)
  Variable c : cfg.
  Hypothesis Hcut : cut_by_time c = false.
  Variable units : Q.
  Variable L : Type.
  Variable l_starting : L -> list nat -> L * (list (nat * Q) * list (nat * Q)).
  Variable l_ending : L -> list nat -> L * (list (nat * Q) * list (nat * Q)).
  Variable resolve : nat -> state -> why -> option plan.

  Notation build := (build leb inj c).
  Notation body := (body leb inj tadd c l_starting l_ending resolve).
  Notation loop := (loop leb inj tadd c l_starting l_ending resolve).
  Notation tick := (tick leb inj tadd c units l_starting l_ending resolve).
  Notation failure := (failure leb inj c resolve).
  Notation step := (step leb inj tadd c units l_starting l_ending resolve).
  Notation run := (run leb inj tadd c units l_starting l_ending resolve).
  Notation init := (init leb inj c).

  Definition near (q : T) (l : list T) : Prop := exists q', In q' l /\ teqb q q' = true.

  Record Inv (s : state) : Prop := mkInv {
    iW : wf_plan (cur s);
    iR : respects s (cur s);
    iS1 : forall q a, In (q, a) (s_atms s) -> exists pa, In pa (cur s) /\ pa_id pa = a /\ pa_start pa = q;
    iE1 : forall q a, In (q, a) (e_atms s) -> exists pa, In pa (cur s) /\ pa_id pa = a /\ p_end pa = q;
    iS2 : forall pa, In pa (cur s) -> ~ In (pa_id pa) (keys (started s)) ->
                     In (pa_start pa, pa_id pa) (s_atms s) /\ In (pa_start pa) (pulses s);
    iE2 : forall pa, In pa (cur s) -> ~ In (pa_id pa) (keys (ended s)) ->
                     In (p_end pa, pa_id pa) (e_atms s) /\ In (p_end pa) (pulses s);
    iS3 : forall q a, In (q, a) (s_atms s) -> near q (pulses s) -> ~ In a (keys (started s));
    iE3 : forall q a, In (q, a) (e_atms s) -> near q (pulses s) -> ~ In a (keys (ended s));
    iS4 : NoDup (map snd (s_atms s));
    iE4 : NoDup (map snd (e_atms s));
    iP : forall q, In q (pulses s) -> (exists a, In (q, a) (s_atms s)) \/ (exists a, In (q, a) (e_atms s));
    iSE : incl (keys (ended s)) (keys (started s));
    iN1 : NoDup (keys (started s));
    iN2 : NoDup (keys (ended s))
  }.
  Arguments iW {s}.
  Arguments iR {s}.
  Arguments iS1 {s}.
  Arguments iE1 {s}.
  Arguments iS2 {s}.
  Arguments iE2 {s}.
  Arguments iS3 {s}.
  Arguments iE3 {s}.
  Arguments iS4 {s}.
  Arguments iE4 {s}.
  Arguments iP {s}.
  Arguments iSE {s}.
  Arguments iN1 {s}.
  Arguments iN2 {s}.

  (* One side of the bookkeeping: tm is the planned time of an atom on this side, atms the timeline built from the
     plan, dn the atoms notified so far with the time frozen at the notification, bnds the bounds left by delays. *)
  Record side_ok (cur : plan) (pulses : list T) (tm : patom -> T)
         (atms : list (T * nat)) (dn : list (nat * T)) (bnds : list (bound T)) : Prop := mkSide {
    sFrozen : forall a v, In a cur -> In (pa_id a, v) dn -> teqb (tm a) v = true;
    sBound : forall a b, In a cur -> In b bnds -> b_id b = pa_id a -> bound_holds b (tm a);
    sPlanned : forall q a, In (q, a) atms -> exists pa, In pa cur /\ pa_id pa = a /\ tm pa = q;
    sPending : forall pa, In pa cur -> ~ In (pa_id pa) (keys dn) -> In (tm pa, pa_id pa) atms /\ In (tm pa) pulses;
    sFresh : forall q a, In (q, a) atms -> near q pulses -> ~ In a (keys dn);
    sAtms : NoDup (map snd atms);
    sDone : NoDup (keys dn)
  }.
  Arguments sFrozen {cur pulses tm atms dn bnds}.
  Arguments sBound {cur pulses tm atms dn bnds}.
  Arguments sPlanned {cur pulses tm atms dn bnds}.
  Arguments sPending {cur pulses tm atms dn bnds}.
  Arguments sFresh {cur pulses tm atms dn bnds}.
  Arguments sAtms {cur pulses tm atms dn bnds}.
  Arguments sDone {cur pulses tm atms dn bnds}.

  Definition start_side (s : state) : Prop :=
    side_ok (cur s) (pulses s) (@pa_start T) (s_atms s) (started s) (delayed_s s).
  Definition end_side (s : state) : Prop :=
    side_ok (cur s) (pulses s) (@p_end T) (e_atms s) (ended s) (delayed_e s).

  Lemma Inv_sides : forall s, Inv s -> start_side s /\ end_side s.
  Proof.
    intros s [W R S1 E1 S2 E2 S3 E3 S4 E4 P SE N1 N2].
    split; constructor; try assumption; intros a x Ha; apply (R a Ha).
  Qed.

  Lemma sides_Inv : forall s,
    wf_plan (cur s) -> start_side s -> end_side s ->
    (forall q, In q (pulses s) -> (exists a, In (q, a) (s_atms s)) \/ (exists a, In (q, a) (e_atms s))) ->
    incl (keys (ended s)) (keys (started s)) -> Inv s.
  Proof.
    intros s W [F1 B1 P1 Q1 R1 A1 D1] [F2 B2 P2 Q2 R2 A2 D2] P SE. constructor; try assumption.
    intros a Ha. split; [|split; [|split]]; intros x Hx; eauto.
  Qed.

  (* build_timelines, with the started / ended sets: an atom of the new plan gets an entry unless it is done *)
  Definition entry (skip : patom -> bool) (tm : patom -> T) (a : patom) : list (T * nat) :=
    if skip a then [] else [(tm a, pa_id a)].

  Lemma s_entry_eq : forall s0 a, s_entry leb inj c s0 a =
    entry (fun a => mem (pa_id a) (keys (ended s0)) || mem (pa_id a) (keys (started s0))) (@pa_start T) a.
  Proof. intros s0 a. unfold s_entry, entry. rewrite Hcut. destruct (mem (pa_id a) (keys (ended s0))); reflexivity. Qed.

  Lemma e_entry_eq : forall s0 a, e_entry leb inj c s0 a = entry (fun a => mem (pa_id a) (keys (ended s0))) (@p_end T) a.
  Proof. intros s0 a. unfold e_entry, entry. rewrite Hcut. reflexivity. Qed.

  Lemma entry_In : forall skip tm p q a,
    In (q, a) (flat_map (entry skip tm) p) <-> exists pa, In pa p /\ skip pa = false /\ tm pa = q /\ pa_id pa = a.
  Proof.
    intros skip tm p q a. rewrite in_flat_map. unfold entry. split; intros [pa [Hpa H]]; exists pa.
    - destruct (skip pa); [destruct H|]. destruct H as [H|[]]. inversion H. auto.
    - destruct H as [Hs [Hq Ha]]. rewrite Hs, Hq, Ha. split; [exact Hpa|left; reflexivity].
  Qed.

  Lemma entry_NoDup : forall skip tm p, NoDup (map (@pa_id T) p) -> NoDup (map snd (flat_map (entry skip tm) p)).
  Proof.
    intros skip tm p. induction p as [|x r IH]; simpl; intro Hnd; [constructor|].
    inversion Hnd as [|? ? Hx Hr]; subst. unfold entry at 1. destruct (skip x); simpl; [exact (IH Hr)|].
    constructor; [|exact (IH Hr)]. intro Hin. apply Hx.
    apply in_map_snd in Hin. destruct Hin as [q Hin]. apply entry_In in Hin.
    destruct Hin as [pa [Hpa [_ [_ E]]]]. rewrite <- E. apply in_map. exact Hpa.
  Qed.

  Lemma side_build : forall p pulses skip tm dn bnds,
    NoDup (map (@pa_id T) p) -> NoDup (keys dn) ->
    (forall a v, In a p -> In (pa_id a, v) dn -> teqb (tm a) v = true) ->
    (forall a b, In a p -> In b bnds -> b_id b = pa_id a -> bound_holds b (tm a)) ->
    (forall a, skip a = true <-> In (pa_id a) (keys dn)) ->
    incl (map fst (flat_map (entry skip tm) p)) pulses ->
    side_ok p pulses tm (flat_map (entry skip tm) p) dn bnds.
  Proof.
    intros p pulses skip tm dn bnds Hnd Hn HF HB Hskip Hpul. constructor; try assumption.
    - intros q a H. apply entry_In in H. destruct H as [pa [Hpa [_ [Hq Ha]]]]. exists pa. auto.
    - intros pa Hpa Hnot.
      assert (X : In (tm pa, pa_id pa) (flat_map (entry skip tm) p)).
      { apply entry_In. exists pa. split; [exact Hpa|]. split; [|auto].
        destruct (skip pa) eqn:E; [|reflexivity]. apply Hskip in E. contradiction. }
      split; [exact X|]. apply Hpul. exact (in_map fst _ _ X).
    - intros q a H _ Hin. apply entry_In in H. destruct H as [pa [_ [Hs [_ Ha]]]].
      rewrite <- Ha in Hin. apply Hskip in Hin. congruence.
    - apply entry_NoDup. exact Hnd.
  Qed.

  Lemma Inv_build : forall s0 p,
    wf_plan p -> respects s0 p ->
    incl (keys (ended s0)) (keys (started s0)) -> NoDup (keys (started s0)) -> NoDup (keys (ended s0)) ->
    Inv (build s0 p).
  Proof.
    intros s0 p [Hnd Hle] Hr Hse Hn1 Hn2.
    apply sides_Inv; unfold start_side, end_side, Exec.build; simpl;
      rewrite ?(flat_map_ext _ _ (s_entry_eq s0)), ?(flat_map_ext _ _ (e_entry_eq s0)).
    - split; assumption.
    - apply side_build; try assumption.
      + intros a v Ha. apply (Hr a Ha).
      + intros a b Ha. apply (Hr a Ha).
      + intro a. rewrite orb_true_iff, !mem_In. split; [intros [H|H]; [apply Hse|]; exact H|auto].
      + apply incl_appl, incl_refl.
    - apply side_build; try assumption.
      + intros a v Ha. apply (Hr a Ha).
      + intros a b Ha. apply (Hr a Ha).
      + intro a. apply mem_In.
      + apply incl_appr, incl_refl.
    - intros q H. apply in_app_or in H.
      destruct H as [H|H]; apply in_map_iff in H; destruct H as [[q' a] [E H]]; simpl in E; subst q'; [left|right]; exists a; exact H.
    - exact Hse.
  Qed.

  (* one pass of the loop: the states and the event lists it can produce *)
  Definition dispatched (s : state) (p : T) (ds de : list (nat * Q)) : state :=
    mkSt (now s) (cur s) (s_atms s) (e_atms s) (drop_pulse leb p (pulses s)) ds de
         (started s ++ map (fun e => (snd e, fst e)) (atoms_at leb p (s_atms s)))
         (ended s ++ map (fun e => (snd e, fst e)) (atoms_at leb p (e_atms s)))
         (delayed_s s) (delayed_e s) (nres s).

  Definition delayed (s : state) (DS DE : list (T * nat)) (ds de : list (nat * Q)) (ds2 de2 : list (nat * Q)) : state :=
    mkSt (now s) (cur s) (s_atms s) (e_atms s) (pulses s) ds de (started s) (ended s)
         (delayed_s s ++ map (fun e => delay_bound inj tadd c s (fst e) (snd e) (req_of ds2 (snd e))) DS)
         (delayed_e s ++ map (fun e => delay_bound inj tadd c s (fst e) (snd e) (req_of de2 (snd e))) DE)
         (nres s).

  Definition notif (s : state) (p : T) : list ev :=
    ev_if (atoms_at leb p (s_atms s)) (EvStarting (now s) (map snd (atoms_at leb p (s_atms s))))
    ++ ev_if (atoms_at leb p (e_atms s)) (EvEnding (now s) (map snd (atoms_at leb p (e_atms s)))).

  (* the events of a pass that consumes the pulse p ... *)
  Definition dispatch_evs (s : state) (p : T) : list ev :=
    notif s p ++ ev_if (atoms_at leb p (s_atms s)) (Exec.EvStart (now s) (atoms_at leb p (s_atms s)))
              ++ ev_if (atoms_at leb p (e_atms s)) (Exec.EvEnd (now s) (atoms_at leb p (e_atms s))).

  (* ... and of a pass in which the client delays the atoms DS, DE, up to the answer of the planner *)
  Definition delay_evs (s : state) (p : T) (DS DE : list (T * nat)) (ds2 de2 : list (nat * Q)) : list ev :=
    notif s p ++ map (fun e => EvDelayS (now s) (snd e) (req_of ds2 (snd e))) DS
              ++ map (fun e => EvDelayE (now s) (snd e) (req_of de2 (snd e))) DE.

  Inductive body_shape (s : state) : body_res T L -> Prop :=
  | ShStopEmpty : min_pulse leb (pulses s) = None -> body_shape s (BStop T L)
  | ShStopLater : forall p, min_pulse leb (pulses s) = Some p -> leb p (inj (now s)) = false -> body_shape s (BStop T L)
  | ShDispatch : forall p ds de l',
      min_pulse leb (pulses s) = Some p -> leb p (inj (now s)) = true ->
      body_shape s (BNext (dispatched s p ds de) l' (dispatch_evs s p))
  | ShReplan : forall p DS DE ds de ds2 de2 l' p',
      min_pulse leb (pulses s) = Some p -> leb p (inj (now s)) = true ->
      incl DS (atoms_at leb p (s_atms s)) -> incl DE (atoms_at leb p (e_atms s)) -> DS ++ DE <> [] ->
      resolve (nres s) (delayed s DS DE ds de ds2 de2) WDelay = Some p' ->
      contract_okb leb (delayed s DS DE ds de ds2 de2) p' = true ->
      body_shape s (BNext (build (bump (delayed s DS DE ds de ds2 de2)) p') l'
                          (delay_evs s p DS DE ds2 de2 ++ [Exec.EvReplan p']))
  | ShRaise : forall p DS DE ds2 de2 l',
      min_pulse leb (pulses s) = Some p -> leb p (inj (now s)) = true ->
      incl DS (atoms_at leb p (s_atms s)) -> incl DE (atoms_at leb p (e_atms s)) ->
      body_shape s (BRaise l' (delay_evs s p DS DE ds2 de2))
  | ShBad : forall s1 p' e,
      resolve (nres s) s1 WDelay = Some p' -> contract_okb leb s1 p' = false -> body_shape s (BBad L (nres s) p' e).

  Lemma body_cases : forall s l, body_shape s (body s l).
  Proof.
    intros s l. unfold Exec.body.
    destruct (min_pulse leb (pulses s)) as [p|] eqn:Emin; [|apply ShStopEmpty; exact Emin].
    destruct (leb p (inj (now s))) eqn:Ele; [|eapply ShStopLater; eassumption].
    cbv zeta.
    match goal with |- context [filter ?f (atoms_at leb p (s_atms s)) ++ filter ?g (atoms_at leb p (e_atms s))] =>
      set (DS := filter f (atoms_at leb p (s_atms s))); set (DE := filter g (atoms_at leb p (e_atms s))) end.
    assert (HDS : incl DS (atoms_at leb p (s_atms s))) by apply incl_filter.
    assert (HDE : incl DE (atoms_at leb p (e_atms s))) by apply incl_filter.
    destruct (DS ++ DE) as [|x r] eqn:EDD.
    - eapply ShDispatch; eassumption.
    - assert (Hne : DS ++ DE <> []) by (rewrite EDD; discriminate).
      match goal with |- context [resolve (nres s) ?s1 WDelay] => destruct (resolve (nres s) s1 WDelay) as [p'|] eqn:Eres end.
      + match goal with |- context [contract_okb leb ?s1 p'] => destruct (contract_okb leb s1 p') eqn:Eok end.
        * eapply (ShReplan s p DS DE); eassumption.
        * eapply ShBad; eassumption.
      + eapply (ShRaise s p DS DE); eassumption.
  Qed.

  (* the atoms at the pulse p are notified: they pass from pending to done, with their planned time *)
  Lemma side_dispatched : forall cur pulses tm atms dn bnds p,
    NoDup (map (@pa_id T) cur) -> In p pulses ->
    side_ok cur pulses tm atms dn bnds ->
    side_ok cur (drop_pulse leb p pulses) tm atms (dn ++ map (fun e => (snd e, fst e)) (atoms_at leb p atms)) bnds.
  Proof.
    intros cur pulses tm atms dn bnds p Hnd Hp S.
    assert (Hdue : forall q a, In (q, a) (atoms_at leb p atms) -> In (q, a) atms /\ near q pulses /\ teqb q p = true).
    { intros q a H. apply atoms_at_In in H. destruct H as [H Hq].
      split; [exact H|]. split; [exists p; split; assumption|exact Hq]. }
    constructor.
    - intros a v Ha Hv. apply in_app_or in Hv. destruct Hv as [Hv|Hv]; [exact (sFrozen S a v Ha Hv)|].
      apply in_swap, Hdue in Hv. destruct (sPlanned S _ _ (proj1 Hv)) as [pa [Hpa [Hid Hst]]].
      rewrite (wf_same cur pa a Hnd Hpa Ha Hid) in Hst. rewrite Hst. apply teqb_refl.
    - exact (sBound S).
    - exact (sPlanned S).
    - intros pa Hpa Hns. rewrite keys_app, keys_swap, in_app_iff in Hns.
      destruct (sPending S pa Hpa) as [H1 H2]; [tauto|]. split; [exact H1|].
      apply drop_pulse_In. split; [exact H2|].
      destruct (teqb (tm pa) p) eqn:E; [|reflexivity]. exfalso. apply Hns. right.
      apply in_map_snd. exists (tm pa). apply atoms_at_In. split; assumption.
    - intros q a Hqa [q' [Hq' Hqq']]. apply drop_pulse_In in Hq'. destruct Hq' as [Hq' Hq'p].
      rewrite keys_app, keys_swap, in_app_iff. intros [Hin|Hin].
      + exact (sFresh S q a Hqa (ex_intro _ q' (conj Hq' Hqq')) Hin).
      + apply in_map_snd in Hin. destruct Hin as [q0 H0]. apply Hdue in H0. destruct H0 as [H0 [_ H0p]].
        rewrite <- (nodup_snd_same _ _ _ _ (sAtms S) Hqa H0) in H0p.
        rewrite (teqb_trans _ _ _ (teqb_sym _ _ Hqq') H0p) in Hq'p. discriminate.
    - exact (sAtms S).
    - rewrite keys_app, keys_swap. apply nodup_app; [exact (sDone S)|apply nodup_map_filter; exact (sAtms S)|].
      intros a Ha. apply in_map_snd in Ha. destruct Ha as [q H0]. apply Hdue in H0.
      exact (sFresh S q a (proj1 H0) (proj1 (proj2 H0))).
  Qed.

  Lemma Inv_dispatched : forall s p ds de, Inv s -> min_pulse leb (pulses s) = Some p -> Inv (dispatched s p ds de).
  Proof.
    intros s p ds de I Hmin. destruct (min_pulse_spec _ _ Hmin) as [Hp Hle].
    destruct (Inv_sides s I) as [SS SE]. destruct (iW I) as [Hnd Hwf].
    apply sides_Inv; unfold start_side, end_side, dispatched; simpl.
    - exact (iW I).
    - apply side_dispatched; assumption.
    - apply side_dispatched; assumption.
    - intros q Hq. apply drop_pulse_In in Hq. apply (iP I). tauto.
    - (* an atom that ends at p and has not started yet starts at p as well: its start is a pending pulse,
         and it is not after p because start <= end *)
      rewrite !keys_app, !keys_swap. intros a Ha. apply in_or_app. apply in_app_or in Ha.
      destruct Ha as [Ha|Ha]; [left; apply (iSE I); exact Ha|].
      destruct (mem a (keys (started s))) eqn:Em; [left; apply mem_In; exact Em|]. apply mem_false in Em. right.
      apply in_map_snd in Ha. destruct Ha as [q H0]. apply atoms_at_In in H0. destruct H0 as [H0 H0p]. simpl in H0p.
      destruct (sPlanned SE _ _ H0) as [pa [Hpa [Hid Hend]]]. subst a.
      destruct (sPending SS pa Hpa Em) as [H1 H2].
      apply in_map_snd. exists (pa_start pa). apply atoms_at_In. split; [exact H1|].
      simpl. unfold Exec.teqb. rewrite (Hle _ H2), andb_true_r.
      eapply leb_trans; [apply Hwf; exact Hpa|]. rewrite Hend. apply teqb_leb. exact H0p.
  Qed.

  Lemma Inv_replanned : forall s s1 p',
    Inv s -> started s1 = started s -> ended s1 = ended s ->
    contract_okb leb s1 p' = true -> Inv (build (bump s1) p').
  Proof.
    intros s s1 p' I Hs He Hok. apply contract_okb_sound in Hok. destruct Hok as [Hwf Hr].
    apply Inv_build; simpl; rewrite ?Hs, ?He; [exact Hwf|exact Hr|exact (iSE I)|exact (iN1 I)|exact (iN2 I)].
  Qed.

  Lemma body_Inv : forall s l s' l' e, Inv s -> body s l = BNext s' l' e -> Inv s'.
  Proof.
    intros s l s' l' e I H. pose proof (body_cases s l) as Sh. rewrite H in Sh.
    inversion Sh; subst.
    - apply Inv_dispatched; assumption.
    - eapply Inv_replanned; [exact I| | |eassumption]; reflexivity.
  Qed.

  Lemma body_now : forall s l s' l' e, body s l = BNext s' l' e -> now s' = now s.
  Proof.
    intros s l s' l' e H. pose proof (body_cases s l) as Sh. rewrite H in Sh. inversion Sh; subst; reflexivity.
  Qed.

  (* when the loop stops, every remaining pulse is after current_time *)
  Lemma body_stop : forall s l, body s l = BStop T L -> forall q, In q (pulses s) -> ltb (inj (now s)) q = true.
  Proof.
    intros s l H q Hq. pose proof (body_cases s l) as Sh. rewrite H in Sh.
    inversion Sh as [Hn|p Hmin Hp| | | |].
    - apply min_pulse_none in Hn. rewrite Hn in Hq. destruct Hq.
    - destruct (min_pulse_spec _ _ Hmin) as [_ Hle]. unfold Exec.ltb. apply negb_true_iff.
      destruct (leb q (inj (now s))) eqn:E; [|reflexivity].
      rewrite (leb_trans _ _ _ (Hle _ Hq) E) in Hp. discriminate.
  Qed.

  Notation starts_of := (@starts_of T).
  Notation ends_of := (@ends_of T).
  Notation delays_s_of := (@delays_s_of T).
  Notation delays_e_of := (@delays_e_of T).
  Notation ticks_of := (@ticks_of T).
  Notation ordered := (@ordered T).
  Notation plan_after := (@plan_after T).
  Notation timely := (timely leb inj).
  Notation sep := (@sep T).

  Lemma starts_of_app : forall a b, starts_of (a ++ b) = starts_of a ++ starts_of b.
  Proof. intros. apply flat_map_app. Qed.
  Lemma ends_of_app : forall a b, ends_of (a ++ b) = ends_of a ++ ends_of b.
  Proof. intros. apply flat_map_app. Qed.
  Lemma delays_s_app : forall a b, delays_s_of (a ++ b) = delays_s_of a ++ delays_s_of b.
  Proof. intros. apply flat_map_app. Qed.
  Lemma delays_e_app : forall a b, delays_e_of (a ++ b) = delays_e_of a ++ delays_e_of b.
  Proof. intros. apply flat_map_app. Qed.
  Lemma ticks_of_app : forall a b, ticks_of (a ++ b) = ticks_of a ++ ticks_of b.
  Proof. intros. apply flat_map_app. Qed.

  Lemma ordered_app : forall a b seen, ordered seen (a ++ b) <-> ordered seen a /\ ordered (seen ++ map snd (starts_of a)) b.
  Proof.
    induction a as [|x r IH]; intros b seen; simpl.
    - rewrite app_nil_r. tauto.
    - destruct x; simpl; try (rewrite IH; tauto).
      rewrite IH. rewrite map_app, app_assoc. tauto.
  Qed.

  Lemma plan_after_app : forall a b p, plan_after p (a ++ b) = plan_after (plan_after p a) b.
  Proof. induction a as [|x r IH]; intros b p; simpl; [reflexivity|]. destruct x; apply IH. Qed.

  Lemma timely_app : forall a b p, timely p (a ++ b) <-> timely p a /\ timely (plan_after p a) b.
  Proof.
    induction a as [|x r IH]; intros b p; simpl.
    - tauto.
    - destruct x; simpl; try (rewrite IH; tauto).
  Qed.

  (* events that are neither start, end nor replan *)
  Definition quiet (e : ev) : bool :=
    match e with Exec.EvStart _ _ | Exec.EvEnd _ _ | Exec.EvReplan _ => false | _ => true end.

  Lemma quiet_facts : forall l, forallb quiet l = true ->
    starts_of l = [] /\ ends_of l = [] /\ (forall seen, ordered seen l) /\ (forall p, plan_after p l = p) /\ (forall p, timely p l).
  Proof.
    induction l as [|x r IH]; simpl; intro H.
    - repeat split; auto.
    - apply andb_true_iff in H. destruct H as [Hx Hr]. destruct (IH Hr) as [A [B [C [D E]]]].
      destruct x; simpl in *; try discriminate; repeat split; auto.
  Qed.

  Lemma flat_map_map_nil : forall (A B C : Type) (g : B -> list C) (f : A -> B) (l : list A),
    (forall x, g (f x) = []) -> flat_map g (map f l) = [].
  Proof. intros A B C g f l H. induction l as [|x r IH]; simpl; [reflexivity|]. rewrite H, IH. reflexivity. Qed.

  Lemma flat_map_map_single : forall (A B C : Type) (g : B -> list C) (f : A -> B) (h : A -> C) (l : list A),
    (forall x, g (f x) = [h x]) -> flat_map g (map f l) = map h l.
  Proof. intros A B C g f h l H. induction l as [|x r IH]; simpl; [reflexivity|]. rewrite H, IH. reflexivity. Qed.

  Lemma notif_obs : forall s p,
    forallb quiet (notif s p) = true /\ delays_s_of (notif s p) = [] /\ delays_e_of (notif s p) = [] /\ ticks_of (notif s p) = [].
  Proof.
    intros s p. unfold notif. destruct (atoms_at leb p (s_atms s)); destruct (atoms_at leb p (e_atms s)); repeat split.
  Qed.

  Lemma dispatch_evs_obs : forall s p,
    starts_of (dispatch_evs s p) = atoms_at leb p (s_atms s) /\ ends_of (dispatch_evs s p) = atoms_at leb p (e_atms s) /\
    delays_s_of (dispatch_evs s p) = [] /\ delays_e_of (dispatch_evs s p) = [] /\ ticks_of (dispatch_evs s p) = [].
  Proof.
    intros s p. unfold dispatch_evs, notif.
    destruct (atoms_at leb p (s_atms s)); destruct (atoms_at leb p (e_atms s)); simpl; rewrite ?app_nil_r; repeat split.
  Qed.

  (* start notifications come before end notifications, each at the planned time of its atoms *)
  Lemma dispatch_evs_trace : forall s p,
    (forall q, plan_after q (dispatch_evs s p) = q) /\
    (forall seen, incl (map snd (atoms_at leb p (e_atms s))) (seen ++ map snd (atoms_at leb p (s_atms s))) ->
                  ordered seen (dispatch_evs s p)) /\
    (forall q,
       (forall e, In e (atoms_at leb p (s_atms s)) ->
                  exists pa, In pa q /\ pa_id pa = snd e /\ pa_start pa = fst e /\ leb (fst e) (inj (now s)) = true) ->
       (forall e, In e (atoms_at leb p (e_atms s)) ->
                  exists pa, In pa q /\ pa_id pa = snd e /\ p_end pa = fst e /\ leb (fst e) (inj (now s)) = true) ->
       timely q (dispatch_evs s p)).
  Proof.
    intros s p. unfold dispatch_evs, notif. split; [|split].
    - intro q. destruct (atoms_at leb p (s_atms s)); destruct (atoms_at leb p (e_atms s)); reflexivity.
    - (* the only condition of `ordered` is that of the EvEnd event, after the EvStart event has extended `seen` *)
      intros seen H. destruct (atoms_at leb p (s_atms s)); destruct (atoms_at leb p (e_atms s)); simpl; auto.
      rewrite app_nil_r in H. auto.
    - (* EvStart needs the first hypothesis, EvEnd the second *)
      intros q HS HE. destruct (atoms_at leb p (s_atms s)); destruct (atoms_at leb p (e_atms s)); simpl; auto.
  Qed.

  Lemma delay_evs_obs : forall s p DS DE ds2 de2,
    forallb quiet (delay_evs s p DS DE ds2 de2) = true /\
    delays_s_of (delay_evs s p DS DE ds2 de2) = map snd DS /\
    delays_e_of (delay_evs s p DS DE ds2 de2) = map snd DE /\
    ticks_of (delay_evs s p DS DE ds2 de2) = [].
  Proof.
    intros s p DS DE ds2 de2. unfold delay_evs. destruct (notif_obs s p) as (N0 & N1 & N2 & N3).
    rewrite !forallb_app, !delays_s_app, !delays_e_app, !ticks_of_app, N0, N1, N2, N3.
    unfold Exec.delays_s_of, Exec.delays_e_of, Exec.ticks_of. simpl.
    set (fs := fun e : T * nat => EvDelayS (now s) (snd e) (req_of ds2 (snd e))).
    set (fe := fun e : T * nat => EvDelayE (now s) (snd e) (req_of de2 (snd e))).
    (* an observation maps a delay event to the delayed atom or to nothing *)
    repeat split.
    - apply andb_true_iff.
      split; apply forallb_forall; intros x Hx; apply in_map_iff in Hx; destruct Hx as [e [E _]]; subst x; reflexivity.
    - rewrite (flat_map_map_single _ _ _ _ fs snd), (flat_map_map_nil _ _ _ _ fe) by reflexivity. apply app_nil_r.
    - rewrite (flat_map_map_nil _ _ _ _ fs), (flat_map_map_single _ _ _ _ fe snd) by reflexivity. reflexivity.
    - rewrite (flat_map_map_nil _ _ _ _ fs), (flat_map_map_nil _ _ _ _ fe) by reflexivity. reflexivity.
  Qed.

  Lemma body_no_tick : forall s l s' l' e, body s l = BNext s' l' e -> ticks_of e = [].
  Proof.
    intros s l s' l' e H. pose proof (body_cases s l) as Sh. rewrite H in Sh. inversion Sh; subst.
    - apply dispatch_evs_obs.
    - rewrite ticks_of_app. simpl. rewrite app_nil_r. apply delay_evs_obs.
  Qed.

  (* the inner loop neither advances the time nor emits a tick event *)
  Lemma loop_done : forall fuel s l evs s' l' evs',
    loop fuel s l evs = Done s' l' evs' -> now s' = now s /\ ticks_of evs' = ticks_of evs.
  Proof.
    induction fuel as [|f IH]; intros s l evs s' l' evs' H; simpl in H; [discriminate|].
    destruct (body s l) as [|s1 l1 e|l1 e|k p' e] eqn:EB; try discriminate.
    - inversion H; subst. split; reflexivity.
    - apply IH in H. destruct H as [Hn Ht].
      rewrite Hn, Ht, ticks_of_app, (body_no_tick _ _ _ _ _ EB), app_nil_r. split; [exact (body_now _ _ _ _ _ EB)|reflexivity].
  Qed.

  Lemma loop_stop : forall fuel s l evs s' l' evs',
    loop fuel s l evs = Done s' l' evs' -> forall q, In q (pulses s') -> ltb (inj (now s')) q = true.
  Proof.
    induction fuel as [|f IH]; intros s l evs s' l' evs' H; simpl in H; [discriminate|].
    destruct (body s l) as [|s1 l1 e|l1 e|k p' e] eqn:EB; try discriminate.
    - inversion H; subst. exact (body_stop s' l' EB).
    - exact (IH _ _ _ _ _ _ H).
  Qed.

  (* time advances by exactly units_per_tick per call *)
  Theorem tick_time : forall fuel s l s' l' evs,
    tick fuel s l = Done s' l' evs -> now s' = (now s + units)%Q /\ ticks_of evs = [(now s + units)%Q].
  Proof.
    intros fuel s l s' l' evs H. unfold Exec.tick in H.
    destruct (loop fuel s l []) as [s1 l1 e1| | |] eqn:EL; try discriminate.
    inversion H; subst. clear H. destruct (loop_done _ _ _ _ _ _ _ EL) as [Hn Ht].
    simpl. rewrite Hn, ticks_of_app, Ht. split; reflexivity.
  Qed.

  (* when tick() returns, every pulse left is after the time of that tick *)
  Lemma tick_pending : forall fuel s l s' l' evs,
    tick fuel s l = Done s' l' evs -> forall q, In q (pulses s') -> ltb (inj (now s)) q = true.
  Proof.
    intros fuel s l s' l' evs H. unfold Exec.tick in H.
    destruct (loop fuel s l []) as [s1 l1 e1| | |] eqn:EL; try discriminate.
    inversion H; subst. clear H. rewrite <- (proj1 (loop_done _ _ _ _ _ _ _ EL)). exact (loop_stop _ _ _ _ _ _ _ EL).
  Qed.

  Record Good (p0 : plan) (s : state) (tr : list ev) : Prop := mkGood {
    gI : Inv s;
    gS : started s = map (fun e => (snd e, fst e)) (starts_of tr);
    gE : ended s = map (fun e => (snd e, fst e)) (ends_of tr);
    gO : ordered [] tr;
    gT : timely p0 tr;
    gP : plan_after p0 tr = cur s
  }.
  Arguments gI {p0 s tr}. Arguments gS {p0 s tr}. Arguments gE {p0 s tr}. Arguments gO {p0 s tr}.
  Arguments gT {p0 s tr}. Arguments gP {p0 s tr}.

  Lemma keys_started_trace : forall p0 s tr, Good p0 s tr -> keys (started s) = map snd (starts_of tr).
  Proof. intros p0 s tr G. rewrite (gS G). apply keys_swap. Qed.

  Lemma keys_ended_trace : forall p0 s tr, Good p0 s tr -> keys (ended s) = map snd (ends_of tr).
  Proof. intros p0 s tr G. rewrite (gE G). apply keys_swap. Qed.

  Lemma Good_quiet : forall p0 s tr e, Good p0 s tr -> forallb quiet e = true -> Good p0 s (tr ++ e).
  Proof.
    intros p0 s tr e G Hq. destruct (quiet_facts e Hq) as [A [B [C [D E]]]].
    constructor.
    - exact (gI G).
    - rewrite starts_of_app, A, app_nil_r. exact (gS G).
    - rewrite ends_of_app, B, app_nil_r. exact (gE G).
    - apply ordered_app. split; [exact (gO G)|apply C].
    - apply timely_app. split; [exact (gT G)|apply E].
    - rewrite plan_after_app, D. exact (gP G).
  Qed.

  Lemma Good_requests : forall p0 s tr ds de, Good p0 s tr -> Good p0 (set_requests s ds de) tr.
  Proof.
    intros p0 s tr ds de G. destruct G as [I A B C D E]. constructor; try assumption.
    destruct I. constructor; assumption.
  Qed.

  Lemma Good_set_now : forall p0 s tr t, Good p0 s tr -> Good p0 (set_now s t) tr.
  Proof.
    intros p0 s tr t G. destruct G as [I A B C D E]. constructor; try assumption.
    destruct I. constructor; assumption.
  Qed.

  Lemma Good_replan : forall p0 s s1 tr p',
    Good p0 s tr -> started s1 = started s -> ended s1 = ended s -> contract_okb leb s1 p' = true ->
    Good p0 (build (bump s1) p') (tr ++ [Exec.EvReplan p']).
  Proof.
    intros p0 s s1 tr p' G Hs He Hok. constructor.
    - eapply Inv_replanned; [exact (gI G)| | |exact Hok]; assumption.
    - rewrite starts_of_app. simpl. rewrite app_nil_r, Hs. exact (gS G).
    - rewrite ends_of_app. simpl. rewrite app_nil_r, He. exact (gE G).
    - apply ordered_app. split; [exact (gO G)|exact I].
    - apply timely_app. split; [exact (gT G)|exact I].
    - rewrite plan_after_app. reflexivity.
  Qed.

  (* the atoms at a due pulse are atoms of the plan, at their planned time, and current_time has reached it *)
  Lemma side_due {cur pulses tm atms dn bnds p t} :
    side_ok cur pulses tm atms dn bnds -> leb p t = true ->
    forall e, In e (atoms_at leb p atms) -> exists pa, In pa cur /\ pa_id pa = snd e /\ tm pa = fst e /\ leb (fst e) t = true.
  Proof.
    intros S Hle [q a] He. apply atoms_at_In in He. destruct He as [He Hq].
    destruct (sPlanned S _ _ He) as [pa [H1 [H2 H3]]]. exists pa. repeat split; try assumption.
    exact (leb_trans _ _ _ (teqb_leb _ _ Hq) Hle).
  Qed.

  Lemma Good_dispatch : forall p0 s tr p ds de,
    Good p0 s tr -> min_pulse leb (pulses s) = Some p -> leb p (inj (now s)) = true ->
    Good p0 (dispatched s p ds de) (tr ++ dispatch_evs s p).
  Proof.
    intros p0 s tr p ds de G Hmin Hle.
    pose proof (Inv_dispatched s p ds de (gI G) Hmin) as I'.
    destruct (dispatch_evs_obs s p) as (D1 & D2 & _). destruct (dispatch_evs_trace s p) as (D3 & D4 & D5).
    constructor.
    - exact I'.
    - rewrite starts_of_app, D1, map_app, <- (gS G). reflexivity.
    - rewrite ends_of_app, D2, map_app, <- (gE G). reflexivity.
    - apply ordered_app. split; [exact (gO G)|]. apply D4. simpl.
      pose proof (iSE I') as Hse. unfold dispatched in Hse. simpl in Hse.
      rewrite !keys_app, !keys_swap, (keys_started_trace _ _ _ G) in Hse.
      intros a Ha. apply Hse. apply in_or_app. right. exact Ha.
    - apply timely_app. split; [exact (gT G)|]. rewrite (gP G).
      apply D5; [exact (side_due (proj1 (Inv_sides s (gI G))) Hle)|exact (side_due (proj2 (Inv_sides s (gI G))) Hle)].
    - rewrite plan_after_app, D3. exact (gP G).
  Qed.

  Lemma body_Good : forall p0 s l tr,
    Good p0 s tr ->
    match body s l with
    | BNext s' l' e => Good p0 s' (tr ++ e)
    | BRaise l' e => Good p0 s (tr ++ e)
    | _ => True
    end.
  Proof.
    intros p0 s l tr G. pose proof (body_cases s l) as Sh.
    inversion Sh as [| | p ds de l' Hmin Hle | p DS DE ds de ds2 de2 l' p' Hmin Hle HDS HDE Hne Hres Hok
                     | p DS DE ds2 de2 l' Hmin Hle HDS HDE | ]; try exact I.
    - apply Good_dispatch; assumption.
    - rewrite app_assoc. eapply Good_replan; [apply Good_quiet; [exact G|apply delay_evs_obs]| | |exact Hok]; reflexivity.
    - apply Good_quiet; [exact G|apply delay_evs_obs].
  Qed.

  (* the outcome of an operation started with trace tr, unless the planner broke the contract or the fuel ran out *)
  Definition good_outcome (p0 : plan) (tr : list ev) (o : outcome T L) : Prop :=
    match o with
    | Done s' _ evs | Raised s' _ evs => Good p0 s' (tr ++ evs)
    | _ => True
    end.

  Lemma loop_Good : forall fuel p0 s l tr evs, Good p0 s (tr ++ evs) -> good_outcome p0 tr (loop fuel s l evs).
  Proof.
    induction fuel as [|f IH]; intros p0 s l tr evs G; simpl; [exact I|].
    pose proof (body_Good p0 s l (tr ++ evs) G) as GB.
    destruct (body s l) as [|s' l' e|l' e|k p' e]; simpl; rewrite <- ?app_assoc in GB.
    - exact G.
    - apply IH. exact GB.
    - exact GB.
    - exact I.
  Qed.

  Lemma tick_Good : forall fuel p0 s l tr, Good p0 s tr -> good_outcome p0 tr (tick fuel s l).
  Proof.
    intros fuel p0 s l tr G. unfold Exec.tick.
    assert (G0 : Good p0 s (tr ++ [])) by (rewrite app_nil_r; exact G).
    pose proof (loop_Good fuel p0 s l tr [] G0) as H.
    destruct (loop fuel s l []) as [s' l' evs|s' l' evs|k p' evs|]; try exact H. simpl in *.
    rewrite app_assoc. apply Good_set_now. apply Good_quiet; [exact H|reflexivity].
  Qed.

  Lemma failure_Good : forall p0 s (l : L) tr atoms, Good p0 s tr -> good_outcome p0 tr (failure s l atoms).
  Proof.
    intros p0 s l tr atoms G. unfold Exec.failure.
    destruct (resolve (nres s) s (WFailure atoms)) as [p'|]; simpl.
    - destruct (contract_okb leb s p') eqn:Hok; [|exact I]. eapply Good_replan; [exact G| | |exact Hok]; reflexivity.
    - rewrite app_nil_r. exact G.
  Qed.

  Lemma step_Good : forall fuel p0 s l tr o, Good p0 s tr -> good_outcome p0 tr (step fuel s l o).
  Proof.
    intros fuel p0 s l tr o G. destruct o as [|atoms|a d|a d]; simpl.
    - apply tick_Good. exact G.
    - apply failure_Good. exact G.
    - rewrite app_nil_r. apply Good_requests. exact G.
    - rewrite app_nil_r. apply Good_requests. exact G.
  Qed.

  Definition ok_status (st : status) : Prop := st = Running \/ st = SRaised.

  Lemma run_Good : forall fuel p0 ops s l tr s' l' tr' st,
    Good p0 s tr -> run fuel ops s l tr = (s', l', tr', st) -> ok_status st -> Good p0 s' tr'.
  Proof.
    intros fuel p0. induction ops as [|o r IH]; intros s l tr s' l' tr' st G H Hst; simpl in H.
    - inversion H; subst. exact G.
    - pose proof (step_Good fuel p0 s l tr o G) as HS.
      destruct (step fuel s l o) as [s1 l1 evs|s1 l1 evs|k p' evs|].
      + eapply IH; eassumption.
      + inversion H; subst. exact HS.
      + inversion H; subst. destruct Hst; discriminate.
      + inversion H; subst. destruct Hst; discriminate.
  Qed.

  Lemma init_Good : forall p0, wf_plan p0 -> Good p0 (init p0) [].
  Proof.
    intros p0 Hwf. unfold Exec.init. constructor; try reflexivity; try exact I.
    apply Inv_build; simpl.
    - exact Hwf.
    - intros a Ha. simpl. repeat split; intros ? [].
    - intros a [].
    - constructor.
    - constructor.
  Qed.

  (* an atom with a bound "after t" left by a delay is not at a pulse that is due at t *)
  Lemma delayed_not_due {cur pulses tm atms dn bnds t p q a} :
    side_ok cur pulses tm atms dn bnds -> In (mkB a t true) bnds -> leb p t = true ->
    In (q, a) (atoms_at leb p atms) -> False.
  Proof.
    intros S Hb Hle H. apply atoms_at_In in H. destruct H as [H Hq]. simpl in Hq.
    destruct (sPlanned S _ _ H) as [pa [Hpa [Hid Hst]]].
    pose proof (sBound S pa _ Hpa Hb (eq_sym Hid)) as R. unfold Exec.bound_holds in R. simpl in R.
    apply ltb_not_leb in R. rewrite Hst, (leb_trans _ _ _ (teqb_leb _ _ Hq) Hle) in R. discriminate.
  Qed.

  (* One side of what the tick under way has done: dl are the atoms delayed in it, st those notified in it;
     t is current_time, constant during the tick. *)
  Record tick_side (t : T) (dl st : list nat) (dn : list (nat * T)) (bnds : list (bound T)) : Prop := mkTickSide {
    tBound : forall a, In a dl -> In (mkB a t true) bnds;
    tDone : forall a, In a st -> In a (keys dn);
    tSep : forall a, In a dl -> ~ In a st
  }.
  Arguments tBound {t dl st dn bnds}.
  Arguments tDone {t dl st dn bnds}.
  Arguments tSep {t dl st dn bnds}.

  Lemma tick_side_dispatch {cur pulses tm atms dn bnds t dl st p} :
    side_ok cur pulses tm atms dn bnds -> tick_side t dl st dn bnds -> leb p t = true ->
    tick_side t dl (st ++ map snd (atoms_at leb p atms))
              (dn ++ map (fun e => (snd e, fst e)) (atoms_at leb p atms)) bnds.
  Proof.
    intros S K Hle. constructor.
    - exact (tBound K).
    - intros a Ha. rewrite keys_app, keys_swap. apply in_or_app. apply in_app_or in Ha.
      destruct Ha as [Ha|Ha]; [left; exact (tDone K a Ha)|right; exact Ha].
    - intros a Ha Hin. apply in_app_or in Hin. destruct Hin as [Hin|Hin]; [exact (tSep K a Ha Hin)|].
      apply in_map_snd in Hin. destruct Hin as [q Hin].
      exact (delayed_not_due S (tBound K a Ha) Hle Hin).
  Qed.

  (* the atoms D at the pulse p are delayed: they have not been notified, since p is still pending *)
  Lemma tick_side_delay {cur pulses tm atms dn bnds t dl st p D} :
    side_ok cur pulses tm atms dn bnds -> tick_side t dl st dn bnds -> In p pulses -> incl D (atoms_at leb p atms) ->
    tick_side t (dl ++ map snd D) st dn (bnds ++ map (fun e => mkB (snd e) t true) D).
  Proof.
    intros S K Hp HD. constructor.
    - intros a Ha. apply in_or_app. apply in_app_or in Ha. destruct Ha as [Ha|Ha]; [left; exact (tBound K a Ha)|right].
      apply in_map_snd in Ha. destruct Ha as [q Ha]. exact (in_map (fun e => mkB (snd e) t true) _ _ Ha).
    - exact (tDone K).
    - intros a Ha Hin. apply in_app_or in Ha. destruct Ha as [Ha|Ha]; [exact (tSep K a Ha Hin)|].
      apply in_map_snd in Ha. destruct Ha as [q Ha]. apply HD, atoms_at_In in Ha. destruct Ha as [Ha Hq].
      exact (sFresh S q a Ha (ex_intro _ p (conj Hp Hq)) (tDone K a Hin)).
  Qed.

  Definition tick_inv (s : state) (evs : list ev) : Prop :=
    tick_side (inj (now s)) (delays_s_of evs) (map snd (starts_of evs)) (started s) (delayed_s s) /\
    tick_side (inj (now s)) (delays_e_of evs) (map snd (ends_of evs)) (ended s) (delayed_e s).

  Lemma tick_inv_nil : forall s, tick_inv s [].
  Proof. intro s. split; constructor; intros a []. Qed.

  Lemma tick_inv_sep : forall s evs, tick_inv s evs -> sep evs.
  Proof. intros s evs [K1 K2]. split; [exact (tSep K1)|exact (tSep K2)]. Qed.

  Lemma tick_inv_dispatch : forall s p ds de evs,
    Inv s -> tick_inv s evs -> leb p (inj (now s)) = true -> tick_inv (dispatched s p ds de) (evs ++ dispatch_evs s p).
  Proof.
    intros s p ds de evs Iv [K1 K2] Hle. destruct (dispatch_evs_obs s p) as (D1 & D2 & D3 & D4 & _).
    unfold tick_inv. rewrite delays_s_app, delays_e_app, starts_of_app, ends_of_app, D1, D2, D3, D4, !app_nil_r, !map_app.
    split; [exact (tick_side_dispatch (proj1 (Inv_sides s Iv)) K1 Hle)
           |exact (tick_side_dispatch (proj2 (Inv_sides s Iv)) K2 Hle)].
  Qed.

  (* the atoms of V that do not occur in X: what the fuel of the inner loop is counted in *)
  Definition missing_in (V X : list nat) : nat := length (filter (fun u => negb (mem u X)) V).

  Lemma missing_in_app_le : forall V X Y, missing_in V (X ++ Y) <= missing_in V X.
  Proof.
    intros V X Y. unfold missing_in, mem. induction V as [|u r IH]; simpl; [lia|].
    rewrite existsb_app. destruct (existsb (Nat.eqb u) X), (existsb (Nat.eqb u) Y); simpl; lia.
  Qed.

  Lemma missing_in_app_lt : forall V X Y a, In a Y -> In a V -> ~ In a X -> missing_in V (X ++ Y) < missing_in V X.
  Proof.
    intros V X Y a HY HV HX. apply mem_In in HY. apply mem_false in HX. induction V as [|u r IH]; [destruct HV|].
    pose proof (missing_in_app_le r X Y) as Z. unfold missing_in, mem in *. simpl. rewrite existsb_app.
    destruct HV as [HV|HV].
    - subst u. rewrite HX, HY. simpl. lia.
    - specialize (IH HV). destruct (existsb (Nat.eqb u) X), (existsb (Nat.eqb u) Y); simpl; lia.
  Qed.

  Lemma missing_in_le : forall V X, missing_in V X <= length V.
  Proof.
    intros V X. unfold missing_in. induction V as [|u r IH]; simpl; [lia|].
    destruct (negb (mem u X)); simpl; lia.
  Qed.

  Section Clamp.
    Hypothesis Hclamp : clamp_delay c = true.

    Lemma tick_inv_delay : forall s p DS DE ds de ds2 de2 evs,
      Inv s -> tick_inv s evs -> In p (pulses s) ->
      incl DS (atoms_at leb p (s_atms s)) -> incl DE (atoms_at leb p (e_atms s)) ->
      tick_inv (delayed s DS DE ds de ds2 de2) (evs ++ delay_evs s p DS DE ds2 de2).
    Proof.
      intros s p DS DE ds de ds2 de2 evs Iv [K1 K2] Hp HDS HDE.
      destruct (delay_evs_obs s p DS DE ds2 de2) as (Q & D1 & D2 & _). destruct (quiet_facts _ Q) as (Q1 & Q2 & _).
      unfold tick_inv. rewrite delays_s_app, delays_e_app, starts_of_app, ends_of_app, D1, D2, Q1, Q2, !app_nil_r.
      unfold delayed, delay_bound. rewrite Hclamp.
      split; [exact (tick_side_delay (proj1 (Inv_sides s Iv)) K1 Hp HDS)
             |exact (tick_side_delay (proj2 (Inv_sides s Iv)) K2 Hp HDE)].
    Qed.

    Lemma body_tick_inv : forall s l evs,
      Inv s -> tick_inv s evs ->
      match body s l with
      | BNext s' l' e => tick_inv s' (evs ++ e)
      | BRaise l' e => sep (evs ++ e)
      | _ => True
      end.
    Proof.
      intros s l evs Iv K. pose proof (body_cases s l) as Sh.
      inversion Sh as [| | p ds de l' Hmin Hle | p DS DE ds de ds2 de2 l' p' Hmin Hle HDS HDE Hne Hres Hok
                       | p DS DE ds2 de2 l' Hmin Hle HDS HDE | ]; try exact I.
      - apply tick_inv_dispatch; assumption.
      - (* the new plan changes neither what is started, ended or delayed nor what the events show *)
        pose proof (tick_inv_delay s p DS DE ds de ds2 de2 evs Iv K (proj1 (min_pulse_spec _ _ Hmin)) HDS HDE) as K'.
        unfold tick_inv in *. rewrite app_assoc, delays_s_app, delays_e_app, starts_of_app, ends_of_app. simpl.
        rewrite !app_nil_r. exact K'.
      - apply (tick_inv_sep (delayed s DS DE [] [] ds2 de2)).
        exact (tick_inv_delay s p DS DE [] [] ds2 de2 evs Iv K (proj1 (min_pulse_spec _ _ Hmin)) HDS HDE).
    Qed.

    Lemma loop_tick_inv : forall fuel s l evs,
      Inv s -> tick_inv s evs ->
      match loop fuel s l evs with
      | Done s' l' evs' => sep evs'
      | Raised s' l' evs' => sep evs'
      | _ => True
      end.
    Proof.
      induction fuel as [|f IH]; intros s l evs Iv K; simpl; [exact I|].
      pose proof (body_tick_inv s l evs Iv K) as KB.
      destruct (body s l) as [|s' l' e|l' e|k p' e] eqn:EB.
      - exact (tick_inv_sep _ _ K).
      - apply IH; [eapply body_Inv; eassumption|exact KB].
      - exact KB.
      - exact I.
    Qed.

    Lemma tick_sep : forall fuel s l,
      Inv s ->
      match tick fuel s l with
      | Done s' l' evs => sep evs
      | Raised s' l' evs => sep evs
      | _ => True
      end.
    Proof.
      intros fuel s l Iv. unfold Exec.tick. pose proof (loop_tick_inv fuel s l [] Iv (tick_inv_nil s)) as H.
      destruct (loop fuel s l []); try exact I; [|exact H].
      destruct H as [S1 S2]. unfold Exec.sep. rewrite delays_s_app, delays_e_app, starts_of_app, ends_of_app. simpl.
      rewrite !app_nil_r. split; assumption.
    Qed.

  Section Termination.
    Variable U : list nat.                       (* the atoms that can ever be part of a plan *)
    Hypothesis resolve_in_U : forall k s1 w p, resolve k s1 w = Some p -> incl (map (@pa_id T) p) U.

    (* every pass either notifies an atom that was not notified, or delays one that was not yet delayed in this tick *)
    Definition measure (s : state) (evs : list ev) : nat :=
      missing_in U (keys (started s)) + missing_in U (keys (ended s))
      + missing_in U (delays_s_of evs) + missing_in U (delays_e_of evs).

    Lemma side_in_U {cur pulses tm atms dn bnds q a} :
      side_ok cur pulses tm atms dn bnds -> incl (map (@pa_id T) cur) U -> In (q, a) atms -> In a U.
    Proof.
      intros S HU Ha.
      destruct (sPlanned S _ _ Ha) as [pa [Hpa [Hid _]]]. apply HU. rewrite <- Hid. apply in_map. exact Hpa.
    Qed.

    Lemma side_dispatch_lt {cur pulses tm atms dn bnds p a} :
      side_ok cur pulses tm atms dn bnds -> incl (map (@pa_id T) cur) U -> In p pulses -> In (p, a) atms ->
      missing_in U (keys dn ++ map snd (atoms_at leb p atms)) < missing_in U (keys dn).
    Proof.
      intros S HU Hp Ha. apply (missing_in_app_lt _ _ _ a).
      - apply in_map_snd. exists p. apply atoms_at_In. split; [exact Ha|apply teqb_refl].
      - exact (side_in_U S HU Ha).
      - exact (sFresh S p a Ha (ex_intro _ p (conj Hp (teqb_refl p)))).
    Qed.

    Lemma side_delay_lt {cur pulses tm atms dn bnds t dl st p D} :
      side_ok cur pulses tm atms dn bnds -> tick_side t dl st dn bnds -> incl (map (@pa_id T) cur) U ->
      leb p t = true -> incl D (atoms_at leb p atms) -> D <> [] ->
      missing_in U (dl ++ map snd D) < missing_in U dl.
    Proof.
      intros S K HU Hle HD Hne. destruct D as [|[q a] D']; [congruence|].
      assert (Hin : In (q, a) (atoms_at leb p atms)) by (apply HD; left; reflexivity).
      apply (missing_in_app_lt _ _ _ a).
      - left. reflexivity.
      - apply atoms_at_In in Hin. exact (side_in_U S HU (proj1 Hin)).
      - intro Hd. exact (delayed_not_due S (tBound K a Hd) Hle Hin).
    Qed.

    Lemma body_measure : forall s l evs s' l' e,
      Inv s -> tick_inv s evs -> incl (map (@pa_id T) (cur s)) U ->
      body s l = BNext s' l' e ->
      measure s' (evs ++ e) < measure s evs /\ incl (map (@pa_id T) (cur s')) U.
    Proof.
      intros s l evs s' l' e Iv [K1 K2] HU H. pose proof (body_cases s l) as Sh. rewrite H in Sh.
      destruct (Inv_sides s Iv) as [SS SE].
      inversion Sh as [| | p ds de l0 Hmin Hle | p DS DE ds de ds2 de2 l0 p' Hmin Hle HDS HDE Hne Hres Hok | | ]; subst.
      - (* the pulse that is consumed has a starting or an ending atom *)
        destruct (min_pulse_spec _ _ Hmin) as [Hp _]. destruct (dispatch_evs_obs s p) as (_ & _ & D3 & D4 & _).
        split; [|exact HU]. unfold measure, dispatched. simpl.
        rewrite delays_s_app, delays_e_app, D3, D4, !app_nil_r, !keys_app, !keys_swap.
        pose proof (missing_in_app_le U (keys (started s)) (map snd (atoms_at leb p (s_atms s)))) as L1.
        pose proof (missing_in_app_le U (keys (ended s)) (map snd (atoms_at leb p (e_atms s)))) as L2.
        destruct (iP Iv p Hp) as [[a Ha]|[a Ha]].
        + pose proof (side_dispatch_lt SS HU Hp Ha). lia.
        + pose proof (side_dispatch_lt SE HU Hp Ha). lia.
      - split; [|simpl; eapply resolve_in_U; exact Hres].
        destruct (delay_evs_obs s p DS DE ds2 de2) as (_ & D1 & D2 & _).
        unfold measure. simpl. rewrite app_assoc, !delays_s_app, !delays_e_app, D1, D2. simpl. rewrite !app_nil_r.
        pose proof (missing_in_app_le U (delays_s_of evs) (map snd DS)) as L1.
        pose proof (missing_in_app_le U (delays_e_of evs) (map snd DE)) as L2.
        destruct DS as [|x DS'].
        + pose proof (side_delay_lt SE K2 HU Hle HDE Hne). lia.
        + assert (Hne' : x :: DS' <> []) by discriminate.
          pose proof (side_delay_lt SS K1 HU Hle HDS Hne'). lia.
    Qed.

    Lemma loop_fuel : forall fuel s l evs,
      Inv s -> tick_inv s evs -> incl (map (@pa_id T) (cur s)) U -> measure s evs < fuel ->
      loop fuel s l evs <> OutOfFuel T L.
    Proof.
      induction fuel as [|f IH]; intros s l evs Iv K HU Hm; [lia|]. simpl.
      pose proof (body_tick_inv s l evs Iv K) as KB.
      destruct (body s l) as [|s' l' e|l' e|k p' e] eqn:EB; try discriminate.
      destruct (body_measure s l evs s' l' e Iv K HU EB) as [Hlt HU'].
      apply IH; [eapply body_Inv; eassumption|exact KB|exact HU'|lia].
    Qed.

    Lemma tick_terminates : forall s l,
      Inv s -> incl (map (@pa_id T) (cur s)) U -> tick (4 * length U + 1) s l <> OutOfFuel T L.
    Proof.
      intros s l Iv HU. unfold Exec.tick.
      assert (Hm : measure s [] < 4 * length U + 1).
      { unfold measure. pose proof (missing_in_le U (keys (started s))). pose proof (missing_in_le U (keys (ended s))).
        pose proof (missing_in_le U (delays_s_of [])). pose proof (missing_in_le U (delays_e_of [])). lia. }
      pose proof (loop_fuel (4 * length U + 1) s l [] Iv (tick_inv_nil s) HU Hm) as H.
      destruct (loop (4 * length U + 1) s l []); try discriminate. exfalso. apply H. reflexivity.
    Qed.
  End Termination.
  End Clamp.

  Definition reachable (p0 : plan) (s : state) (tr : list ev) : Prop :=
    exists fuel ops (l0 l : L), run fuel ops (init p0) l0 [] = (s, l, tr, Running).

  (* each atom is started at most once and ended at most once *)
  Theorem at_most_once : forall p0 s tr, Good p0 s tr ->
    NoDup (map snd (starts_of tr)) /\ NoDup (map snd (ends_of tr)).
  Proof.
    intros p0 s tr G. rewrite <- (keys_started_trace _ _ _ G), <- (keys_ended_trace _ _ _ G).
    split; [exact (iN1 (gI G))|exact (iN2 (gI G))].
  Qed.

  (* nothing that has been started (ended) is moved by a later plan *)
  Theorem frozen : forall p0 s tr, Good p0 s tr ->
    forall pa, In pa (cur s) ->
      (forall q, In (q, pa_id pa) (starts_of tr) -> teqb (pa_start pa) q = true) /\
      (forall q, In (q, pa_id pa) (ends_of tr) -> teqb (p_end pa) q = true).
  Proof.
    intros p0 s tr G pa Hpa. destruct (iR (gI G) pa Hpa) as [R1 [R2 _]]. split; intros q Hq.
    - apply R1. rewrite (gS G). apply in_swap. exact Hq.
    - apply R2. rewrite (gE G). apply in_swap. exact Hq.
  Qed.

  (* liveness of one tick *)
  Theorem tick_live : forall fuel p0 s l tr s' l' evs,
    Good p0 s tr -> tick fuel s l = Done s' l' evs ->
    forall pa, In pa (cur s') ->
      (~ In (pa_id pa) (map snd (starts_of (tr ++ evs))) -> ltb (inj (now s)) (pa_start pa) = true) /\
      (~ In (pa_id pa) (map snd (ends_of (tr ++ evs))) -> ltb (inj (now s)) (p_end pa) = true).
  Proof.
    intros fuel p0 s l tr s' l' evs G H pa Hpa.
    pose proof (tick_Good fuel p0 s l tr G) as G'. rewrite H in G'. simpl in G'.
    rewrite <- (keys_started_trace _ _ _ G'), <- (keys_ended_trace _ _ _ G').
    split; intro Hno; apply (tick_pending _ _ _ _ _ _ H); [apply (iS2 (gI G') pa Hpa Hno)|apply (iE2 (gI G') pa Hpa Hno)].
  Qed.

  (* once the plan is over, every atom has been started and ended exactly once *)
  Theorem tick_exactly_once : forall fuel p0 s l tr s' l' evs,
    Good p0 s tr -> tick fuel s l = Done s' l' evs ->
    (forall pa, In pa (cur s') -> leb (p_end pa) (inj (now s)) = true) ->
    (forall pa, In pa (cur s') ->
       In (pa_id pa) (map snd (starts_of (tr ++ evs))) /\ In (pa_id pa) (map snd (ends_of (tr ++ evs)))) /\
    NoDup (map snd (starts_of (tr ++ evs))) /\ NoDup (map snd (ends_of (tr ++ evs))).
  Proof.
    intros fuel p0 s l tr s' l' evs G H Hover.
    pose proof (tick_Good fuel p0 s l tr G) as G'. rewrite H in G'. simpl in G'.
    split; [|exact (at_most_once _ _ _ G')]. intros pa Hpa.
    destruct (tick_live fuel p0 s l tr s' l' evs G H pa Hpa) as [_ P2].
    (* an atom that is over and not ended would be planned to end after the tick *)
    assert (He : In (pa_id pa) (map snd (ends_of (tr ++ evs)))).
    { destruct (mem (pa_id pa) (map snd (ends_of (tr ++ evs)))) eqn:E; [apply mem_In; exact E|].
      apply mem_false in E. apply P2 in E. apply ltb_not_leb in E. rewrite (Hover pa Hpa) in E. discriminate. }
    split; [|exact He].
    rewrite <- (keys_started_trace _ _ _ G'). apply (iSE (gI G')). rewrite (keys_ended_trace _ _ _ G'). exact He.
  Qed.

  (* the contract as a hypothesis on the planner *)
  Section Contract.
    Hypothesis resolve_ok : forall k s1 w p, resolve k s1 w = Some p -> contract_okb leb s1 p = true.

    Lemma body_not_bad : forall s l k p e, body s l <> BBad L k p e.
    Proof.
      intros s l k p e H. pose proof (body_cases s l) as Sh. rewrite H in Sh.
      inversion Sh as [| | | | |s1 p' e' Hres Hbad]. rewrite (resolve_ok _ _ _ _ Hres) in Hbad. discriminate.
    Qed.

    Lemma loop_not_bad : forall fuel s l evs k p e, loop fuel s l evs <> BadOracle L k p e.
    Proof.
      induction fuel as [|f IH]; intros s l evs k p e; simpl; [discriminate|].
      destruct (body s l) as [|s' l' e'|l' e'|k' p' e'] eqn:EB; try discriminate.
      - apply IH.
      - exfalso. eapply body_not_bad. exact EB.
    Qed.

    Lemma step_not_bad : forall fuel s l o k p e, step fuel s l o <> BadOracle L k p e.
    Proof.
      intros fuel s l o k p e. destruct o as [|atoms|a d|a d]; simpl; try discriminate.
      - unfold Exec.tick. pose proof (loop_not_bad fuel s l [] k p e) as H.
        destruct (loop fuel s l []); try discriminate. exact H.
      - unfold Exec.failure. destruct (resolve (nres s) s (WFailure atoms)) eqn:E; [|discriminate].
        rewrite (resolve_ok _ _ _ _ E). discriminate.
    Qed.

    Lemma run_not_bad : forall fuel ops s l tr s' l' tr' st k,
      run fuel ops s l tr = (s', l', tr', st) -> st <> SBadOracle k.
    Proof.
      intros fuel. induction ops as [|o r IH]; intros s l tr s' l' tr' st k H; simpl in H.
      - inversion H. discriminate.
      - destruct (step fuel s l o) as [s1 l1 evs|s1 l1 evs|k1 p1 evs|] eqn:ES.
        + eapply IH. exact H.
        + inversion H. discriminate.
        + exfalso. eapply step_not_bad. exact ES.
        + inversion H. discriminate.
    Qed.
  End Contract.
End Proofs.

(* The extracted instance: pairs of rationals ordered lexicographically form a total preorder. *)
Local Open Scope Q_scope.
Lemma qq_leb_iff : forall a b : QQ, qq_leb a b = true <-> fst a < fst b \/ (fst a == fst b /\ snd a <= snd b).
Proof.
  intros a b. unfold qq_leb. destruct (Qcompare_spec (fst a) (fst b)) as [E|E|E].
  - rewrite Qle_bool_iff. split; [auto|]. intros [H|[_ H]]; [lra|exact H].
  - split; [auto|reflexivity].
  - split; [discriminate|]. intros [H|[H _]]; lra.
Qed.

Lemma qq_leb_total : forall a b : QQ, qq_leb a b = true \/ qq_leb b a = true.
Proof. intros a b. rewrite !qq_leb_iff. lra. Qed.

Lemma qq_leb_trans : forall a b c : QQ, qq_leb a b = true -> qq_leb b c = true -> qq_leb a c = true.
Proof. intros a b c. rewrite !qq_leb_iff. lra. Qed.

(* The pinned code (before notes/fixes/C19-02, C19-03): faithful model, property refuted by computation. *)
Definition ia (id : nat) (s e : Q) : patom QQ := mkPA id false (s, 0) (e, 0).

(* witness 1 (lost events): tick = 1; A = [1/2, 3), C = [3/4, 2).  At the tick of time 1 the client delays A by 1; the planner
   answers A = [3/2, 4), C unchanged; build_timelines at current_time = 1 drops the start of C (3/4 < 1): C is ended at
   time 2 without ever having been started. *)
Definition w1_p0 : plan QQ := [ia 0 (1#2) 3; ia 1 (3#4) 2].
Definition w1_p1 : plan QQ := [ia 0 (3#2) 4; ia 1 (3#4) 2].
Definition w1_script : script := mkScript [((0%nat, 0%nat), 1)] [].
Definition w1_run := run_script cfg_pinned 1 w1_script [Some w1_p1] w1_p0 [OTick; OTick; OTick; OTick] 20.

Lemma w1_contract_kept : snd w1_run = Running.
Proof. vm_compute. reflexivity. Qed.

Lemma pinned_refuted_end_without_start :
  In 1%nat (map snd (ends_of (snd (fst w1_run)))) /\ ~ In 1%nat (map snd (starts_of (snd (fst w1_run)))).
Proof. vm_compute. split; [left; reflexivity|]. intros [H|[]]. discriminate. Qed.

Lemma pinned_refuted_not_ordered : ~ ordered [] (snd (fst w1_run)).
Proof. vm_compute. intros [H _]. destruct (H 1%nat (or_introl eq_refl)) as [X|[]]. discriminate. Qed.

(* witness 2 (a delay that does not delay): A = [0, 2); at the first tick the client asks to delay A by 0; the bound
   start >= 0 + 0 changes nothing, the client is asked again and A is started in the tick in which it was delayed. *)
Definition w2_p0 : plan QQ := [ia 0 0 2].
Definition w2_script : script := mkScript [((0%nat, 0%nat), 0)] [].
Definition w2_run := run_script (mkCfg false false) 1 w2_script [Some w2_p0] w2_p0 [OTick] 20.

Lemma w2_contract_kept : snd w2_run = Running.
Proof. vm_compute. reflexivity. Qed.

Lemma unclamped_refuted_start_in_delayed_tick : ~ sep (snd (fst w2_run)).
Proof. vm_compute. intros [H _]. apply (H 0%nat); left; reflexivity. Qed.

(* the same two sessions on the model of the repaired code *)
Definition w1_fixed := run_script cfg_fixed 1 w1_script [Some w1_p1] w1_p0 [OTick; OTick; OTick; OTick] 20.
Example w1_fixed_ok : snd w1_fixed = Running /\ map snd (starts_of (snd (fst w1_fixed))) = [1%nat; 0%nat]
                      /\ map snd (ends_of (snd (fst w1_fixed))) = [1%nat].
Proof. vm_compute. auto. Qed.

(* Sessions of the extracted instance of the repaired code (cfg_fixed): the theorems above apply to them. *)
Section Sessions.
  Variable units : Q.
  Variable L : Type.
  Variable l_starting : L -> list nat -> L * (list (nat * Q) * list (nat * Q)).
  Variable l_ending : L -> list nat -> L * (list (nat * Q) * list (nat * Q)).
  Variable resolve : nat -> state QQ -> why -> option (plan QQ).

  Notation q_tick := (q_tick units l_starting l_ending resolve).
  Notation q_run := (q_run units l_starting l_ending resolve).

  Definition session (p0 : plan QQ) (s : state QQ) (l : L) (tr : list (ev QQ)) (st : status) : Prop :=
    wf_plan qq_leb p0 /\ exists fuel ops l0, q_run fuel ops (q_init p0) l0 [] = (s, l, tr, st).

  Lemma session_Good : forall p0 s l tr st,
    session p0 s l tr st -> st = Running \/ st = SRaised -> Good QQ qq_leb qq_inj p0 s tr.
  Proof.
    intros p0 s l tr st [Hwf [fuel [ops [l0 H]]]] Hst.
    apply (run_Good QQ qq_leb qq_inj qq_tadd qq_leb_total qq_leb_trans cfg_fixed eq_refl units L l_starting l_ending resolve
                    fuel p0 ops (q_init p0) l0 [] s l tr st); [|exact H|exact Hst].
    apply init_Good; [reflexivity|exact Hwf].
  Qed.
End Sessions.

(* the hypotheses of the session theorems are satisfiable: the witness session above, on the repaired code *)
Example session_example :
  session 1 client (sl_starting w1_script) (sl_ending w1_script) (stream_resolve [Some w1_p1])
          w1_p0 (fst (fst (fst w1_fixed))) (snd (fst (fst w1_fixed))) (snd (fst w1_fixed)) Running.
Proof.
  split.
  - apply wf_planb_sound. vm_compute. reflexivity.
  - exists 20%nat, [OTick; OTick; OTick; OTick], (@nil (nat * nat), @nil (nat * nat)). vm_compute. reflexivity.
Qed.
