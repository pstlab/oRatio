(* C08 for the network sat_core + linear-real-arithmetic theory: the theory-side hypotheses of the trace form
   (SatCoreUndo_Proofs.c08_pop_assume_inv) for the instance of smt/LraAdapter.v:
     - the invariant `wf` of proofs/LraInv_Proofs.v is preserved by the four theory functions;
     - lra_th_undo: a pop gives back the bound vector (values and reasons) of the matching push, whatever lemma-free,
       conflict-free propagate / check calls happened in between (in fact: whatever propagate / check calls happened);
   and the instantiated corollary c08_pop_assume_sat_lra.
   NOT discharged here (left as hypotheses of the corollary): `theory_contract T lra_thp lra_thc` - the syntactic side
   conditions sat_core::record / analyze put on lemmas and conflicts (literals other than the first currently false, a
   conflict involves the current decision level, ...) and their T-validity in SatCore's propositional form (C09 proves their
   validity in every LRA model that satisfies the root-level atoms: proofs/LraThm_Proofs.v) - and `ub = false` (C07's no-UB
   theorem needs a theory that never records a lemma). *)
From Coq Require Import List Arith Bool ZArith Lia Permutation QArith.
From ORatio Require Import smt.SatCoreBase smt.SatCoreSpec smt.SatCore smt.LraAdapter
  proofs.SatCoreBase_Proofs proofs.SatCoreInv_Proofs proofs.SatCoreRun_Proofs proofs.SatCoreThm_Proofs proofs.SatCoreUndo_Proofs.
From ORatio Require Import smt.Lra smt.LraSem proofs.LraBase_Proofs proofs.LraTab_Proofs proofs.LraInv_Proofs proofs.LraThm_Proofs.
Import ListNotations.

Notation clit := SatCoreBase.lit.

(* number of variables, the snapshots of the enclosing pushes and the depth of the layer stack *)
Definition same_stack (s s' : Lra.state) : Prop :=
  Lra.nvars s' = Lra.nvars s /\ snaps s' = snaps s /\ length (layers s') = length (layers s).
Lemma same_stack_refl s : same_stack s s.
Proof. repeat split. Qed.
Lemma same_stack_trans a b c : same_stack a b -> same_stack b c -> same_stack a c.
Proof. intros [A1 [A2 A3]] [B1 [B2 B3]]. repeat split; congruence. Qed.

Lemma propagate_same_stack s al p : same_stack s (fst (propagate s al p)).
Proof. destruct (propagate_frame s al p) as (A & _ & B & C). repeat split; assumption. Qed.
Lemma check_same_stack fuel s : same_stack s (fst (check fuel s)).
Proof. destruct (check_fields fuel s) as [A [_ [_ [_ [_ [B [_ C]]]]]]]. repeat split; auto. rewrite B. reflexivity. Qed.

Lemma lra_thp_state ts a dl p :
  fst (fst (lra_thp ts a dl p)) = ts \/
  (lvalue (asg_of a) p = Some true /\ fst (fst (lra_thp ts a dl p)) = fst (propagate ts (asg_of a) p)).
Proof.
  unfold lra_thp. destruct (lvalue (asg_of a) p) as [[|] |]; auto. right. split; auto.
  destruct (propagate ts (asg_of a) p) as [ts' r]. reflexivity.
Qed.
Lemma lra_thc_state ts a dl : fst (fst (lra_thc ts a dl)) = fst (check lra_fuel ts).
Proof. unfold lra_thc. destruct (check lra_fuel ts) as [ts' r]. reflexivity. Qed.

Definition lra_inv (ts : Lra.state) : Prop := wf ts.

Lemma lra_inv_propagate : forall ts a dl p, lra_inv ts -> lra_inv (fst (fst (lra_thp ts a dl p))).
Proof.
  intros ts a dl p W. destruct (lra_thp_state ts a dl p) as [-> | [Hp ->]]; auto. apply wf_propagate; auto.
Qed.
Lemma lra_inv_check : forall ts a dl, lra_inv ts -> lra_inv (fst (fst (lra_thc ts a dl))).
Proof. intros ts a dl W. rewrite lra_thc_state. apply wf_check. exact W. Qed.
Lemma lra_inv_push : forall ts, lra_inv ts -> lra_inv (lra_thpush ts).
Proof. intros ts W. apply wf_push. exact W. Qed.
Lemma lra_inv_pop : forall ts, lra_inv ts -> lra_inv (lra_thpop ts).
Proof. intros ts W. apply wf_pop. exact W. Qed.
Lemma lra_inv_init : lra_inv init_state.
Proof. exact wf_init. Qed.
Lemma lra_inv_reach : forall ts, LraInv_Proofs.reach ts -> lra_inv ts.
Proof. exact wf_reach. Qed.

Lemma th_reach_same_stack ts1 ts : lra_inv ts1 -> th_reach lra_thp lra_thc ts1 ts -> lra_inv ts /\ same_stack ts1 ts.
Proof.
  intros W R. induction R as [| ts a dl p R [IW IF] _ _ | ts a dl R [IW IF] _ _].
  - split; [exact W | apply same_stack_refl].
  - split; [apply lra_inv_propagate; exact IW |]. eapply same_stack_trans; [exact IF |].
    destruct (lra_thp_state ts a dl p) as [-> | [_ ->]]; [apply same_stack_refl | apply propagate_same_stack].
  - split; [apply lra_inv_check; exact IW |]. eapply same_stack_trans; [exact IF |]. rewrite lra_thc_state. apply check_same_stack.
Qed.

Lemma lra_obs_ext ts ts' : Lra.nvars ts' = Lra.nvars ts -> (forall i, cb ts' i = cb ts i) -> lra_obs ts' = lra_obs ts.
Proof. intros En Ec. unfold lra_obs. rewrite En. apply map_ext. exact Ec. Qed.

Theorem lra_th_undo : forall ts0 ts, lra_inv ts0 -> th_reach lra_thp lra_thc (lra_thpush ts0) ts -> lra_obs (lra_thpop ts) = lra_obs ts0.
Proof.
  intros ts0 ts W0 R. destruct (th_reach_same_stack _ _ (lra_inv_push ts0 W0) R) as [W [En [Es El]]].
  unfold lra_thpush, push in En, Es, El. simpl in En, Es, El.
  destruct (layers ts) as [| L Ls] eqn:EL; [simpl in El; discriminate |].
  apply lra_obs_ext.
  - unfold lra_thpop, pop. rewrite EL. simpl. exact En.
  - intro i. unfold lra_thpop. apply (pop_restores ts L Ls (cb ts0) (snaps ts0) W EL Es).
Qed.

Lemma lra_obs_nth ts i : (i < 2 * Lra.nvars ts)%nat -> nth i (lra_obs ts) (mkB None TRUE_lit) = cb ts i.
Proof.
  intro H. unfold lra_obs. rewrite (nth_indep _ (mkB None TRUE_lit) (cb ts 0)) by (rewrite map_length, seq_length; exact H).
  rewrite (map_nth (cb ts) (seq 0 (2 * Lra.nvars ts)) 0%nat i). rewrite seq_nth by exact H. reflexivity.
Qed.

(* after ANY history of the network sat_core + lra_theory started from a theory state satisfying the LRA invariant (every state
   reached by the interface events of C09: LraInv_Proofs.wf_reach), a decision that is taken without a conflict and without
   recording a lemma and is then undone gives back values, levels, reasons, trail, level boundaries, decisions, queue, clause
   list, every clause up to literal order, the log - and the bounds lb / ub of every arithmetic variable with their reasons *)
Theorem c08_pop_assume_sat_lra : forall (T : asg -> Prop) fuel ts0 ops,
  theory_contract T lra_thp lra_thc ->
  lra_inv ts0 ->
  lrn_run_ok fuel ops (lrn_init ts0) = true ->
  ub (lrn_run fuel ops (lrn_init ts0)) = false ->
  forall p s', pre (lrn_run fuel ops (lrn_init ts0)) (OAssume p) = true ->
  lrn_assume fuel (lrn_run fuel ops (lrn_init ts0)) p = (s', RTrue) ->
  log s' = log (lrn_run fuel ops (lrn_init ts0)) ->
  restored (list bound) lra_obs (lrn_run fuel ops (lrn_init ts0)) (lrn_pop s') /\
  Lra.nvars (thst (lrn_pop s')) = Lra.nvars (thst (lrn_run fuel ops (lrn_init ts0))) /\
  (forall x, (x < Lra.nvars (thst (lrn_run fuel ops (lrn_init ts0))))%nat ->
     cb (thst (lrn_pop s')) (lb_index x) = cb (thst (lrn_run fuel ops (lrn_init ts0))) (lb_index x) /\
     cb (thst (lrn_pop s')) (ub_index x) = cb (thst (lrn_run fuel ops (lrn_init ts0))) (ub_index x)).
Proof.
  intros T fuel ts0 ops Hth W0 Hok Hub p s' Hpre E Hl.
  assert (R : restored (list bound) lra_obs (lrn_run fuel ops (lrn_init ts0)) (lrn_pop s')).
  { apply (c08_pop_assume_inv T (@isort clit) lra_thp lra_thc lra_thpush lra_thpop fuel isort_contract Hth (list bound) lra_obs lra_inv
             lra_inv_propagate lra_inv_check lra_inv_push lra_inv_pop lra_th_undo ops ts0 W0 Hok Hub p s' Hpre E Hl). }
  split; [exact R |]. pose proof (r_theory _ _ _ _ R) as Rt.
  assert (En : Lra.nvars (thst (lrn_pop s')) = Lra.nvars (thst (lrn_run fuel ops (lrn_init ts0)))).
  { apply (f_equal (@length _)) in Rt. unfold lra_obs in Rt. rewrite !map_length, !seq_length in Rt. lia. }
  split; [exact En |]. intros x Hx. split.
  - rewrite <- (lra_obs_nth (thst (lrn_pop s')) (lb_index x)) by (rewrite En; unfold lb_index; lia).
    rewrite Rt. apply lra_obs_nth. unfold lb_index. lia.
  - rewrite <- (lra_obs_nth (thst (lrn_pop s')) (ub_index x)) by (rewrite En; unfold ub_index; lia).
    rewrite Rt. apply lra_obs_nth. unfold ub_index. lia.
Qed.

(* a concrete network: x0, x1; b1 = (x0 <= 5) on x0, b2 = (x0 + x1 >= 2) on the slack x2; decide b1, then b2, then undo b2:
   the bound vector is again the one of level 1 (upper bound of x0 = 5 with reason b1), the lower bound of the slack is gone *)
Definition ex_ts0 : Lra.state :=
  Lra.run [ENewVar; ENewVar; ENewRel Rleq (lin_var 0%nat) (mkLin [] 5%Q) 1%nat;
           ENewRel Rgeq (mkLin [(0%nat, 1%Q); (1%nat, 1%Q)] 0%Q) (mkLin [] 2%Q) 2%nat] init_state.
Definition ex_lra_ops : list SatCore.op := [ONewVar; ONewVar; OAssume (1%nat, true)].
Example ex_sat_lra :
  let s := lrn_run 100 ex_lra_ops (lrn_init ex_ts0) in
  let s' := fst (lrn_assume 100 s (2%nat, true)) in
  lrn_run_ok 100 ex_lra_ops (lrn_init ex_ts0) = true /\ ub s = false /\ pre s (OAssume (2%nat, true)) = true /\
  lrn_assume 100 s (2%nat, true) = (s', RTrue) /\ log s' = log s /\
  map bval (lra_obs (thst s)) = [None; Some (5, 0)%Q; None; None; None; None] /\
  map bval (lra_obs (thst s')) = [None; Some (5, 0)%Q; None; None; Some (2, 0)%Q; None] /\
  lra_obs (thst (lrn_pop s')) = lra_obs (thst s).
Proof. vm_compute. repeat split; reflexivity. Qed.
