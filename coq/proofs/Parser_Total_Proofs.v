(* Proofs about the parser model (lang/Parser.v), property C18:
     parse_total    with the fuel `parse` supplies (8 * number of tokens + 8) the parser never runs out of fuel:
                    for EVERY token list the outcome is Ok, Err ESyntax or Err ETooDeep
   The bound is justified call by call in Parser_Len_Proofs (field run_nf of the invariant of each parser function): a function
   called on the same token list has a smaller "rank" (0..4), a function called after at least one token was consumed may
   have any rank < 8. *)
From Coq Require Import List Arith Lia.
From ORatio Require Import lang.Token lang.Lexer lang.Ast lang.Parser proofs.Parser_Len_Proofs proofs.Lexer_Proofs.
Import ListNotations.

Lemma nf_expect_semicolon {A} (a : A) ts : NF (expect_semicolon a ts).
Proof. apply (run_nf (expect_semicolon_run a ts) I). Qed.
Lemma nf_expect_rparen {A} (a : A) ts : NF (expect_rparen a ts).
Proof. apply (run_nf (expect_rparen_run a ts) I). Qed.
Lemma nf_expect_rbracket {A} (a : A) ts : NF (expect_rbracket a ts).
Proof. apply (run_nf (expect_rbracket_run a ts) I). Qed.
Lemma nf_expect_lparen ts : NF (expect_lparen ts).
Proof. apply (run_nf (expect_lparen_run ts) I). Qed.
Lemma nf_expect_lbrace ts : NF (expect_lbrace ts).
Proof. apply (run_nf (expect_lbrace_run ts) I). Qed.
Lemma nf_expect_id ts : NF (expect_id ts).
Proof. apply (run_nf (expect_id_run ts) I). Qed.
Lemma nf_p_rtype ts : NF (p_rtype ts).
Proof. apply (run_nf (p_rtype_run ts) I). Qed.
Lemma nf_p_strs ts : NF (p_strs ts).
Proof. apply (run_nf (p_strs_run ts) I). Qed.

Lemma nf_p_expr f d pr ts : 8 * List.length ts + 1 < f -> NF (p_expr f d pr ts).  Proof. apply (run_nf (p_expr_run f d pr ts)). Qed.
Lemma nf_p_args f d ts : 8 * List.length ts + 3 < f -> NF (p_args f d ts).  Proof. apply (run_nf (p_args_run f d ts)). Qed.
Lemma nf_p_init f d ts : 8 * List.length ts + 0 < f -> NF (p_init f d ts).
Proof. apply (run_nf (p_init_run f d ts)). Qed.
Lemma nf_p_vars f : forall d ts, 8 * List.length ts + 0 < f -> NF (p_vars f d ts).
Proof. intros d ts. apply (run_nf (p_vars_run f d ts)). Qed.
Lemma nf_p_cost f d ts : 8 * List.length ts + 0 < f -> NF (p_cost f d ts).
Proof. apply (run_nf (p_cost_run f d ts)). Qed.
Lemma nf_p_fargs1 f : forall d ts, 8 * List.length ts + 0 < f -> NF (p_fargs1 f d ts).
Proof. intros d ts. apply (run_nf (p_fargs1_run f d ts)). Qed.
Lemma nf_p_fargs f d ts : 8 * List.length ts + 0 < f -> NF (p_fargs f d ts).
Proof. apply (run_nf (p_fargs_run f d ts)). Qed.
Lemma nf_p_block f d ts : 8 * List.length ts + 3 < f -> NF (p_block f d ts).  Proof. apply (run_nf (p_block_run f d ts)). Qed.

Lemma nf_p_params1 f : forall ts, 8 * List.length ts + 0 < f -> NF (p_params1 f ts).
Proof. intros ts. apply (run_nf (p_params1_run f ts)). Qed.
Lemma nf_p_params f ts : 8 * List.length ts + 0 < f -> NF (p_params f ts).
Proof. apply (run_nf (p_params_run f ts)). Qed.
Lemma nf_p_method f d ts : 8 * List.length ts + 0 < f -> NF (p_method f d ts).
Proof. apply (run_nf (p_method_run f d ts)). Qed.
Lemma nf_p_inits f : forall d ts, 8 * List.length ts + 0 < f -> NF (p_inits f d ts).
Proof. intros d ts. apply (run_nf (p_inits_run f d ts)). Qed.
Lemma nf_opt_inits f d r : 8 * List.length r + 0 < f -> NF (match r with TColon :: r' => p_inits f d r' | _ => Ok [] r end).
Proof. apply (run_nf (opt_inits_run f d r)). Qed.
Lemma nf_p_ctor f d ts : 8 * List.length ts + 0 < f -> NF (p_ctor f d ts).
Proof. apply (run_nf (p_ctor_run f d ts)). Qed.
Lemma nf_p_qids f : forall ts, 8 * List.length ts + 0 < f -> NF (p_qids f ts).
Proof. intros ts. apply (run_nf (p_qids_run f ts)). Qed.
Lemma nf_opt_qids f r : 8 * List.length r + 0 < f -> NF (match r with TColon :: r' => p_qids f r' | _ => Ok [] r end).
Proof. apply (run_nf (opt_qids_run f r)). Qed.
Lemma nf_p_pred f d ts : 8 * List.length ts + 0 < f -> NF (p_pred f d ts).
Proof. apply (run_nf (p_pred_run f d ts)). Qed.
Lemma nf_p_typedef f d ts : 8 * List.length ts + 0 < f -> NF (p_typedef f d ts).
Proof. apply (run_nf (p_typedef_run f d ts)). Qed.
Lemma nf_enum_alt ts :
  NF (match ts with
      | TLBrace :: r0 => do (ss, r1) <- p_strs r0; Ok (ss, @nil qid) r1
      | TId _ :: _ => do (q, r1) <- p_qid ts; Ok (@nil str, [q]) r1
      | _ => Err ESyntax
      end).
Proof. apply (run_nf (enum_alt_run ts) I). Qed.
Lemma nf_p_enum_alts f : forall ts, 8 * List.length ts + 0 < f -> NF (p_enum_alts f ts).
Proof. intros ts. apply (run_nf (p_enum_alts_run f ts)). Qed.
Lemma nf_p_enum f ts : 8 * List.length ts + 0 < f -> NF (p_enum f ts).
Proof. apply (run_nf (p_enum_run f ts)). Qed.
Lemma nf_p_field f d ts : 8 * List.length ts + 0 < f -> NF (p_field f d ts).
Proof. apply (run_nf (p_field_run f d ts)). Qed.
Lemma nf_p_class f d ts : 8 * List.length ts + 0 < f -> NF (p_class f d ts).  Proof. apply (run_nf (p_class_run f d ts)). Qed.
Lemma nf_p_units f : forall ts, 8 * List.length ts + 4 < f -> NF (p_units f ts).
Proof. intros ts. apply (run_nf (p_units_run f ts)). Qed.

Theorem parse_total ts : parse ts <> OutOfFuel.
Proof. unfold parse, parse_fuel. apply nf_p_units. lia. Qed.

Theorem parse_expr_total ts : parse_expr ts <> OutOfFuel.
Proof. unfold parse_expr, parse_fuel. apply nf_p_expr. lia. Qed.

(* the whole front end: for every input text, one of the classified outcomes *)
Theorem front_end_outcome bytes :
  (exists e, lex bytes = LErr e) \/
  (exists ts, lex bytes = LOk ts /\ ((exists u r, parse ts = Ok u r) \/ parse ts = Err ESyntax \/ parse ts = Err ETooDeep)).
Proof.
  pose proof (lex_total bytes) as HL. destruct (lex bytes) as [ts|e|]; [right|left; eauto|congruence].
  exists ts. split; [reflexivity|]. pose proof (parse_total ts) as HP. destruct (parse ts) as [u r|[]|]; eauto. congruence.
Qed.
