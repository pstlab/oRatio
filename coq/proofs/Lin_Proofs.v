(* C15, part 3: the hand-written model of smt/arith/lin.cpp (base/Lin.v) against exact arithmetic: for every valuation
   rho, every operator acts on `eval rho` as the mathematical operation (the known term included), preserves the
   std::map invariant (strictly increasing keys) and canonical finite coefficients, and - where the code guarantees
   it - the absence of zero coefficients. The coefficient arithmetic is the generated model of rational.cpp, through
   the theorems of Rat_Proofs.v. *)
From Coq Require Import ZArith NArith QArith List Lia Sorted.
From ORatio Require Import gen.Gen_arith base.RatSpec base.Lin proofs.Rat_Proofs.
Import ListNotations.
Local Open Scope Z_scope.

Lemma wf_fin_val r q : wf r -> ext_eq (val r) (Fin q) -> finite r /\ (qval r == q)%Q.
Proof.
  intros Hr. destruct (wf_cases r Hr) as [[Hd Hg]|[->| ->]]; cbn; try tauto.
  rewrite val_finite by assumption. cbn. intros E. split; [split; assumption|exact E].
Qed.

(* an operator that is exact on values is exact on qval where operands and result are finite *)
Lemma fin_result R a b (op : ext -> ext -> option ext) q : finite a -> finite b ->
  (forall e, op (val a) (val b) = Some e -> ok R e) ->
  op (Fin (qval a)) (Fin (qval b)) = Some (Fin q) -> finite R /\ (qval R == q)%Q.
Proof.
  intros [Ha _] [Hb _] H E. rewrite <- (val_finite a Ha), <- (val_finite b Hb) in E. destruct (H _ E). now apply wf_fin_val.
Qed.

Lemma fin_zero : finite rat_ZERO /\ (qval rat_ZERO == 0)%Q.
Proof. split; [split; cbn; lia|reflexivity]. Qed.

Lemma fin_add a b : finite a -> finite b ->
  finite (rat_addeq_rat a b) /\ (qval (rat_addeq_rat a b) == qval a + qval b)%Q.
Proof.
  intros Ha Hb. apply (fin_result _ a b ext_add); [exact Ha|exact Hb| |reflexivity].
  intros e. apply addeq_spec; now apply finite_wf.
Qed.

Lemma fin_sub a b : finite a -> finite b ->
  finite (rat_subeq_rat a b) /\ (qval (rat_subeq_rat a b) == qval a - qval b)%Q.
Proof.
  intros Ha Hb. apply (fin_result _ a b ext_sub); [exact Ha|exact Hb| |reflexivity].
  intros e. apply subeq_spec; now apply finite_wf.
Qed.

Lemma fin_mul a b : finite a -> finite b ->
  finite (rat_muleq_rat a b) /\ (qval (rat_muleq_rat a b) == qval a * qval b)%Q.
Proof.
  intros Ha Hb. apply (fin_result _ a b ext_mul); [exact Ha|exact Hb| |reflexivity].
  intros e. apply muleq_spec; now apply finite_wf.
Qed.

Lemma fin_div a b : finite a -> finite b -> nonzero b ->
  finite (rat_diveq_rat a b) /\ (qval (rat_diveq_rat a b) == qval a / qval b)%Q.
Proof.
  intros Ha Hb Hn. apply (fin_result _ a b ext_div); [exact Ha|exact Hb| |].
  - intros e. apply diveq_spec; now apply finite_wf.
  - unfold ext_div, ext_inv. cbn [qval Qof Qnum]. destruct (Z.eqb_spec (rat_num b) 0); [contradiction|reflexivity].
Qed.

Lemma fin_neg a : finite a -> finite (rat_neg a) /\ (qval (rat_neg a) == - qval a)%Q.
Proof.
  intros Ha. destruct (neg_spec a (finite_wf _ Ha)) as [W V]. apply wf_fin_val; [exact W|].
  rewrite V, (val_finite a (proj1 Ha)). apply ext_eq_refl.
Qed.

(* x / (+-inf) = 0 *)
Lemma fin_div_inf a b : finite a -> wf b -> is_infinite_rat b = true ->
  finite (rat_diveq_rat a b) /\ (qval (rat_diveq_rat a b) == 0)%Q.
Proof.
  intros Ha Hb Hi.
  destruct (diveq_spec a b (Fin (qval a * 0)) (finite_wf _ Ha) Hb) as [W V].
  { rewrite (val_finite a (proj1 Ha)). destruct (wf_infinite b Hb Hi) as [-> | ->]; reflexivity. }
  destruct (wf_fin_val _ _ W V) as [F E]. split; [exact F|]. rewrite E. ring.
Qed.

Lemma fin_num_zero r : finite r -> (rat_num r = 0 <-> (qval r == 0)%Q).
Proof.
  intros [Hd _]. unfold qval. change 0%Q with (Qof 0 1). rewrite Qof_eq by lia. lia.
Qed.

Lemma zero_test r : wf r -> (rat_eq_rat r rat_ZERO = true <-> rat_num r = 0).
Proof.
  intros Hr. rewrite eq_rat_true. split; [intros ->; reflexivity|].
  intros Hn. pose proof (wf_zero_num r Hr Hn) as Hd. destruct r; cbn in *; subst; reflexivity.
Qed.

Lemma neg_nonzero c : nonzero c -> nonzero (rat_neg c).
Proof. unfold nonzero, rat_neg, set_rat_num; cbn [rat_num]. lia. Qed.

Lemma fin_qval_nonzero k : finite k -> nonzero k -> ~ (qval k == 0)%Q.
Proof. intros F N H. apply N, (fin_num_zero _ F), H. Qed.

(* a finite rational whose value is a product of non-zero factors is non-zero *)
Lemma fin_nonzero r p q : finite r -> (qval r == p * q)%Q -> ~ (p == 0)%Q -> ~ (q == 0)%Q -> nonzero r.
Proof.
  intros F E Np Nq Z. apply (fin_num_zero _ F) in Z. pose proof (Qeq_trans _ _ _ (Qeq_sym _ _ E) Z) as M.
  apply Qmult_integral in M. tauto.
Qed.

Section MapLemmas.
  Variable rho : var -> Q.

  Lemma msum_cons k c t : msum rho ((k, c) :: t) = (qval c * rho k + msum rho t)%Q.
  Proof. reflexivity. Qed.

  Lemma msum_insert v c m : m_find v m = None -> (msum rho (m_insert v c m) == qval c * rho v + msum rho m)%Q.
  Proof.
    induction m as [|[k c'] t IH]; intros Hf.
    - reflexivity.
    - cbn [m_find] in Hf. cbn [m_insert]. destruct (N.eqb_spec v k) as [->|Hvk]; [discriminate|].
      destruct (N.ltb v k); [reflexivity|]. rewrite !msum_cons, IH by exact Hf. ring.
  Qed.

  Lemma msum_set v c c0 m : m_find v m = Some c0 ->
    (msum rho (m_set v c m) == msum rho m - qval c0 * rho v + qval c * rho v)%Q.
  Proof.
    induction m as [|[k c'] t IH]; intros Hf; [discriminate|].
    cbn [m_find] in Hf. cbn [m_set]. destruct (N.eqb_spec v k) as [->|Hvk].
    - apply Some_inj in Hf. subst c'. rewrite !msum_cons. ring.
    - rewrite !msum_cons, IH by exact Hf. ring.
  Qed.

  Lemma msum_erase v c0 m : m_find v m = Some c0 -> (msum rho (m_erase v m) == msum rho m - qval c0 * rho v)%Q.
  Proof.
    induction m as [|[k c'] t IH]; intros Hf; [discriminate|].
    cbn [m_find] in Hf. cbn [m_erase]. destruct (N.eqb_spec v k) as [->|Hvk].
    - apply Some_inj in Hf. subst c'. rewrite !msum_cons. ring.
    - rewrite !msum_cons, IH by exact Hf. ring.
  Qed.
End MapLemmas.

Section ForallLemmas.
  Variable P : var * rat -> Prop.

  Lemma all_insert v c m : P (v, c) -> Forall P m -> Forall P (m_insert v c m).
  Proof.
    intros Hc. induction m as [|[k c'] t IH]; intros H.
    - constructor; [exact Hc|constructor].
    - cbn [m_insert]. destruct (N.ltb v k); [constructor; [exact Hc|exact H]|].
      destruct (N.eqb v k); [exact H|]. inversion H; subst. constructor; [assumption|apply IH; assumption].
  Qed.

  Lemma all_set v c m : P (v, c) -> Forall P m -> Forall P (m_set v c m).
  Proof.
    intros Hc. induction m as [|[k c'] t IH]; intros H; [constructor|].
    cbn [m_set]. inversion H; subst. destruct (N.eqb_spec v k) as [<-|_]; constructor; auto.
  Qed.

  Lemma all_erase v m : Forall P m -> Forall P (m_erase v m).
  Proof.
    induction m as [|[k c'] t IH]; intros H; [constructor|].
    cbn [m_erase]. inversion H; subst. destruct (N.eqb v k); [assumption|constructor; auto].
  Qed.

  Lemma all_find v c0 m : m_find v m = Some c0 -> Forall P m -> P (v, c0).
  Proof.
    induction m as [|[k c'] t IH]; intros Hf H; [discriminate|].
    cbn [m_find] in Hf. inversion H; subst. destruct (N.eqb_spec v k) as [->|_]; [apply Some_inj in Hf; subst; assumption|auto].
  Qed.
End ForallLemmas.

Lemma keys_cons k c t : keys ((k, c) :: t) = k :: keys t.
Proof. reflexivity. Qed.

Lemma keys_insert_all (Q : var -> Prop) v c m : Q v -> Forall Q (keys m) -> Forall Q (keys (m_insert v c m)).
Proof. unfold keys. rewrite !Forall_map. apply (all_insert (fun t => Q (fst t))). Qed.

Lemma keys_set v c m : keys (m_set v c m) = keys m.
Proof.
  induction m as [|[k c'] t IH]; [reflexivity|]. cbn [m_set]. destruct (N.eqb v k); rewrite !keys_cons; [reflexivity|now rewrite IH].
Qed.

Lemma keys_erase_all (Q : var -> Prop) v m : Forall Q (keys m) -> Forall Q (keys (m_erase v m)).
Proof. unfold keys. rewrite !Forall_map. apply all_erase. Qed.

Lemma keys_map f m : keys (m_map f m) = keys m.
Proof. unfold keys, m_map. rewrite map_map. reflexivity. Qed.

Lemma sorted_insert v c m : sorted m -> sorted (m_insert v c m).
Proof.
  unfold sorted. induction m as [|[k c'] t IH]; intros H.
  - cbn. constructor; constructor.
  - cbn [m_insert]. cbn in H. inversion H as [|? ? Ht Hk]; subst.
    destruct (N.ltb_spec v k) as [Hlt|Hge].
    + cbn. constructor; [exact H|]. constructor; [exact Hlt|].
      eapply Forall_impl; [|exact Hk]. intros x Hx; cbn in Hx. lia.
    + destruct (N.eqb_spec v k) as [->|Hne]; [exact H|].
      cbn. constructor; [apply IH; exact Ht|]. apply keys_insert_all; [lia|exact Hk].
Qed.

Lemma sorted_set v c m : sorted m -> sorted (m_set v c m).
Proof. unfold sorted. now rewrite keys_set. Qed.

Lemma sorted_erase v m : sorted m -> sorted (m_erase v m).
Proof.
  unfold sorted. induction m as [|[k c'] t IH]; intros H; [exact H|].
  cbn [m_erase]. cbn in H. inversion H as [|? ? Ht Hk]; subst.
  destruct (N.eqb v k); [exact Ht|]. cbn. constructor; [apply IH; exact Ht|apply keys_erase_all; exact Hk].
Qed.

Lemma sorted_map f m : sorted m -> sorted (m_map f m).
Proof. unfold sorted. now rewrite keys_map. Qed.

Theorem lin_ctor_spec : lwf lin_ctor /\ (forall rho, eval rho lin_ctor == 0)%Q /\ lnz lin_ctor.
Proof. split; [split; [constructor|split; [constructor|apply fin_zero]]|]. split; [intros; reflexivity|constructor]. Qed.

Theorem lin_ctor_rat_spec k : finite k ->
  lwf (lin_ctor_rat k) /\ (forall rho, eval rho (lin_ctor_rat k) == qval k)%Q /\ lnz (lin_ctor_rat k).
Proof.
  intros Hk. split; [split; [constructor|split; [constructor|exact Hk]]|]. split; [|constructor].
  intros rho. unfold eval; cbn. ring.
Qed.

Theorem lin_ctor_var_spec v c : finite c ->
  lwf (lin_ctor_var v c) /\ (forall rho, eval rho (lin_ctor_var v c) == qval c * rho v)%Q /\ (nonzero c -> lnz (lin_ctor_var v c)).
Proof.
  intros Hc. split; [split; [unfold sorted; cbn; repeat constructor|split; [cbn; constructor; [exact Hc|constructor]|apply fin_zero]]|]. split.
  - intros rho. unfold eval; cbn [lin_ctor_var lin_vars lin_known m_insert msum fold_right fst snd]. rewrite (proj2 fin_zero : (qval rat_ctor == 0)%Q). ring.
  - intros Hn. constructor; [exact Hn|constructor].
Qed.

(* the merge loops of + - += -= : one proof for both signs *)
Section Merge.
  (* `op` updates a stored coefficient, `ins` makes the coefficient of a new key, `sg` is the sign: +1 or -1 *)
  Variables (op : rat -> rat -> rat) (ins : rat -> rat) (sg : Q).
  Hypothesis Hop : forall a b, finite a -> finite b -> finite (op a b) /\ (qval (op a b) == qval a + sg * qval b)%Q.
  Hypothesis Hins : forall b, finite b -> finite (ins b) /\ (qval (ins b) == sg * qval b)%Q.
  Hypothesis Hnzins : forall b, nonzero b -> nonzero (ins b).

  (* add_term and sub_term are the two instances *)
  Definition merge_term (m : vmap) (t : var * rat) : vmap :=
    match m_find (fst t) m with
    | None => m_insert (fst t) (ins (snd t)) m
    | Some c => let c' := op c (snd t) in if rat_eq_rat c' rat_ZERO then m_erase (fst t) m else m_set (fst t) c' m
    end.

  Lemma merge_term_step m t : sorted m -> coefs_finite m -> finite (snd t) ->
    sorted (merge_term m t) /\ coefs_finite (merge_term m t) /\
    (forall rho, msum rho (merge_term m t) == msum rho m + sg * (qval (snd t) * rho (fst t)))%Q /\
    (nz m -> nonzero (snd t) -> nz (merge_term m t)).
  Proof.
    destruct t as [v c]. cbn [fst snd]. intros Hs Hf Hc. unfold merge_term; cbn [fst snd].
    destruct (m_find v m) as [c0|] eqn:Ef.
    - assert (Hc0 : finite c0) by (exact (all_find (fun t => finite (snd t)) v c0 m Ef Hf)).
      destruct (Hop c0 c Hc0 Hc) as [Hfin Hval]. cbv zeta.
      destruct (rat_eq_rat (op c0 c) rat_ZERO) eqn:Ez.
      + (* the coefficient cancels: sg * c = - c0 *)
        apply zero_test in Ez; [|exact (finite_wf _ Hfin)]. apply fin_num_zero in Ez; [|exact Hfin]. rewrite Hval in Ez.
        split; [apply sorted_erase; exact Hs|]. split; [apply all_erase; exact Hf|]. split.
        * intros rho. rewrite (msum_erase rho v c0 m Ef).
          assert (X : (sg * qval c == - qval c0)%Q) by (apply (Qplus_inj_l _ _ (qval c0)); rewrite Ez; ring).
          rewrite Qmult_assoc, X. ring.
        * intros Hnz _. apply all_erase; exact Hnz.
      + split; [apply sorted_set; exact Hs|]. split; [apply all_set; assumption|]. split.
        * intros rho. rewrite (msum_set rho v (op c0 c) c0 m Ef), Hval. ring.
        * intros Hnz _. apply all_set; [|exact Hnz].
          intros Hn. apply (zero_test _ (finite_wf _ Hfin)) in Hn. congruence.
    - destruct (Hins c Hc) as [Hfin Hval].
      split; [apply sorted_insert; exact Hs|]. split; [apply all_insert; assumption|]. split.
      + intros rho. rewrite (msum_insert rho v (ins c) m Ef), Hval. ring.
      + intros Hnz Hcn. apply all_insert; [exact (Hnzins c Hcn)|exact Hnz].
  Qed.

  Lemma merge_fold r : forall m, sorted m -> coefs_finite m -> coefs_finite r ->
    let m' := fold_left merge_term r m in
    sorted m' /\ coefs_finite m' /\ (forall rho, msum rho m' == msum rho m + sg * msum rho r)%Q /\ (nz m -> nz r -> nz m').
  Proof.
    induction r as [|t r IH]; intros m Hs Hf Hr; cbn [fold_left].
    - split; [exact Hs|]. split; [exact Hf|]. split; [intros rho; cbn; ring|auto].
    - inversion Hr as [|? ? Ht Hr']; subst.
      destruct (merge_term_step m t Hs Hf Ht) as (S1 & F1 & E1 & N1).
      destruct (IH (merge_term m t) S1 F1 Hr') as (S2 & F2 & E2 & N2). cbv zeta in *.
      split; [exact S2|]. split; [exact F2|]. split.
      + intros rho. rewrite E2, E1. destruct t as [v c]. rewrite msum_cons. cbn [fst snd]. ring.
      + intros Hm Hnr. inversion Hnr; subst. apply N2; [apply N1; assumption|assumption].
  Qed.

  Lemma merge_spec l r : lwf l -> lwf r ->
    let l' := mk_lin (fold_left merge_term (lin_vars r) (lin_vars l)) (op (lin_known l) (lin_known r)) in
    lwf l' /\ (forall rho, eval rho l' == eval rho l + sg * eval rho r)%Q /\ (lnz l -> lnz r -> lnz l').
  Proof.
    intros (S1 & F1 & K1) (S2 & F2 & K2). destruct (Hop _ _ K1 K2) as [FK EK].
    destruct (merge_fold (lin_vars r) (lin_vars l) S1 F1 F2) as (S & F & E & N).
    split; [split; [exact S|split; [exact F|exact FK]]|]. split; [|exact N].
    intros rho. unfold eval; cbn [lin_vars lin_known]. rewrite E, EK. ring.
  Qed.
End Merge.

Lemma add_term_merge : add_term = merge_term rat_addeq_rat (fun c => c).
Proof. reflexivity. Qed.

Lemma sub_term_merge : sub_term = merge_term rat_subeq_rat rat_neg.
Proof. reflexivity. Qed.

Theorem lin_add_lin_spec l r : lwf l -> lwf r ->
  lwf (lin_add_lin l r) /\ (forall rho, eval rho (lin_add_lin l r) == eval rho l + eval rho r)%Q /\
  (lnz l -> lnz r -> lnz (lin_add_lin l r)).
Proof.
  intros Hl Hr. unfold lin_add_lin. rewrite add_term_merge.
  destruct (merge_spec rat_addeq_rat (fun c => c) 1%Q) with (l := l) (r := r) as (W & E & N); try assumption.
  - intros a b Ha Hb. destruct (fin_add a b Ha Hb) as [F Eq]. split; [exact F|]. rewrite Eq. ring.
  - intros b Hb. split; [exact Hb|ring].
  - auto.
  - split; [exact W|]. split; [|exact N]. intros rho. rewrite (E rho). ring.
Qed.

Theorem lin_sub_lin_spec l r : lwf l -> lwf r ->
  lwf (lin_sub_lin l r) /\ (forall rho, eval rho (lin_sub_lin l r) == eval rho l - eval rho r)%Q /\
  (lnz l -> lnz r -> lnz (lin_sub_lin l r)).
Proof.
  intros Hl Hr. unfold lin_sub_lin. rewrite sub_term_merge.
  destruct (merge_spec rat_subeq_rat rat_neg (-1)%Q) with (l := l) (r := r) as (W & E & N); try assumption.
  - intros a b Ha Hb. destruct (fin_sub a b Ha Hb) as [F Eq]. split; [exact F|]. rewrite Eq. ring.
  - intros b Hb. destruct (fin_neg b Hb) as [F Eq]. split; [exact F|]. rewrite Eq. ring.
  - exact neg_nonzero.
  - split; [exact W|]. split; [|exact N]. intros rho. rewrite (E rho). ring.
Qed.

(* a scalar operand only touches the known term *)
Theorem lin_add_rat_spec l k : lwf l -> finite k ->
  lwf (lin_add_rat l k) /\ (forall rho, eval rho (lin_add_rat l k) == eval rho l + qval k)%Q /\
  lin_vars (lin_add_rat l k) = lin_vars l.
Proof.
  intros (S1 & F1 & K1) Hk. destruct (fin_add _ _ K1 Hk) as [FK EK].
  split; [split; [exact S1|split; [exact F1|exact FK]]|]. split; [|reflexivity].
  intros rho. unfold eval, lin_add_rat; cbn [lin_vars lin_known]. rewrite EK. ring.
Qed.

Theorem rat_add_lin_spec k l : finite k -> lwf l ->
  lwf (rat_add_lin k l) /\ (forall rho, eval rho (rat_add_lin k l) == qval k + eval rho l)%Q /\
  lin_vars (rat_add_lin k l) = lin_vars l.
Proof.
  intros Hk Hl. destruct (lin_add_rat_spec l k Hl Hk) as (W & E & V). split; [exact W|]. split; [|exact V].
  intros rho. change (rat_add_lin k l) with (lin_add_rat l k). rewrite E. ring.
Qed.

Theorem lin_sub_rat_spec l k : lwf l -> finite k ->
  lwf (lin_sub_rat l k) /\ (forall rho, eval rho (lin_sub_rat l k) == eval rho l - qval k)%Q /\
  lin_vars (lin_sub_rat l k) = lin_vars l.
Proof.
  intros (S1 & F1 & K1) Hk. destruct (fin_sub _ _ K1 Hk) as [FK EK].
  split; [split; [exact S1|split; [exact F1|exact FK]]|]. split; [|reflexivity].
  intros rho. unfold eval, lin_sub_rat; cbn [lin_vars lin_known]. rewrite EK. ring.
Qed.

(* scaling: unary minus, * and / apply one function to every coefficient and to the known term *)
Lemma m_map_ext f g m : (forall c, finite c -> f c = g c) -> coefs_finite m -> m_map f m = m_map g m.
Proof.
  intros Hfg. induction m as [|[k c] t IH]; intros H; [reflexivity|].
  inversion H; subst. cbn [m_map map fst snd]. rewrite Hfg by assumption. f_equal. apply IH; assumption.
Qed.

Section Scale.
  Variables (f : rat -> rat) (s : Q).
  Hypothesis Hf : forall c, finite c -> finite (f c) /\ (qval (f c) == qval c * s)%Q.
  Let scaled (l : lin) : lin := mk_lin (m_map f (lin_vars l)) (f (lin_known l)).

  Lemma map_scale m : coefs_finite m -> coefs_finite (m_map f m) /\ (forall rho, msum rho (m_map f m) == msum rho m * s)%Q.
  Proof.
    induction m as [|[k c] t IH]; intros H.
    - split; [constructor|intros rho; cbn; ring].
    - inversion H as [|? ? Hc Ht]; subst. cbn [snd] in Hc. destruct (IH Ht) as [F E]. destruct (Hf c Hc) as [Fc Ec].
      split; [constructor; [exact Fc|exact F]|]. intros rho.
      change (m_map f ((k, c) :: t)) with ((k, f c) :: m_map f t). rewrite !msum_cons, E, Ec. ring.
  Qed.

  Lemma scale_spec l : lwf l -> lwf (scaled l) /\ (forall rho, eval rho (scaled l) == eval rho l * s)%Q.
  Proof.
    intros (S1 & F1 & K1). destruct (Hf _ K1) as [FK EK]. destruct (map_scale _ F1) as [F E].
    split; [split; [apply sorted_map; exact S1|split; [exact F|exact FK]]|].
    intros rho. unfold eval, scaled; cbn [lin_vars lin_known]. rewrite E, EK. ring.
  Qed.

  Lemma scale_nz l : (forall c, finite c -> nonzero c -> nonzero (f c)) -> coefs_finite (lin_vars l) -> lnz l -> lnz (scaled l).
  Proof.
    intros Hnz F1. unfold lnz, scaled; cbn [lin_vars]. induction (lin_vars l) as [|[k c] t IH]; intros Hn; [constructor|].
    inversion F1; inversion Hn; subst. constructor; [apply Hnz; assumption|apply IH; assumption].
  Qed.
End Scale.

(* operator-() builds its result by emplacing in key order: the result is the coefficient-wise negation *)
Lemma insert_last v c m : Forall (fun k => (k < v)%N) (keys m) -> m_insert v c m = m ++ [(v, c)].
Proof.
  induction m as [|[k c'] t IH]; intros H; [reflexivity|].
  rewrite keys_cons in H. inversion H as [|? ? Hk Ht]; subst. cbn [m_insert app].
  destruct (N.ltb_spec v k); [lia|]. destruct (N.eqb_spec v k); [lia|]. now rewrite IH.
Qed.

Lemma ssorted_app_mid (l1 : list N) x l2 : StronglySorted N.lt (l1 ++ x :: l2) -> Forall (fun k => (k < x)%N) l1.
Proof.
  induction l1 as [|a l1 IH]; intros H; [constructor|].
  cbn in H. inversion H as [|? ? Hs Ha]; subst. constructor; [|apply IH; exact Hs].
  rewrite Forall_forall in Ha. apply Ha. apply in_or_app. right. left. reflexivity.
Qed.

Lemma neg_fold r : forall acc, StronglySorted N.lt (keys acc ++ keys r) ->
  fold_left (fun m t => m_insert (fst t) (rat_neg (snd t)) m) r acc = acc ++ m_map rat_neg r.
Proof.
  induction r as [|[v c] r IH]; intros acc H; cbn [fold_left fst snd].
  - cbn. now rewrite app_nil_r.
  - rewrite keys_cons in H. rewrite insert_last by (eapply ssorted_app_mid; exact H).
    rewrite IH.
    + rewrite <- app_assoc. reflexivity.
    + unfold keys at 1. rewrite map_app. cbn [map fst]. rewrite <- app_assoc. exact H.
Qed.

Lemma lin_neg_unfold l : sorted (lin_vars l) -> lin_neg l = mk_lin (m_map rat_neg (lin_vars l)) (rat_neg (lin_known l)).
Proof. intros H. unfold lin_neg. now rewrite neg_fold. Qed.

Theorem lin_neg_spec l : lwf l ->
  lwf (lin_neg l) /\ (forall rho, eval rho (lin_neg l) == - eval rho l)%Q /\ (lnz l -> lnz (lin_neg l)) /\
  lin_vars (lin_neg l) = m_map rat_neg (lin_vars l).
Proof.
  intros Hl. rewrite (lin_neg_unfold l (proj1 Hl)).
  assert (S : forall c, finite c -> finite (rat_neg c) /\ (qval (rat_neg c) == qval c * (-1 # 1))%Q)
    by (intros c Hc; destruct (fin_neg c Hc) as [F E]; split; [exact F|rewrite E; ring]).
  destruct (scale_spec _ _ S l Hl) as [W E].
  split; [exact W|]. split; [intros rho; rewrite (E rho); ring|]. split; [|reflexivity].
  apply scale_nz; [intros c _; apply neg_nonzero|apply Hl].
Qed.

(* operator-(rational, lin) : res = -rhs; res.known_term += lhs *)
Theorem rat_sub_lin_spec k l : finite k -> lwf l ->
  lwf (rat_sub_lin k l) /\ (forall rho, eval rho (rat_sub_lin k l) == qval k - eval rho l)%Q /\
  (lnz l -> lnz (rat_sub_lin k l)).
Proof.
  intros Hk Hl. destruct (lin_neg_spec l Hl) as (W & E & N & _). destruct (lin_add_rat_spec _ k W Hk) as (W' & E' & _).
  split; [exact W'|]. split; [|exact N]. intros rho. change (rat_sub_lin k l) with (lin_add_rat (lin_neg l) k). rewrite E', E. ring.
Qed.

Theorem lin_mul_rat_spec l k : lwf l -> finite k ->
  lwf (lin_mul_rat l k) /\ (forall rho, eval rho (lin_mul_rat l k) == eval rho l * qval k)%Q /\
  (nonzero k -> lnz l -> lnz (lin_mul_rat l k)).
Proof.
  intros Hl Hk. pose proof (fun c Hc => fin_mul c k Hc Hk) as M. destruct (scale_spec _ _ M l Hl) as [W E].
  split; [exact W|]. split; [exact E|]. intros Hkn. apply scale_nz; [|apply Hl].
  intros c Hc Hcn. destruct (M c Hc) as [F Eq]. exact (fin_nonzero _ _ _ F Eq (fin_qval_nonzero c Hc Hcn) (fin_qval_nonzero k Hk Hkn)).
Qed.

Theorem rat_mul_lin_spec k l : finite k -> lwf l ->
  lwf (rat_mul_lin k l) /\ (forall rho, eval rho (rat_mul_lin k l) == qval k * eval rho l)%Q /\
  (nonzero k -> lnz l -> lnz (rat_mul_lin k l)).
Proof.
  intros Hk Hl. destruct (lin_mul_rat_spec l k Hl Hk) as (W & E & N).
  split; [exact W|]. split; [|exact N]. intros rho. change (rat_mul_lin k l) with (lin_mul_rat l k). rewrite E. ring.
Qed.

Theorem lin_div_rat_spec l k : lwf l -> finite k -> nonzero k ->
  lwf (lin_div_rat l k) /\ (forall rho, eval rho (lin_div_rat l k) == eval rho l / qval k)%Q /\
  (lnz l -> lnz (lin_div_rat l k)).
Proof.
  intros Hl Hk Hkn. pose proof (fun c Hc => fin_div c k Hc Hk Hkn) as D. destruct (scale_spec _ _ D l Hl) as [W E].
  split; [exact W|]. split; [exact E|]. apply scale_nz; [|apply Hl].
  intros c Hc Hcn. destruct (D c Hc) as [F Eq]. apply (fin_nonzero _ _ _ F Eq (fin_qval_nonzero c Hc Hcn)).
  intros H. apply (fin_qval_nonzero k Hk Hkn). now rewrite <- (Qinv_involutive (qval k)), H.
Qed.

(* division by +-infinity: every coefficient becomes 0 (and stays in the map) *)
Theorem lin_div_inf_spec l k : lwf l -> wf k -> is_infinite_rat k = true ->
  lwf (lin_div_rat l k) /\ (forall rho, eval rho (lin_div_rat l k) == 0)%Q.
Proof.
  intros Hl Hk Hi.
  assert (D : forall c, finite c -> finite (rat_diveq_rat c k) /\ (qval (rat_diveq_rat c k) == qval c * 0)%Q).
  { intros c Hc. destruct (fin_div_inf c k Hc Hk Hi) as [F E]. split; [exact F|]. rewrite E. ring. }
  destruct (scale_spec _ _ D l Hl) as [W E]. split; [exact W|]. intros rho. rewrite (E rho). ring.
Qed.

Theorem lin_addeq_lin_is_add l r : lin_addeq_lin l r = lin_add_lin l r.
Proof. reflexivity. Qed.
Theorem lin_addeq_rat_is_add l k : lin_addeq_rat l k = lin_add_rat l k.
Proof. reflexivity. Qed.
Theorem lin_subeq_lin_is_sub l r : lin_subeq_lin l r = lin_sub_lin l r.
Proof. reflexivity. Qed.
Theorem lin_subeq_rat_is_sub l k : lin_subeq_rat l k = lin_sub_rat l k.
Proof. reflexivity. Qed.

Theorem lin_muleq_rat_is_mul l k : rat_eq_rat k rat_ZERO = false -> lin_muleq_rat l k = lin_mul_rat l k.
Proof. intros H. unfold lin_muleq_rat. now rewrite H. Qed.

Theorem lin_muleq_rat_zero l k : rat_eq_rat k rat_ZERO = true -> lin_muleq_rat l k = mk_lin [] rat_ZERO.
Proof. intros H. unfold lin_muleq_rat. now rewrite H. Qed.

Theorem lin_diveq_rat_is_div l k : is_infinite_rat k = false -> lin_diveq_rat l k = lin_div_rat l k.
Proof. intros H. unfold lin_diveq_rat. now rewrite H. Qed.

Theorem lin_muleq_rat_spec l k : lwf l -> finite k ->
  lwf (lin_muleq_rat l k) /\ (forall rho, eval rho (lin_muleq_rat l k) == eval rho l * qval k)%Q /\
  (lnz l -> lnz (lin_muleq_rat l k)).
Proof.
  intros Hl Hk. destruct (rat_eq_rat k rat_ZERO) eqn:Ez.
  - rewrite lin_muleq_rat_zero by exact Ez. apply eq_rat_true in Ez. subst k.
    split; [split; [constructor|split; [constructor|apply fin_zero]]|]. split; [|constructor].
    intros rho. unfold eval; cbn [lin_vars lin_known msum fold_right]. rewrite (proj2 fin_zero). ring.
  - rewrite lin_muleq_rat_is_mul by exact Ez. destruct (lin_mul_rat_spec l k Hl Hk) as (W & E & N).
    split; [exact W|]. split; [exact E|]. apply N. intros Hn. apply (zero_test k (finite_wf _ Hk)) in Hn. congruence.
Qed.

Theorem lin_diveq_rat_spec l k : lwf l -> finite k -> nonzero k ->
  lwf (lin_diveq_rat l k) /\ (forall rho, eval rho (lin_diveq_rat l k) == eval rho l / qval k)%Q /\
  (lnz l -> lnz (lin_diveq_rat l k)).
Proof.
  intros Hl Hk Hn. rewrite lin_diveq_rat_is_div; [now apply lin_div_rat_spec|].
  unfold is_infinite_rat. destruct Hk as [Hd _]. destruct (Z.eqb_spec (rat_den k) 0); [lia|reflexivity].
Qed.

Theorem lin_diveq_inf_spec l k : lwf l -> wf k -> is_infinite_rat k = true ->
  lwf (lin_diveq_rat l k) /\ (forall rho, eval rho (lin_diveq_rat l k) == 0)%Q /\ lin_vars (lin_diveq_rat l k) = [].
Proof.
  intros Hl Hk Hi. unfold lin_diveq_rat. rewrite Hi. cbn [lin_vars lin_known].
  destruct (fin_div_inf rat_ZERO k (proj1 fin_zero) Hk Hi) as [F E].
  split; [split; [constructor|split; [constructor|exact F]]|]. split; [|reflexivity].
  intros rho. unfold eval; cbn [lin_vars lin_known msum fold_right]. rewrite E. ring.
Qed.

Lemma neg_is_mul_minus_one c : finite c -> rat_neg c = rat_muleq_rat c (rat_ctor_int (-1)).
Proof.
  intros Hc. assert (Hm : finite (rat_ctor_int (-1))) by (split; cbn; lia).
  destruct (fin_neg c Hc) as [F1 E1]. destruct (fin_mul c _ Hc Hm) as [F2 E2].
  apply wf_val_inj; [apply finite_wf; exact F1|apply finite_wf; exact F2|].
  rewrite (val_finite _ (proj1 F1)), (val_finite _ (proj1 F2)). cbn [ext_eq]. rewrite E1, E2. unfold qval at 3, Qof; cbn. ring.
Qed.

Theorem lin_neg_is_minus_one l : lwf l -> lin_neg l = lin_mul_rat l (rat_ctor_int (-1)).
Proof.
  intros (S1 & F1 & K1). rewrite (lin_neg_unfold l S1). unfold lin_mul_rat.
  now rewrite <- (neg_is_mul_minus_one _ K1), <- (m_map_ext rat_neg _ (lin_vars l) neg_is_mul_minus_one F1).
Qed.

Lemma lop_step_spec o l : lop_ok o -> lwf l ->
  lwf (lop_step l o) /\ (forall rho, eval rho (lop_step l o) == lop_sem rho (eval rho l) o)%Q /\
  (lop_nzok o -> lnz l -> lnz (lop_step l o)).
Proof.
  (* the forms that only touch the known term keep the map, hence its zero-freeness *)
  assert (V : forall l' : lin, lin_vars l' = lin_vars l -> lnz l -> lnz l') by (intros l' E; unfold lnz; now rewrite E).
  intros Ho Hl. destruct o; cbn [lop_ok lop_nzok lop_step lop_sem] in *.
  - destruct (lin_add_lin_spec l r Hl Ho) as (W & E & N). auto.
  - destruct (lin_add_rat_spec l k Hl Ho) as (W & E & Ev). auto.
  - destruct (rat_add_lin_spec k l Ho Hl) as (W & E & Ev). auto.
  - destruct (lin_sub_lin_spec l r Hl Ho) as (W & E & N). auto.
  - destruct (lin_sub_rat_spec l k Hl Ho) as (W & E & Ev). auto.
  - destruct (rat_sub_lin_spec k l Ho Hl) as (W & E & N). auto.
  - destruct (lin_mul_rat_spec l k Hl Ho) as (W & E & N). auto.
  - destruct (rat_mul_lin_spec k l Ho Hl) as (W & E & N). auto.
  - destruct Ho as [Hk Hn]. destruct (lin_div_rat_spec l k Hl Hk Hn) as (W & E & N). auto.
  - destruct (lin_add_lin_spec l r Hl Ho) as (W & E & N). auto.
  - destruct (lin_add_rat_spec l k Hl Ho) as (W & E & Ev). auto.
  - destruct (lin_sub_lin_spec l r Hl Ho) as (W & E & N). auto.
  - destruct (lin_sub_rat_spec l k Hl Ho) as (W & E & Ev). auto.
  - destruct (lin_muleq_rat_spec l k Hl Ho) as (W & E & N). auto.
  - destruct Ho as [Hk Hn]. destruct (lin_diveq_rat_spec l k Hl Hk Hn) as (W & E & N). auto.
  - destruct (lin_neg_spec l Hl) as (W & E & N & _). auto.
Qed.

Lemma lop_sem_fold_compat rho ops : forall x y, (x == y)%Q ->
  (fold_left (lop_sem rho) ops x == fold_left (lop_sem rho) ops y)%Q.
Proof.
  induction ops as [|o ops IH]; intros x y H; cbn [fold_left]; [exact H|]. apply IH.
  destruct o; cbn [lop_sem]; rewrite H; reflexivity.
Qed.

Theorem lop_run_spec ops : forall l, Forall lop_ok ops -> lwf l ->
  lwf (fold_left lop_step ops l) /\
  (forall rho, eval rho (fold_left lop_step ops l) == fold_left (lop_sem rho) ops (eval rho l))%Q /\
  (Forall lop_nzok ops -> lnz l -> lnz (fold_left lop_step ops l)).
Proof.
  induction ops as [|o ops IH]; intros l Hok Hl; cbn [fold_left].
  - split; [exact Hl|]. split; [intros; reflexivity|auto].
  - inversion Hok as [|? ? Ho Hops]; subst. destruct (lop_step_spec o l Ho Hl) as (W & E & N).
    destruct (IH (lop_step l o) Hops W) as (W' & E' & N'). split; [exact W'|]. split.
    + intros rho. rewrite E'. apply lop_sem_fold_compat. apply E.
    + intros Hnz Hn. inversion Hnz; subst. apply N'; [assumption|]. apply N; assumption.
Qed.

(* non-vacuity: a well-formed, zero-free linear expression  1/2 x0 - 2 x3 + 5/3 *)
Example lwf_example : lwf (mk_lin [(0%N, mk_rat 1 2); (3%N, mk_rat (-2) 1)] (mk_rat 5 3)) /\
                      lnz (mk_lin [(0%N, mk_rat 1 2); (3%N, mk_rat (-2) 1)] (mk_rat 5 3)).
Proof.
  split; [split; [|split]|].
  - repeat constructor.
  - repeat constructor; cbn; lia.
  - split; cbn; lia.
  - repeat constructor; cbn; lia.
Qed.

Example lop_run_example :
  Forall lop_ok [OAddEqL (mk_lin [(1%N, mk_rat 1 1)] (mk_rat 2 1)); OMulEqR (mk_rat 3 1); OSubEqL (mk_lin [(1%N, mk_rat 3 1)] (mk_rat 0 1)); ONeg] /\
  fold_left lop_step [OAddEqL (mk_lin [(1%N, mk_rat 1 1)] (mk_rat 2 1)); OMulEqR (mk_rat 3 1); OSubEqL (mk_lin [(1%N, mk_rat 3 1)] (mk_rat 0 1)); ONeg] lin_ctor
  = mk_lin [] (mk_rat (-6) 1).
Proof.
  split; [|vm_compute; reflexivity].
  repeat constructor; cbn; try lia.
Qed.
