(* Soundness of the K2 checkers of smt/LraCheck.v. *)
From Coq Require Import QArith List Lia Lqa.
From ORatio Require Import smt.Lra smt.LraSem smt.LraCheck proofs.LraBase_Proofs proofs.LraInv_Proofs.
Import ListNotations.
Local Open Scope Q_scope.
#[local] Arguments Qred : simpl never.
#[local] Arguments Qplus : simpl never.
#[local] Arguments Qmult : simpl never.
#[local] Arguments Qopp : simpl never.
#[local] Arguments Qminus : simpl never.
#[local] Arguments Qdiv : simpl never.
#[local] Arguments Qinv : simpl never.
#[local] Arguments Qeq_bool : simpl never.
#[local] Arguments Qle_bool : simpl never.

Lemma evald_at d vl l : qd_at d (evald vl l) == evalq (valq d vl) l.
Proof. unfold evald, evalq. rewrite value_terms_at, qd_at_of_q. reflexivity. Qed.
Lemma chk_eq_on_vals_sound vl x l d : chk_eq_on_vals vl x l = true -> valq d vl x == evalq (valq d vl) l.
Proof.
  unfold chk_eq_on_vals. intro H. apply qd_eqb_true in H. unfold valq at 1. rewrite (qd_at_eq d _ _ H). apply evald_at.
Qed.

Theorem chk_rows_vals_sound dmp : chk_rows_vals dmp = true -> forall d, sat_rows (d_rows dmp) (valq d (d_vals dmp)).
Proof.
  unfold chk_rows_vals. rewrite forallb_forall. intros H d x l Hin. apply chk_eq_on_vals_sound. apply (H (x, l) Hin).
Qed.
Theorem chk_defs_vals_sound dmp : chk_defs_vals dmp = true -> forall d, sat_defs (d_defs dmp) (valq d (d_vals dmp)).
Proof.
  unfold chk_defs_vals. rewrite forallb_forall. intros H d l x Hin. apply chk_eq_on_vals_sound. apply (H (l, x) Hin).
Qed.
Theorem chk_within_sound all dmp : chk_within all dmp = true ->
  forall x, (x < d_n dmp)%nat -> (all = true \/ trow (d_rows dmp) x = None) ->
    (forall l, d_lb dmp x = Some l -> qd_le l (d_vals dmp x)) /\ (forall u, d_ub dmp x = Some u -> qd_le (d_vals dmp x) u).
Proof.
  unfold chk_within. rewrite forallb_forall. intros H x Hx Hc.
  assert (Hin : In x (seq 0 (d_n dmp))) by (apply in_seq; lia). specialize (H x Hin).
  assert (C : all || negb (is_row dmp x) = true).
  { destruct Hc as [-> | Hc]; auto. unfold is_row. rewrite Hc. apply orb_true_r. }
  rewrite C in H. unfold chk_within_var in H. apply andb_true_iff in H. destruct H as [H1 H2]. split.
  - intros l Hl. rewrite Hl in H1. apply qd_leb_true. exact H1.
  - intros u Hu. rewrite Hu in H2. apply qd_leb_true. exact H2.
Qed.

Lemma find_def_in E x m : find_def E x = Some m -> In (m, x) E.
Proof.
  induction E as [| [m' y] t IH]; simpl; [discriminate |]. destruct (Nat.eqb x y && negb (lin_eqb m' (lin_var y))) eqn:C.
  - intro H; injection H as <-. apply andb_true_iff in C. destruct C as [C _]. apply Nat.eqb_eq in C. subst. auto.
  - auto.
Qed.
Lemma expand_sound E rho : sat_defs E rho -> forall fuel l, evalq rho (expand E fuel l) == evalq rho l.
Proof.
  intros D fuel. induction fuel as [| f IH]; intro l; simpl; [reflexivity |].
  assert (G : forall ts acc, evalq rho (fold_left (fun acc t => match find_def E (fst t) with
                                   | Some m => lin_add acc (lin_scale (snd t) (expand E f m))
                                   | None => lin_add acc (mkLin [(fst t, snd t)] 0)
                                   end) ts acc) == evalq rho acc + sumq rho ts).
  { induction ts as [| [v c] t IHt]; intro acc; simpl; [ring |]. rewrite IHt. destruct (find_def E v) as [m |] eqn:F.
    - rewrite evalq_lin_add, evalq_lin_scale, IH. apply find_def_in in F. rewrite <- (D m v F). ring.
    - rewrite evalq_lin_add. unfold evalq at 2. simpl. ring. }
  rewrite G. unfold evalq. simpl. ring.
Qed.
Theorem chk_row_consequence_sound dmp r rho :
  chk_row_consequence dmp r = true -> sat_defs (d_defs dmp) rho -> rho (fst r) == evalq rho (snd r).
Proof.
  unfold chk_row_consequence. intros H D. apply (lin_eqb_evalq rho) in H. rewrite !(expand_sound _ rho D) in H.
  rewrite evalq_lin_var in H. exact H.
Qed.
Theorem chk_rows_consequence_sound dmp rho : chk_rows_consequence dmp = true -> sat_defs (d_defs dmp) rho -> sat_rows (d_rows dmp) rho.
Proof.
  unfold chk_rows_consequence. rewrite forallb_forall. intros H D x l Hin. apply (chk_row_consequence_sound dmp (x, l) rho (H _ Hin) D).
Qed.

Lemma best_lower_sound A v b rho : (forall a, In a A -> sat_atom rho a) -> best_lower A v = Some b -> sat_lower (rho v) b.
Proof.
  induction A as [| [[x d] c] t IH]; simpl; intros H E; [discriminate |].
  assert (Ht : forall a, In a t -> sat_atom rho a) by (intros; apply H; auto).
  destruct d; [| apply IH; auto]. destruct (Nat.eqb x v) eqn:Ex; [| apply IH; auto]. apply Nat.eqb_eq in Ex. subst.
  destruct (best_lower t v) as [b' |] eqn:Eb.
  - injection E as <-. destruct (qd_ltb c b'); [apply IH; auto | apply (H (v, Lower, c)); auto].
  - injection E as <-. apply (H (v, Lower, c)). auto.
Qed.
Lemma best_upper_sound A v b rho : (forall a, In a A -> sat_atom rho a) -> best_upper A v = Some b -> sat_upper (rho v) b.
Proof.
  induction A as [| [[x d] c] t IH]; simpl; intros H E; [discriminate |].
  assert (Ht : forall a, In a t -> sat_atom rho a) by (intros; apply H; auto).
  destruct d; [apply IH; auto |]. destruct (Nat.eqb x v) eqn:Ex; [| apply IH; auto]. apply Nat.eqb_eq in Ex. subst.
  destruct (best_upper t v) as [b' |] eqn:Eb.
  - injection E as <-. destruct (qd_ltb b' c); [apply IH; auto | apply (H (v, Upper, c)); auto].
  - injection E as <-. apply (H (v, Upper, c)). auto.
Qed.

Definition best (d : dir) (A : list atom) (v : var) : option qd := match d with Lower => best_lower A v | Upper => best_upper A v end.
Lemma best_sound d A v b rho : (forall a, In a A -> sat_atom rho a) -> best d A v = Some b -> sat_dir d (rho v) b.
Proof. destruct d; [apply best_lower_sound | apply best_upper_sound]. Qed.

(* the Farkas sum is a sum of bounds (LraInv_Proofs.bsum) over the best atoms *)
Lemma sum_bounds_bsum lower A ts acc :
  sum_bounds lower A ts acc =
  bsum (fun v c => if qpos c || qneg c then option_map Some (best (sdir (bdir lower) c) A v) else Some None) ts acc.
Proof.
  revert acc. induction ts as [| [v c] t IH]; intro acc; simpl; auto. unfold sdir.
  destruct (qpos c); [| destruct (qneg c)]; destruct lower; simpl; auto;
    match goal with |- context [match ?b with Some _ => _ | None => None end] => destruct b end; simpl; auto.
Qed.
Lemma sum_bounds_sound lower A rho ts acc s :
  (forall a, In a A -> sat_atom rho a) -> sum_bounds lower A ts acc = Some s ->
  ev (fun e => dle (bdir lower) (qd_at e s) (qd_at e acc + sumq rho ts)).
Proof.
  intros H E. rewrite sum_bounds_bsum in E. apply (bsum_ev (bdir lower) _ ts acc s (fun _ => rho) E). intros v c _.
  destruct (qpos c || qneg c) eqn:Z; [| apply qzero, Z]. destruct (best (sdir (bdir lower) c) A v) as [b |] eqn:Eb; simpl; auto.
  apply sat_dir_ev. eapply best_sound; eauto.
Qed.

(* one side: the row forces x beyond the sum s, and an atom o on the other side lies strictly before s *)
Lemma farkas_side_sound lower x l A rho s o :
  rho x == evalq rho l -> (forall a, In a A -> sat_atom rho a) ->
  sum_bounds lower A (lterms l) (qd_of_q (lconst l)) = Some s -> best (opp (bdir lower)) A x = Some o ->
  stricter_b (bdir lower) o s = true -> False.
Proof.
  intros R H E Eo C. apply (stricter_b_true _ _ _ C). apply (sat_dir_opp (bdir lower) (rho x)); [| eapply best_sound; eauto].
  apply sat_dir_ev. eapply ev_mono; [| exact (sum_bounds_sound lower A rho _ _ _ H E)].
  intros e _ K. unfold evalq in R. destruct lower; simpl in *; rewrite qd_at_of_q in K; lra.
Qed.
Theorem farkas_check_sound r A rho :
  farkas_check r A = true -> rho (fst r) == evalq rho (snd r) -> (forall a, In a A -> sat_atom rho a) -> False.
Proof.
  destruct r as [x l]. unfold farkas_check. simpl. intros C R H. apply orb_true_iff in C. destruct C as [C | C].
  - destruct (sum_bounds true A (lterms l) (qd_of_q (lconst l))) as [s |] eqn:E; [| discriminate].
    destruct (best_upper A x) as [u |] eqn:Eu; [| discriminate]. exact (farkas_side_sound true x l A rho s u R H E Eu C).
  - destruct (sum_bounds false A (lterms l) (qd_of_q (lconst l))) as [s |] eqn:E; [| discriminate].
    destruct (best_lower A x) as [lo |] eqn:El; [| discriminate]. exact (farkas_side_sound false x l A rho s lo R H E El C).
Qed.
Theorem unate_check_sound A v rho : unate_check A v = true -> (forall a, In a A -> sat_atom rho a) -> False.
Proof.
  unfold unate_check. intros C H. destruct (best_lower A v) as [lo |] eqn:El; [| discriminate].
  destruct (best_upper A v) as [u |] eqn:Eu; [| discriminate]. apply qd_ltb_true in C.
  eapply (sat_cross (rho v) lo u); eauto; [eapply best_lower_sound | eapply best_upper_sound]; eauto.
Qed.

(* a set of atoms accepted by refute_check has no rational solution that satisfies the slack definitions *)
Theorem refute_check_sound dmp A rho :
  refute_check dmp A = true -> sat_defs (d_defs dmp) rho -> (forall a, In a A -> sat_atom rho a) -> False.
Proof.
  unfold refute_check. intros C D H. apply orb_true_iff in C. destruct C as [C | C].
  - apply existsb_exists in C. destruct C as [v [_ C]]. eapply unate_check_sound; eauto.
  - apply existsb_exists in C. destruct C as [r [_ C]]. apply andb_true_iff in C. destruct C as [C1 C2].
    eapply farkas_check_sound; eauto. eapply chk_row_consequence_sound; eauto.
Qed.
