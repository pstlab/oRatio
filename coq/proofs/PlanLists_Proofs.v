(* List facts shared by the proofs about the planner models (Exec_Proofs, Sweep_Proofs). *)
From Coq Require Import List.
Import ListNotations.

(* identities are distinct: an element is determined by its identity *)
Lemma NoDup_map_inj : forall (A B : Type) (f : A -> B) (l : list A) x y,
  NoDup (map f l) -> In x l -> In y l -> f x = f y -> x = y.
Proof.
  intros A B f l x y. induction l as [|z r IH]; simpl; intros Hnd Hx Hy E; [destruct Hx|].
  inversion Hnd as [|? ? Hz Hr]; subst.
  destruct Hx as [Hx|Hx], Hy as [Hy|Hy]; subst.
  - reflexivity.
  - exfalso. apply Hz. rewrite E. apply in_map. exact Hy.
  - exfalso. apply Hz. rewrite <- E. apply in_map. exact Hx.
  - apply IH; assumption.
Qed.

Lemma nodup_app : forall (A : Type) (l1 l2 : list A),
  NoDup l1 -> NoDup l2 -> (forall x, In x l2 -> ~ In x l1) -> NoDup (l1 ++ l2).
Proof.
  intros A l1 l2 H1 H2 H. induction H1 as [|x l Hx Hl IH]; simpl; [exact H2|].
  constructor.
  - intro Hin. apply in_app_or in Hin. destruct Hin as [Hin|Hin]; [contradiction|]. apply (H x Hin). left. reflexivity.
  - apply IH. intros y Hy Hy'. apply (H y Hy). right. exact Hy'.
Qed.

Lemma nodup_map_filter : forall (A B : Type) (f : A -> B) (g : A -> bool) (l : list A),
  NoDup (map f l) -> NoDup (map f (filter g l)).
Proof.
  intros A B f g l. induction l as [|x r IH]; simpl; intro H; [constructor|].
  inversion H as [|? ? Hx Hr]; subst. destruct (g x); simpl.
  - constructor; [|apply IH; exact Hr]. intro Hin. apply Hx. apply in_map_iff in Hin. destruct Hin as [y [E Hy]].
    apply filter_In in Hy. rewrite <- E. apply in_map. tauto.
  - apply IH. exact Hr.
Qed.
