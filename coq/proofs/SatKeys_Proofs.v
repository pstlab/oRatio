(* The printed cache keys of sat_core and ov_theory (smt/SatKeys.v) are injective: equal printed keys => same construct kind and
   the same (normalised) argument list / the same ordered pair of object variables. Hence looking a printed key up in the printed
   cache (what the C++ does) is exactly the structural lookup of the models (smt/SatEnc.v lookup, smt/Ov.v oexpr_find).
   Built on base/DecStr.v (std::to_string of an unsigned integer: digits only, injective) and proofs/DecStr_Proofs.v
   (span_unique: the longest prefix inside a character class is unique). *)
From Coq Require Import List String Ascii Arith Bool.
From ORatio Require Import base.DecStr proofs.DecStr_Proofs smt.SatEnc smt.Ov smt.SatKeys proofs.SatEnc_Proofs.
Import ListNotations.
Local Open Scope string_scope.

(* a printed literal is followed, inside a key, by the end of the text or by another printed literal: never by a digit *)
Lemma str_lit_head : forall p, nhead is_digit (str_lit p).
Proof. intros [v []]; unfold str_lit; cbn; reflexivity. Qed.

Lemma str_lits_head : forall ls, nhead is_digit (str_lits ls).
Proof. intros [|[v []] r]; cbn; try exact I; reflexivity. Qed.

Lemma str_lit_nonempty : forall p s, str_lit p ++ s <> "".
Proof. intros [v []] s; unfold str_lit; cbn; discriminate. Qed.

Lemma str_lit_app_inj : forall p q s1 s2, nhead is_digit s1 -> nhead is_digit s2 ->
  str_lit p ++ s1 = str_lit q ++ s2 -> p = q /\ s1 = s2.
Proof.
  intros [v b] [w c] s1 s2 H1 H2 E. unfold str_lit in E. cbn [lsign lvar] in E.
  destruct b, c; cbn in E; try discriminate; inversion E as [E'];
    destruct (span_unique is_digit _ _ _ _ (str_nat_digits v) (str_nat_digits w) H1 H2 E') as [Ev Es];
    apply str_nat_inj in Ev; subst; auto.
Qed.

Theorem str_lit_inj : forall p q, str_lit p = str_lit q -> p = q.
Proof.
  intros p q E. assert (E' : str_lit p ++ "" = str_lit q ++ "") by (rewrite E; reflexivity).
  apply (str_lit_app_inj p q "" "" I I) in E' as [-> _]. reflexivity.
Qed.

Theorem str_lits_inj : forall ls ls', str_lits ls = str_lits ls' -> ls = ls'.
Proof.
  induction ls as [|p r IH]; intros [|q r'] E; cbn in E.
  - reflexivity.
  - symmetry in E. apply str_lit_nonempty in E. contradiction.
  - apply str_lit_nonempty in E. contradiction.
  - apply str_lit_app_inj in E as [-> E]; [|apply str_lits_head|apply str_lits_head]. f_equal. apply IH, E.
Qed.

(* equal printed keys => same kind of construct and same argument list *)
Theorem str_key_inj : forall k k', str_key k = str_key k' -> k = k'.
Proof.
  intros k k' E. destruct k, k'; cbn in E; try discriminate; inversion E as [E'];
    try (apply str_lits_inj in E'; subst; reflexivity).
  - apply str_nat_inj in E'. subst; reflexivity.
  - apply str_lit_app_inj in E' as [-> E']; [|apply str_lit_head|apply str_lit_head]. apply str_lit_inj in E'. subst; reflexivity.
Qed.

Theorem str_ov_key_inj : forall l r l' r', str_ov_key l r = str_ov_key l' r' -> l = l' /\ r = r'.
Proof.
  intros l r l' r' E. unfold str_ov_key in E. cbn in E. inversion E as [E'].
  destruct (span_unique is_digit _ _ _ _ (str_nat_digits l) (str_nat_digits l') (eq_refl : nhead is_digit ("e" ++ str_nat r)) (eq_refl : nhead is_digit ("e" ++ str_nat r')) E') as [El Er].
  apply str_nat_inj in El. cbn in Er. inversion Er as [Er']. apply str_nat_inj in Er'. auto.
Qed.

(* the C++ lookup (string equality on printed keys) is the model's structural lookup *)
Theorem lookup_str_spec : forall k m, lookup_str (str_key k) m = lookup k m.
Proof.
  intros k; induction m as [|[k' c] m IH]; cbn [lookup_str lookup]; [reflexivity|].
  destruct (key_eqb k k') eqn:K.
  - apply key_eqb_eq in K. subst. rewrite String.eqb_refl. reflexivity.
  - destruct (String.eqb (str_key k) (str_key k')) eqn:S; [|exact IH].
    apply String.eqb_eq, str_key_inj in S. subst. rewrite (proj2 (key_eqb_eq k' k') eq_refl) in K. discriminate.
Qed.

Theorem oexpr_find_str_spec : forall l r m, oexpr_find_str (str_ov_key l r) m = oexpr_find m l r.
Proof.
  intros l r; induction m as [|[[l' r'] c] m IH]; cbn [oexpr_find_str oexpr_find]; [reflexivity|].
  destruct (Nat.eqb l l' && Nat.eqb r r') eqn:K.
  - apply andb_true_iff in K as [K1 K2]. apply Nat.eqb_eq in K1, K2. subst. rewrite String.eqb_refl. reflexivity.
  - destruct (String.eqb (str_ov_key l r) (str_ov_key l' r')) eqn:S; [|exact IH].
    apply String.eqb_eq, str_ov_key_inj in S as [-> ->]. rewrite !Nat.eqb_refl in K. discriminate.
Qed.

(* what each construct looks up, as the C++ writes it *)
Corollary conj_lookup_printed : forall s k, lookup_str ("&" ++ str_lits k) (exprs s) = lookup (KConj k) (exprs s).
Proof. intros; apply (lookup_str_spec (KConj k)). Qed.
Corollary disj_lookup_printed : forall s k, lookup_str ("|" ++ str_lits k) (exprs s) = lookup (KDisj k) (exprs s).
Proof. intros; apply (lookup_str_spec (KDisj k)). Qed.
Corollary amo_lookup_printed : forall s k, lookup_str ("amo" ++ str_lits k) (exprs s) = lookup (KAmo k) (exprs s).
Proof. intros; apply (lookup_str_spec (KAmo k)). Qed.
Corollary exct_lookup_printed : forall s k, lookup_str ("^" ++ str_lits k) (exprs s) = lookup (KExct k) (exprs s).
Proof. intros; apply (lookup_str_spec (KExct k)). Qed.
Corollary eq_lookup_printed : forall s a b, lookup_str ("=" ++ str_lit a ++ str_lit b) (exprs s) = lookup (KEq a b) (exprs s).
Proof. intros; apply (lookup_str_spec (KEq a b)). Qed.

(* non-vacuity / the shapes attacked by digit-wise re-splittings *)
Example ex_key_text : str_key (KConj [L 1 true; L 12 false]) = "&b1" ++ neg_sign ++ "b12" /\ str_ov_key 1 112 = "=e1e112" /\
  str_key (KAmo [L 3 true]) = "amob3" /\ str_key (KEq (L 2 false) (L 2 true)) = "=" ++ neg_sign ++ "b2b2" /\ str_key (KVar 10) = "b10".
Proof. vm_compute. repeat split. Qed.

Example ex_resplit_differ : str_key (KConj [L 5 true; L 7 true; L 9 true]) <> str_key (KConj [L 5 true; L 79 true]) /\
  str_key (KDisj [L 1 true; L 23 true]) <> str_key (KDisj [L 12 true; L 3 true]) /\
  str_ov_key 1 112 <> str_ov_key 11 12.
Proof.
  split; [|split].
  - intros E; apply str_key_inj in E; discriminate.
  - intros E; apply str_key_inj in E; discriminate.
  - intros E; apply str_ov_key_inj in E as [E _]; discriminate.
Qed.
