(* Soundness of the executable solution checker (plan/Check.v) w.r.t. the semantics of plan/Sem.v:
   C01 part: check_satisfies prog sol = true -> satisfies prog sol, for all programs and all solutions; the adequacy of
   the evaluation of relations (holds_cmp ..); the reduction of a constraint to the SMT layer (Section Encoding). *)
From Coq Require Import List NArith QArith.
From ORatio Require Import plan.Ast plan.Sem plan.Check.
Import ListNotations.

Lemma Qle_bool_negb_iff : forall a b, negb (Qle_bool a b) = true <-> b < a.
Proof.
  intros a b. rewrite negb_true_iff, <- not_true_iff_false, Qle_bool_iff.
  split; [apply Qnot_le_lt | intros H1 H2; exact (Qlt_not_le _ _ H1 H2)].
Qed.

Lemma qd_eqb_iff : forall x y, qd_eqb x y = true <-> qd_eq x y.
Proof. intros x y. unfold qd_eqb, qd_eq. rewrite andb_true_iff, !Qeq_bool_iff. reflexivity. Qed.

Lemma qd_leb_iff : forall x y, qd_leb x y = true <-> qd_le x y.
Proof.
  intros x y. unfold qd_leb, qd_le.
  rewrite orb_true_iff, andb_true_iff, Qle_bool_negb_iff, Qeq_bool_iff, Qle_bool_iff. reflexivity.
Qed.

Lemma qd_ltb_iff : forall x y, qd_ltb x y = true <-> qd_lt x y.
Proof.
  intros x y. unfold qd_ltb, qd_lt.
  rewrite orb_true_iff, andb_true_iff, !Qle_bool_negb_iff, Qeq_bool_iff. reflexivity.
Qed.

Lemma qd_leb_complete : forall x y, qd_le x y -> qd_leb x y = true.
Proof. intros x y. apply qd_leb_iff. Qed.

Lemma veq_trueb_sound : forall a b, veq_trueb a b = true -> veq_true a b.
Proof.
  intros a b H. unfold veq_trueb in H. unfold veq_true.
  destruct (veq a b) as [[|]|]; try discriminate. reflexivity.
Qed.

(* the two shapes in which Check.v compares values that may be missing; the conclusions are the shapes Sem.v uses *)
Lemma veq_opt_sound : forall a b : option value,
  match a, b with Some u, Some v => veq_trueb u v | _, _ => false end = true ->
  exists u v, a = Some u /\ b = Some v /\ veq_true u v.
Proof.
  intros [u|] [v|] H; try discriminate.
  exists u, v. split; [reflexivity|]. split; [reflexivity | apply veq_trueb_sound; exact H].
Qed.

Lemma veq_some_sound : forall (a : option value) v,
  match a with Some u => veq_trueb u v | None => false end = true -> exists u, a = Some u /\ veq_true u v.
Proof.
  intros [u|] v H; [|discriminate]. exists u. split; [reflexivity | apply veq_trueb_sound; exact H].
Qed.

Lemma mem_In : forall x l, mem x l = true <-> In x l.
Proof.
  intros x l. unfold mem. rewrite existsb_exists. split.
  - intros [y [Hy He]]. apply N.eqb_eq in He. subst. exact Hy.
  - intros H. exists x. split; [exact H | apply N.eqb_refl].
Qed.

Lemma value_is_ref_sound : forall v a, value_is_ref v a = true -> v = Some (VRef a).
Proof.
  intros v a H. destruct v as [[ | | | r | ]|]; simpl in H; try discriminate.
  apply N.eqb_eq in H. subst. reflexivity.
Qed.

(* find_env, find_obj, find_atom, find_class, find_pred are all of this form *)
Lemma find_key : forall {A} (key : A -> ident) k l r, find (fun r => N.eqb (key r) k) l = Some r -> In r l /\ key r = k.
Proof. intros A key k l r H. apply find_some in H as [H1 H2]. apply N.eqb_eq in H2. split; assumption. Qed.

Lemma All_Forall : forall {A} (P : A -> Prop) (l : list A), All P l <-> Forall P l.
Proof.
  intros A P l. induction l as [|x r IH]; simpl; split; intros H.
  - constructor.
  - exact I.
  - destruct H as [H1 H2]. constructor; [exact H1 | apply IH; exact H2].
  - inversion H; subst. split; [assumption | apply IH; assumption].
Qed.

Lemma All_In : forall {A} (P : A -> Prop) (l : list A) x, All P l -> In x l -> P x.
Proof. intros A P l x H. apply (proj1 (Forall_forall P l)). apply All_Forall. exact H. Qed.

Lemma All_forallb : forall {A} (P : A -> Prop) (f : A -> bool) (l : list A),
  (forall x, In x l -> f x = true -> P x) -> forallb f l = true -> All P l.
Proof.
  intros A P f l H Hf. apply All_Forall, Forall_forall. intros x Hx.
  rewrite forallb_forall in Hf. apply H; [exact Hx | apply Hf; exact Hx].
Qed.

Lemma forall2b_Forall2 : forall {A B} (f : A -> B -> bool) (P : A -> B -> Prop) (l : list A) (m : list B),
  (forall a b, f a b = true -> P a b) -> forall2b f l m = true -> Forall2 P l m.
Proof.
  intros A B f P l m H. revert m. induction l as [|a l IH]; intros [|b m] Hf; simpl in Hf; try discriminate.
  - constructor.
  - apply andb_true_iff in Hf as [H1 H2]. constructor; [apply H; exact H1 | apply IH; exact H2].
Qed.

(* the constructor invocations of an object are searched by class *)
Lemma existsb_keyed : forall {B} k (f : ident * B -> bool) (l : list (ident * B)),
  existsb (fun p => N.eqb (fst p) k && f p) l = true -> exists v, In (k, v) l /\ f (k, v) = true.
Proof.
  intros B k f l H. apply existsb_exists in H as [[k' v] [Hin H]]. simpl in H.
  apply andb_true_iff in H as [Hk Hf]. apply N.eqb_eq in Hk. subst k'. exists v. split; assumption.
Qed.

Lemma forallb_map_id : forall {A} (f : A -> bool) l, forallb f l = forallb (fun b => b) (map f l).
Proof. intros A f l. induction l as [|a r IH]; simpl; [reflexivity | rewrite IH; reflexivity]. Qed.
Lemma existsb_map_id : forall {A} (f : A -> bool) l, existsb f l = existsb (fun b => b) (map f l).
Proof. intros A f l. induction l as [|a r IH]; simpl; [reflexivity | rewrite IH; reflexivity]. Qed.

Lemma concat_opt_inv : forall {A B} (f : A -> option (list B)) last ss l x,
  concat_opt f last ss = Some l -> In x l ->
  In x last \/ exists s a, In s ss /\ f s = Some a /\ In x a.
Proof.
  intros A B f last ss. induction ss as [|s r IH]; intros l x H Hin; simpl in H.
  - inversion H; subst. left. exact Hin.
  - destruct (f s) as [a|] eqn:Ea; [|discriminate].
    destruct (concat_opt f last r) as [b|] eqn:Eb; [|discriminate].
    inversion H; subst. apply in_app_or in Hin as [Hin | Hin].
    + right. exists s, a. split; [left; reflexivity | split; assumption].
    + destruct (IH b x eq_refl Hin) as [Hl | [s' [a' [H1 [H2 H3]]]]]; [left; exact Hl|].
      right. exists s', a'. split; [right; exact H1 | split; assumption].
Qed.

Lemma concat_opt_last : forall {A B} (f : A -> option (list B)) last ss l x,
  concat_opt f last ss = Some l -> In x last -> In x l.
Proof.
  intros A B f last ss. induction ss as [|s r IH]; intros l x H Hin; simpl in H.
  - inversion H; subst. exact Hin.
  - destruct (f s) as [a|]; [|discriminate].
    destruct (concat_opt f last r) as [b|] eqn:Eb; [|discriminate].
    inversion H; subst. apply in_or_app. right. eapply IH; [reflexivity | exact Hin].
Qed.

Lemma concat_opt_elem : forall {A B} (f : A -> option (list B)) last ss l s,
  concat_opt f last ss = Some l -> In s ss -> exists a, f s = Some a /\ forall x, In x a -> In x l.
Proof.
  intros A B f last ss. induction ss as [|s' r IH]; intros l s H Hin; [destruct Hin|]. simpl in H.
  destruct (f s') as [a|] eqn:Ea; [|discriminate].
  destruct (concat_opt f last r) as [b|] eqn:Eb; [|discriminate].
  inversion H; subst. destruct Hin as [-> | Hin].
  - exists a. split; [exact Ea|]. intros x Hx. apply in_or_app. left. exact Hx.
  - destruct (IH b s eq_refl Hin) as [a' [H1 H2]]. exists a'. split; [exact H1|].
    intros x Hx. apply in_or_app. right. apply H2. exact Hx.
Qed.

Lemma ancestors_sound : forall prog fuel d l c, ancestors fuel prog d = Some l -> In c l -> Sub prog d c.
Proof.
  intros prog fuel. induction fuel as [|f IH]; intros d l c H Hin; simpl in H; [discriminate|].
  destruct (concat_opt_inv _ _ _ _ _ H Hin) as [Hl | [s [a [H1 [H2 H3]]]]].
  - destruct Hl as [<- | []]. apply Sub_refl.
  - eapply Sub_step; [exact H1 | eapply IH; eassumption].
Qed.

Lemma ancestors_complete : forall prog d c, Sub prog d c -> forall fuel l, ancestors fuel prog d = Some l -> In c l.
Proof.
  intros prog d c HS. induction HS as [c | d s c Hs HS IH]; intros fuel l H; (destruct fuel as [|f]; simpl in H; [discriminate|]).
  - eapply concat_opt_last; [exact H | left; reflexivity].
  - destruct (concat_opt_elem _ _ _ _ _ H Hs) as [a [H1 H2]]. apply H2. eapply IH. exact H1.
Qed.

Lemma subb_sound : forall prog d c, subb prog d c = true -> Sub prog d c.
Proof.
  intros prog d c H. unfold subb in H.
  destruct (ancestors (S (length (p_classes prog))) prog d) as [l|] eqn:El; [|discriminate].
  eapply ancestors_sound; [exact El | apply mem_In; exact H].
Qed.

Lemma enum_values_sound : forall prog fuel c l v, enum_values fuel prog c = Some l -> In v l -> EnumVal prog c v.
Proof.
  intros prog fuel. induction fuel as [|f IH]; intros c l v H Hin; simpl in H; [discriminate|].
  destruct (find_class prog c) as [d|] eqn:Ed; [|inversion H; subst; destruct Hin].
  destruct (cl_kind d) as [|vs incl] eqn:Ek; [inversion H; subst; destruct Hin|].
  destruct (concat_opt_inv _ _ _ _ _ H Hin) as [Hl | [i [a [H1 [H2 H3]]]]].
  - eapply EnumVal_own; eassumption.
  - eapply EnumVal_incl; [exact Ed | exact Ek | exact H1 | eapply IH; eassumption].
Qed.

Lemma enum_values_complete : forall prog c v, EnumVal prog c v -> forall fuel l, enum_values fuel prog c = Some l -> In v l.
Proof.
  intros prog c v HE. induction HE as [c d vs incl v Hd Hk Hv | c d vs incl i v Hd Hk Hi HE IH]; intros fuel l H;
    (destruct fuel as [|f]; simpl in H; [discriminate|]); rewrite Hd, Hk in H.
  - eapply concat_opt_last; [exact H | exact Hv].
  - destruct (concat_opt_elem _ _ _ _ _ H Hi) as [a [H1 H2]]. apply H2. eapply IH. exact H1.
Qed.

Lemma has_typeb_sound : forall prog sol t v, has_typeb prog sol t v = true -> has_type prog sol t v.
Proof.
  intros prog sol t v H. unfold has_typeb in H. unfold has_type.
  destruct t as [ | | | | c]; [destruct v; try discriminate; eexists; reflexivity ..|].
  destruct (is_enum prog c).
  - destruct v as [ | | s | | ]; try discriminate.
    destruct (enum_values (cfuel prog) prog c) as [l|] eqn:El; [|discriminate].
    exists s. split; [reflexivity|]. eapply enum_values_sound; [exact El | apply mem_In; exact H].
  - destruct v as [ | | | o | ]; try discriminate.
    destruct (find_obj sol o) as [r|] eqn:Eo; [|discriminate].
    exists o, r. split; [reflexivity|]. split; [exact Eo | apply subb_sound; exact H].
Qed.

Lemma psubb_sound : forall prog fuel p q, psubb fuel prog p q = true -> PSub prog p q.
Proof.
  intros prog fuel. induction fuel as [|f IH]; intros p q H; simpl in H.
  - rewrite orb_false_r in H. apply N.eqb_eq in H. subst. apply PSub_refl.
  - apply orb_true_iff in H as [H | H].
    + apply N.eqb_eq in H. subst. apply PSub_refl.
    + destruct (find_pred prog p) as [pd|] eqn:Ep; [|discriminate].
      apply existsb_exists in H as [s [Hs Hq]].
      eapply PSub_step; [exact Ep | exact Hs | apply IH; exact Hq].
Qed.

Lemma rule_chain_complete : forall prog p q, PSub prog p q -> forall fuel ch, rule_chain fuel prog p = Some ch -> In q (map pd_name ch).
Proof.
  intros prog p q HS. induction HS as [p | p pd s q Hp Hs HS IH]; intros fuel ch H; (destruct fuel as [|f]; simpl in H; [discriminate|]).
  - destruct (find_pred prog p) as [pd|] eqn:Ep; [|discriminate].
    apply in_map_iff. exists pd. split; [exact (proj2 (find_key pd_name _ _ _ Ep))|].
    eapply concat_opt_last; [exact H | left; reflexivity].
  - rewrite Hp in H. destruct (concat_opt_elem _ _ _ _ _ H Hs) as [a [H1 H2]].
    specialize (IH _ _ H1). apply in_map_iff in IH as [x [Hx1 Hx2]]. apply in_map_iff. exists x. split; [exact Hx1 | apply H2; exact Hx2].
Qed.

Lemma rule_chain_sound : forall prog fuel p ch pd, rule_chain fuel prog p = Some ch -> In pd ch -> PSub prog p (pd_name pd).
Proof.
  intros prog fuel. induction fuel as [|f IH]; intros p ch pd H Hin; simpl in H; [discriminate|].
  destruct (find_pred prog p) as [pd0|] eqn:Ep; [|discriminate].
  destruct (concat_opt_inv _ _ _ _ _ H Hin) as [Hl | [s [a [H1 [H2 H3]]]]].
  - destruct Hl as [<- | []]. rewrite (proj2 (find_key pd_name _ _ _ Ep)). apply PSub_refl.
  - eapply PSub_step; [exact Ep | exact H1 | eapply IH; eassumption].
Qed.

Section StmtInd.
  Variable P : stmt -> Prop.
  Hypothesis HLocal : forall t x init, P (SLocal t x init).
  Hypothesis HNew : forall c x args, P (SNew c x args).
  Hypothesis HExpr : forall e, P (SExpr e).
  Hypothesis HDisj : forall lbl cs, Forall (Forall P) cs -> P (SDisj lbl cs).
  Hypothesis HFormula : forall isfact x scope pred args, P (SFormula isfact x scope pred args).
  Hypothesis HAssign : forall path x fresh e, P (SAssign path x fresh e).

  Fixpoint stmt_ind2 (s : stmt) : P s :=
    match s with
    | SLocal t x init => HLocal t x init
    | SNew c x args => HNew c x args
    | SExpr e => HExpr e
    | SDisj lbl cs =>
      HDisj lbl cs
        ((fix f (cs : list (list stmt)) : Forall (Forall P) cs :=
            match cs with
            | [] => Forall_nil _
            | b :: r =>
              Forall_cons b
                ((fix g (l : list stmt) : Forall P l :=
                    match l with
                    | [] => Forall_nil _
                    | x :: t => Forall_cons x (stmt_ind2 x) (g t)
                    end) b) (f r)
            end) cs)
    | SFormula isfact x scope pred args => HFormula isfact x scope pred args
    | SAssign path x fresh e => HAssign path x fresh e
    end.
End StmtInd.

Lemma scan_sound : forall {A} (f : A -> ident -> bool) cs bs, scan f cs bs = true ->
  exists k body be, nth_error cs k = Some body /\ nth_error bs k = Some (Some be, true) /\ f body be = true.
Proof.
  intros A f cs. induction cs as [|body cs IH]; intros [|[obe ch] bs] H; try discriminate.
  assert (Hrest : scan f cs bs = true -> exists k body' be, nth_error (body :: cs) k = Some body' /\
                    nth_error ((obe, ch) :: bs) k = Some (Some be, true) /\ f body' be = true).
  { intros H'. destruct (IH bs H') as [k [body' [be HH]]]. exists (S k), body', be. exact HH. }
  destruct obe as [be|]; [destruct ch|]; simpl in H; [|exact (Hrest H) ..].
  apply orb_true_iff in H as [H | H]; [|exact (Hrest H)].
  exists O, body, be. repeat split. exact H.
Qed.

Lemma branch_nth_error : forall {A} (P : A -> ident -> Prop) cs k body be,
  nth_error cs k = Some body -> P body be -> branch P cs k be.
Proof.
  intros A P cs. induction cs as [|c cs IH]; intros [|k] body be Hk HP; simpl in Hk; try discriminate; simpl.
  - injection Hk as ->. exact HP.
  - eapply IH; eassumption.
Qed.

Section Sound.
  Variable prog : program.
  Variable sol : solution.

  Lemma args_matchb_sound : forall e xs e' ps, args_matchb sol e xs e' ps = true -> args_match sol e xs e' ps.
  Proof.
    intros e xs e' ps H. unfold args_matchb in H. apply andb_true_iff in H as [H1 H2].
    split; [apply Nat.eqb_eq; exact H1|].
    intros x p Hin. rewrite forallb_forall in H2. apply veq_opt_sound. exact (H2 (x, p) Hin).
  Qed.

  Lemma has_var_recb_sound : forall e x, has_var_recb sol e x = true -> has_var_rec sol e x.
  Proof.
    intros e x H. unfold has_var_recb in H. apply existsb_exists in H as [vr [Hin H]].
    apply andb_true_iff in H as [H1 H2]. apply N.eqb_eq in H1. apply N.eqb_eq in H2. exists vr. repeat split; assumption.
  Qed.

  Lemma is_candidate_complete : forall t before r, Sub prog (o_class r) t -> (o_seq r < before)%N -> is_candidate prog t before r = true.
  Proof.
    intros t before r Hs Hl. unfold is_candidate. apply andb_true_iff. split; [|apply N.ltb_lt; exact Hl].
    destruct (ancestors (cfuel prog) prog (o_class r)) as [l|] eqn:El; [|reflexivity].
    apply mem_In. eapply ancestors_complete; eassumption.
  Qed.

  Lemma two_candidatesb_complete : forall t before, two_candidates prog sol t before -> two_candidatesb prog sol t before = true.
  Proof.
    intros t before [r1 [r2 [H1 [H2 [Hne [S1 [S2 [L1 L2]]]]]]]]. unfold two_candidatesb.
    apply existsb_exists. exists r1. split; [exact H1|]. apply andb_true_iff. split; [apply is_candidate_complete; assumption|].
    apply existsb_exists. exists r2. split; [exact H2|]. apply andb_true_iff. split; [apply is_candidate_complete; assumption|].
    apply negb_true_iff. apply N.eqb_neq. exact Hne.
  Qed.

  Lemma formula_okb_sound : forall e isfact x scope pred args,
    formula_okb prog sol e isfact x scope pred args = true -> formula_ok prog sol e isfact x scope pred args.
  Proof.
    intros e isfact x scope pred args H. unfold formula_okb in H.
    destruct (own sol e x) as [[ | | | a | ]|] eqn:Ex; try discriminate.
    destruct (find_atom sol a) as [ar|] eqn:Ea; [|discriminate].
    destruct (find_pred prog pred) as [pd|] eqn:Ep; [|discriminate].
    apply andb_true_iff in H as [H Hscope]. apply andb_true_iff in H as [H Hparams]. apply andb_true_iff in H as [H Hargs].
    apply andb_true_iff in H as [H Hstate]. apply andb_true_iff in H as [Hpred Hfact].
    unfold formula_ok. exists a, ar, pd. split; [exact Ex|]. split; [exact Ea|].
    split; [apply N.eqb_eq; exact Hpred|]. split; [apply eqb_prop; exact Hfact|].
    split; [intro Hs; rewrite Hs in Hstate; discriminate|]. split; [exact Ep|]. split; [|split].
    - intros f ex Hin. rewrite forallb_forall in Hargs. apply veq_opt_sound. exact (Hargs (f, ex) Hin).
    - destruct (rule_chain (pfuel prog) prog pred) as [ch|] eqn:Ech; [|discriminate].
      exists (pfuel prog), ch. split; [exact Ech|]. intros x0 t Hin Hno Hen Hc.
      rewrite forallb_forall in Hparams. specialize (Hparams (x0, TRef t) Hin). simpl in Hparams.
      rewrite Hno, Hen, (two_candidatesb_complete _ _ Hc) in Hparams. apply has_var_recb_sound. exact Hparams.
    - destruct scope as [|s0 sc]; [destruct (pd_owner pd); [|exact I]|]; apply veq_opt_sound; exact Hscope.
  Qed.

  (* a declared name (local variable, field) has a value of its type, equal to that of its initialiser *)
  Lemma typed_init_sound : forall t v e init,
    has_typeb prog sol t v &&
    match init with Some i => match eval sol e i with Some u => veq_trueb u v | None => false end | None => true end = true ->
    has_type prog sol t v /\ match init with Some i => exists u, eval sol e i = Some u /\ veq_true u v | None => True end.
  Proof.
    intros t v e init H. apply andb_true_iff in H as [Ht Hi]. split; [apply has_typeb_sound; exact Ht|].
    destruct init as [i|]; [apply veq_some_sound; exact Hi | exact I].
  Qed.

  Lemma chk_stmt_sound : forall s e, chk_stmt prog sol s e = true -> sat_stmt prog sol s e.
  Proof.
    intros s. induction s as [t x init | c x args | c | lbl cs IH | isfact x scope pred args | path x fresh c] using stmt_ind2;
      intros e H; simpl in H; simpl.
    - destruct (own sol e x) as [v|]; [|discriminate].
      exists v. split; [reflexivity | apply typed_init_sound; exact H].
    - destruct (own sol e x) as [[ | | | o | ]|]; try discriminate.
      destruct (find_obj sol o) as [r|] eqn:Eo; [|discriminate].
      destruct (find_class prog c) as [d|]; [|discriminate].
      apply andb_true_iff in H as [Hc H].
      destruct (find_ctor d (length args)) as [cd|] eqn:Ecd; [|discriminate].
      apply existsb_keyed in H as [ce [Hin Hm]].
      exists o, r, d, cd, ce. split; [reflexivity|]. split; [exact Eo|]. split; [apply N.eqb_eq; exact Hc|].
      split; [reflexivity|]. split; [exact Ecd|]. split; [exact Hin | apply args_matchb_sound; exact Hm].
    - unfold holds. destruct (eval sol e c) as [[[|] | | | | ]|]; try discriminate. reflexivity.
    - (* SDisj: the disjunct found by scan is a member of cs, so the induction hypothesis applies to its statements *)
      apply existsb_exists in H as [dr [Hdr H]]. apply andb_true_iff in H as [H Hscan]. apply andb_true_iff in H as [He Hl].
      apply scan_sound in Hscan as [k [body [be [Hk [Hbe Hf]]]]]. apply andb_true_iff in Hf as [Hext Hf].
      exists dr, k, be. split; [exact Hdr|]. split; [apply N.eqb_eq; exact He|]. split; [apply N.eqb_eq; exact Hl|].
      split; [exact Hbe|]. split; [exact Hext|]. apply (branch_nth_error _ _ _ _ _ Hk).
      rewrite Forall_forall in IH. specialize (IH body (nth_error_In _ _ Hk)). rewrite Forall_forall in IH.
      eapply All_forallb; [|exact Hf]. intros s' Hs' Hc. apply IH; assumption.
    - apply formula_okb_sound. exact H.
    - destruct (assign_target sol e path) as [t|]; [|discriminate].
      destruct (own sol t x) as [v|] eqn:Ev; [|discriminate].
      exists t, v. split; [reflexivity|]. split; [exact Ev|].
      intros ->. apply veq_some_sound. exact H.
  Qed.

  Lemma chk_list_sound : forall l e, chk_list prog sol l e = true -> sat_list prog sol l e.
  Proof.
    intros l e H. unfold chk_list in H. unfold sat_list.
    eapply All_forallb; [|exact H]. intros s _ Hs. apply chk_stmt_sound. exact Hs.
  Qed.

  Lemma rule_env_okb_sound : forall a pd re, rule_env_okb prog sol a pd re = true -> rule_env_ok prog sol a pd re.
  Proof.
    intros a pd re H. unfold rule_env_okb in H. apply andb_true_iff in H as [H1 H3].
    split; [apply value_is_ref_sound; exact H1 | apply chk_list_sound; exact H3].
  Qed.

  Lemma goal_rules_okb_sound : forall ar, goal_rules_okb prog sol ar = true ->
    exists fuel ch, rule_chain fuel prog (a_pred ar) = Some ch /\
                    Forall2 (fun pd pe => pd_name pd = fst pe /\ rule_env_ok prog sol (a_id ar) pd (snd pe)) ch (a_rules ar).
  Proof.
    intros ar H. unfold goal_rules_okb in H.
    destruct (rule_chain (pfuel prog) prog (a_pred ar)) as [ch|] eqn:Ech; [|discriminate].
    exists (pfuel prog), ch. split; [exact Ech|].
    eapply forall2b_Forall2; [|exact H]. intros pd pe Hf. simpl in Hf. apply andb_true_iff in Hf as [H1 H2].
    split; [apply N.eqb_eq; exact H1 | apply rule_env_okb_sound; exact H2].
  Qed.

  Lemma active_okb_sound : forall ar, active_okb prog sol ar = true -> active_ok prog sol ar.
  Proof.
    intros ar H. unfold active_okb in H. unfold active_ok. destruct (a_fact ar).
    - apply Forall_forall. intros pe Hin. rewrite forallb_forall in H. specialize (H pe Hin).
      destruct (find_pred prog (fst pe)) as [pd|] eqn:Ep; [|discriminate].
      apply andb_true_iff in H as [H1 H2]. exists pd. split; [reflexivity|].
      split; [eapply psubb_sound; exact H1 | apply rule_env_okb_sound; exact H2].
    - apply goal_rules_okb_sound. exact H.
  Qed.

  (* C01: soundness of the checker, for every program and every solution *)
  Theorem check_satisfies_sound : check_satisfies prog sol = true -> satisfies prog sol.
  Proof.
    intros H. unfold check_satisfies in H. apply andb_true_iff in H as [Ht Hr]. split.
    - apply chk_list_sound. exact Ht.
    - intros ar Hin Hact. unfold check_rules in Hr. rewrite forallb_forall in Hr. specialize (Hr ar Hin).
      unfold is_active in Hr. rewrite Hact in Hr. apply active_okb_sound. exact Hr.
  Qed.
End Sound.

(* the semantics means what it says: adequacy of the evaluation of relations (what Temporal_Proofs builds on).
   cmp_sem is the `match op` of Sem.eval on ECmp, by name *)
Definition cmp_sem (op : cmpop) (p q : qd) : bool :=
  match op with CLt => qd_ltb p q | CLe => qd_leb p q | CGe => qd_leb q p | CGt => qd_ltb q p end.

Definition cmp_rel (op : cmpop) (p q : qd) : Prop :=
  match op with CLt => qd_lt p q | CLe => qd_le p q | CGe => qd_le q p | CGt => qd_lt q p end.

Lemma cmp_sem_sound : forall op p q, cmp_sem op p q = true -> cmp_rel op p q.
Proof. intros [ | | | ] p q; simpl; first [apply qd_ltb_iff | apply qd_leb_iff]. Qed.

Lemma holds_cmp : forall sol e op a b, holds sol e (ECmp op a b) ->
  exists p q, eval sol e a = Some (VNum p) /\ eval sol e b = Some (VNum q) /\ cmp_rel op p q.
Proof.
  intros sol e op a b H. unfold holds in H. simpl in H.
  destruct (eval sol e a) as [[ | p | | | ]|]; try discriminate.
  destruct (eval sol e b) as [[ | q | | | ]|]; try discriminate.
  exists p, q. repeat split. apply cmp_sem_sound. injection H as H. exact H.
Qed.

Lemma holds_cmp_num : forall sol e op a b p q, eval sol e a = Some (VNum p) -> eval sol e b = Some (VNum q) ->
  holds sol e (ECmp op a b) -> cmp_rel op p q.
Proof.
  intros sol e op a b p q Ha Hb H. unfold holds in H. simpl in H. rewrite Ha, Hb in H.
  apply cmp_sem_sound. injection H as H. exact H.
Qed.

Lemma holds_eq_num : forall sol e a b p, holds sol e (EEq a b) -> eval sol e a = Some (VNum p) ->
  exists q, eval sol e b = Some (VNum q) /\ qd_eq p q.
Proof.
  intros sol e a b p H Ha. unfold holds in H. simpl in H. rewrite Ha in H.
  destruct (eval sol e b) as [[ | q | | | ]|]; simpl in H; try discriminate.
  exists q. split; [reflexivity|]. apply qd_eqb_iff. injection H as H. exact H.
Qed.

Lemma holds_ne_num : forall sol e a b p q, holds sol e (ENe a b) -> eval sol e a = Some (VNum p) -> eval sol e b = Some (VNum q) -> ~ qd_eq p q.
Proof.
  intros sol e a b p q H Ha Hb Heq. unfold holds in H. simpl in H. rewrite Ha, Hb in H. simpl in H.
  rewrite (proj2 (qd_eqb_iff _ _) Heq) in H. discriminate.
Qed.

(* K1: the guarantee of C01 reduced to the SMT layer.
   core translates a constraint e into a literal (core::negate / conj / disj / exct_one / eq, core::lt ... core::gt) and
   expression_statement::execute -> core::assert_facts posts the clause {!ni, lit(e)} (ni = the rho of the resolver that
   executes the statement, TRUE at top level).  lit_of gives, for the final assignment, the truth value of the literal
   built for each sub-expression.  The hypotheses are exactly what the lower properties provide for a TOTAL assignment:
   connective literals are equivalent to their definition (C13), relation literals mean their relation on the reported
   values (C11/C12), object/boolean equalities likewise (C13/C14). *)
Section Encoding.
  Variable sol : solution.
  Variable env : ident.
  Variable lit_of : expr -> bool.

  Hypothesis H_const : forall b, lit_of (EBool b) = b.
  Hypothesis H_var : forall p b, eval sol env (EId p) = Some (VBool b) -> lit_of (EId p) = b.
  Hypothesis H_not : forall a, lit_of (ENot a) = negb (lit_of a).                                   (* core::negate *)
  Hypothesis H_and : forall es, lit_of (EAnd es) = forallb lit_of es.                               (* sat_core::new_conj *)
  Hypothesis H_or : forall es, lit_of (EOr es) = existsb lit_of es.                                 (* sat_core::new_disj *)
  Hypothesis H_xor : forall es, lit_of (EXor es) = Nat.eqb (count_true (map lit_of es)) 1.          (* sat_core::new_exct_one *)
  Hypothesis H_imp : forall a b, lit_of (EImp a b) = implb (lit_of a) (lit_of b).                   (* disj({!a, b}) *)
  Hypothesis H_cmp : forall op a b p q, eval sol env a = Some (VNum p) -> eval sol env b = Some (VNum q) ->
                                        lit_of (ECmp op a b) = cmp_sem op p q.                      (* lra/rdl new_lt .. new_gt *)
  Hypothesis H_eq : forall a b u v r, eval sol env a = Some u -> eval sol env b = Some v -> veq u v = Some r ->
                                      (forall x y, ~ (u = VBool x /\ v = VBool y)) -> lit_of (EEq a b) = r.   (* lra / ov / string new_eq *)
  Hypothesis H_eq_bool : forall a b x y, eval sol env a = Some (VBool x) -> eval sol env b = Some (VBool y) ->
                                         lit_of (EEq a b) = Bool.eqb (lit_of a) (lit_of b).                  (* sat_core::new_eq *)
  Hypothesis H_ne : forall a b, lit_of (ENe a b) = negb (lit_of (EEq a b)).

  Definition lit_ok (e : expr) : Prop := forall b, eval sol env e = Some (VBool b) -> lit_of e = b.

  Lemma lit_ok_eq : forall x y, lit_ok x -> lit_ok y -> lit_ok (EEq x y).
  Proof.
    intros x y IHx IHy b H. simpl in H.
    destruct (eval sol env x) as [u|] eqn:Ex; [|discriminate].
    destruct (eval sol env y) as [v|] eqn:Ey; [|discriminate].
    destruct (veq u v) as [r|] eqn:Er; [|discriminate]. inversion H; subst r.
    destruct u as [bx | | | | ]; destruct v as [by_ | | | | ];
      try (eapply H_eq; [exact Ex | exact Ey | exact Er | intros ? ? [? ?]; discriminate]).
    rewrite (H_eq_bool x y bx by_ Ex Ey), (IHx bx Ex), (IHy by_ Ey). simpl in Er. inversion Er. reflexivity.
  Qed.

  Lemma bools_lits : forall es l, Forall lit_ok es -> bools_of (eval sol env) es = Some l -> map lit_of es = l.
  Proof.
    intros es l HF. revert l. induction HF as [|a r Ha _ IH]; intros l H; simpl in H.
    - injection H as <-. reflexivity.
    - destruct (eval sol env a) as [[b| | | | ]|] eqn:Ea; try discriminate.
      destruct (bools_of (eval sol env) r) as [l'|]; [|discriminate].
      injection H as <-. simpl. rewrite (Ha b Ea), (IH l' eq_refl). reflexivity.
  Qed.

  Theorem literal_means_expression : forall e b, eval sol env e = Some (VBool b) -> lit_of e = b.
  Proof.
    (* structural recursion on e; IHs is the hypothesis for the operands of an n-ary connective *)
    fix IH 1. intros e. change (lit_ok e).
    pose (IHs := fix IHs (es : list expr) : Forall lit_ok es :=
            match es with [] => Forall_nil _ | a :: r => Forall_cons a (IH a) (IHs r) end).
    destruct e as [c | q | s | p | a | a | es | es | es | es | op x y | x y | x y | es | es | es | x y]; intros b H.
    - injection H as <-. apply H_const.
    - discriminate H.
    - discriminate H.
    - apply H_var. exact H.
    - simpl in H. destruct (eval sol env a) as [[ | | | | ]|]; discriminate.
    - simpl in H. destruct (eval sol env a) as [[c| | | | ]|] eqn:Ea; try discriminate.
      injection H as <-. rewrite H_not, (IH a c Ea). reflexivity.
    - cbn [eval] in H. destruct (nums_of (eval sol env) es); discriminate.
    - cbn [eval] in H. destruct (nums_of (eval sol env) es) as [[|? ?]|]; discriminate.
    - cbn [eval] in H. destruct (nums_of (eval sol env) es); discriminate.
    - cbn [eval] in H. destruct (nums_of (eval sol env) es) as [[|q0 l0]|]; try discriminate.
      destruct (qd_div q0 (fold_left qd_mul l0 qd_one)); discriminate.
    - simpl in H. destruct (eval sol env x) as [[ | p | | | ]|] eqn:Ex; try discriminate.
      destruct (eval sol env y) as [[ | q | | | ]|] eqn:Ey; try discriminate.
      injection H as <-. apply (H_cmp op x y p q Ex Ey).
    - exact (lit_ok_eq x y (IH x) (IH y) b H).
    - simpl in H. destruct (eval sol env x) as [u|] eqn:Ex; [|discriminate].
      destruct (eval sol env y) as [v|] eqn:Ey; [|discriminate].
      destruct (veq u v) as [r|] eqn:Er; [|discriminate]. injection H as <-.
      rewrite H_ne. f_equal. apply (lit_ok_eq x y (IH x) (IH y) r). simpl. rewrite Ex, Ey, Er. reflexivity.
    - cbn [eval] in H. destruct (bools_of (eval sol env) es) as [l|] eqn:El; [|discriminate].
      injection H as <-. rewrite H_and, forallb_map_id, (bools_lits es l (IHs es) El). reflexivity.
    - cbn [eval] in H. destruct (bools_of (eval sol env) es) as [l|] eqn:El; [|discriminate].
      injection H as <-. rewrite H_or, existsb_map_id, (bools_lits es l (IHs es) El). reflexivity.
    - cbn [eval] in H. destruct (bools_of (eval sol env) es) as [l|] eqn:El; [|discriminate].
      injection H as <-. rewrite H_xor, (bools_lits es l (IHs es) El). reflexivity.
    - simpl in H. destruct (eval sol env x) as [[p| | | | ]|] eqn:Ex; try discriminate.
      destruct (eval sol env y) as [[q| | | | ]|] eqn:Ey; try discriminate.
      injection H as <-. rewrite H_imp, (IH x p Ex), (IH y q Ey). reflexivity.
  Qed.

  (* core::assert_facts: the clause {!ni, lit(e)} is satisfied; when the guard is true the constraint holds on the values *)
  Theorem asserted_constraint_holds : forall (ni : bool) e b,
    (negb ni || lit_of e) = true -> ni = true -> eval sol env e = Some (VBool b) -> holds sol env e.
  Proof.
    intros ni e b Hcl Hni He. subst ni. simpl in Hcl. unfold holds. rewrite He.
    rewrite (literal_means_expression e b He) in Hcl. subst b. reflexivity.
  Qed.
End Encoding.
