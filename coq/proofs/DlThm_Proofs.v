(* Final form of the difference-logic theorems, generic in the distance domain (instantiated for IDL and RDL in
   props/Properties_C10.v and props/Properties_C12.v). *)
From Coq Require Import List Arith Bool Lia Qcanon.
From ORatio Require Import smt.DlDom smt.Dl proofs.DlOrd_Proofs proofs.DlGraph_Proofs proofs.DlSpec_Proofs proofs.DlExpl_Proofs
  proofs.DlStep_Proofs proofs.DlLemma_Proofs proofs.DlProp_Proofs proofs.DlCreate_Proofs
  proofs.DlHist_Proofs.
Import ListNotations.
Local Open Scope nat_scope.

Section Thm.
Variable O : ogroup.
Variable D : Type.
Variable dm : dom D.
Variable DS : domspec O D dm.
Notation state := (state D).
Notation good := (good O D dm DS).
Notation edges := (edges O D dm DS).
Notation dval := (dval O D dm DS).
Notation lit_edge := (lit_edge O D dm DS).
Notation dequeue := (dequeue D).

Definition esat (x : nat -> O) (e : edge O) : Prop := x (snd (fst e)) +o -o x (fst (fst e)) <=o snd e.
Definition models (x : nat -> O) (s : state) : Prop := forall e, edges s e -> esat x e.

Lemma walk_sat (E : edge O -> Prop) x i j g : (forall e, E e -> esat x e) -> DlGraph_Proofs.walk E i j g -> x j +o -o x i <=o g.
Proof.
  intros H W. induction W as [i | i k j w g He _ IH].
  - og O.
  - pose proof (H _ He) as S. unfold esat in S. cbn [fst snd] in S. og O.
Qed.

(* a valid clause cannot have all its literals false: the negated literals are jointly unsatisfiable *)
Theorem clause_valid_sem (s : state) cl : clause_valid O D dm DS s cl ->
  forall x, ~ (forall l e, In l cl -> lit_edge s (lnot l) e -> esat x e).
Proof.
  intros (i & g & W & Hg) x H.
  assert (L : x i +o -o x i <=o g).
  { apply (walk_sat (cl_edges O D dm DS s cl) x i i g); [| exact W]. intros e (l & Hl & He). exact (H l e Hl He). }
  og O.
Qed.

(* every model of the asserted constraints respects the distance matrix *)
Lemma models_dist s x i j g : good s -> models x s -> i < n_vars s -> j < n_vars s -> dval s i j = Fin g -> x j +o -o x i <=o g.
Proof.
  intros G M Hi Hj E. apply (walk_sat (edges s) x i j g M).
  apply (ex_sound _ _ _ _ (gd_exact _ _ _ _ _ (gd_n _ _ _ _ _ G)) i j g Hi Hj E).
Qed.

Theorem dl_distances_exact size os :
  0 < size -> wf_run D dm (init D dm size) os ->
  let s := Dl.run D dm (init D dm size) os in
  fault s = 0 -> confl s = false ->
  (forall i j g, i < n_vars s -> j < n_vars s -> dval s i j = Fin g -> DlGraph_Proofs.walk (edges s) i j g) /\
  (forall i j g, DlGraph_Proofs.walk (edges s) i j g -> j < n_vars s -> xle (dval s i j) (Fin g)) /\
  (forall i, i < n_vars s -> dval s i i = Fin g0) /\
  ~ neg_cycle (edges s).
Proof.
  intros Hs W s F C. pose proof (history_good O D dm DS size os Hs W F C) as G. fold s in G.
  pose proof (gd_exact _ _ _ _ _ (gd_n _ _ _ _ _ G)) as X.
  split; [apply (ex_sound _ _ _ _ X) |]. split; [intros i j g Hw Hj; apply (exact_complete O _ _ _ i j g X Hw Hj) |].
  split; [apply (ex_diag _ _ _ _ X) | apply (exact_no_neg_cycle O _ _ _ X)].
Qed.

Theorem dl_conflict_iff_negative_cycle s p q :
  good s -> prop_q s = p :: q ->
  let '(s2, r, evs) := propagate_lit D dm (dequeue s) p in
  fault s2 = 0 ->
  ((exists cl, r = RProp false cl) <-> neg_cycle (edges (dequeue s))).
Proof.
  intros G Hq. pose proof (propagate_lit_spec O D dm DS s p q G Hq) as S.
  destruct (propagate_lit D dm (dequeue s) p) as [[s2 r] evs]. intro F. specialize (S F).
  destruct r as [| | | | | | ok cl |]; cbn [step_ok] in S;
    try (split; [intros [cl E]; discriminate | intro NC; destruct S as (_ & N & _); contradiction]).
  destruct ok.
  - split; [intros [cl' E]; discriminate | intro NC; destruct S as (_ & N & _); contradiction].
  - split; [intros _; apply S | intros _; exists cl; reflexivity].
Qed.

Theorem dl_clauses_valid s p q :
  good s -> prop_q s = p :: q ->
  let '(s2, r, evs) := propagate_lit D dm (dequeue s) p in
  fault s2 = 0 ->
  (forall cl, r = RProp false cl -> clause_valid O D dm DS (dequeue s) cl /\ clause_false D (dequeue s) cl) /\
  (forall k cl, In (Ev k cl) evs -> k = 2 ->
     clause_valid O D dm DS (dequeue s) cl /\
     exists w, ngood O D dm DS w /\ var_dists w = var_dists s /\ lemma_ok O D dm DS w cl).
Proof.
  intros G Hq. pose proof (propagate_lit_spec O D dm DS s p q G Hq) as S.
  destruct (propagate_lit D dm (dequeue s) p) as [[s2 r] evs]. intro F. specialize (S F).
  destruct r as [| | | | | | ok cl |]; cbn [step_ok] in S;
    try (split; [intros cl E; discriminate | intros k cl Hin _; destruct S as (_ & _ & L & _); destruct (L k cl Hin) as (_ & V & w & A & B & C); split; [exact V | exists w; auto]]).
  destruct ok.
  - split; [intros cl' E; discriminate | intros k cl' Hin _; destruct S as (_ & _ & L & _); destruct (L k cl' Hin) as (_ & V & w & A & B & C); split; [exact V | exists w; auto]].
  - destruct S as (_ & CF & CV & _ & Eevs). split.
    + intros cl' [= <-]. split; assumption.
    + intros k cl' Hin Hk. rewrite Eevs in Hin. destruct Hin as [[= <- _] | []]. discriminate.
Qed.

(* C12: what the literal returned by new_distance means *)
Definition csat (x : nat -> O) (f t : nat) (g : O) : Prop := x t +o -o x f <=o g.

Theorem new_distance_meaning s f t d gd s' l :
  good s -> wt DS d gd -> f < n_vars s -> t < n_vars s ->
  new_distance D dm s f t d = (s', RLit l) -> fault s' = 0 ->
  good s' /\
  ((l = FALSE_lit /\ s' = s /\ forall x, models x s -> ~ csat x f t gd) \/
   (l = TRUE_lit /\ s' = s /\ forall x, models x s -> csat x f t gd) \/
   (l = (length (assigns s), true) /\ 0 < length (assigns s) /\
    vd_find (length (assigns s)) (var_dists s') = Some (mkcstr f t d) /\ vd_find (length (assigns s)) (var_dists s) = None /\
    value_var s' (length (assigns s)) = LU /\ (forall e, edges s' e <-> edges s e))).
Proof.
  intros G Hw Hf Ht E F.
  destruct (new_distance_correct O D dm DS s f t d s' (RLit l) G E F) as [G' N]. split; [exact G' |].
  destruct N as [_ N]. pose proof (sh_mok _ _ _ _ _ (gd_shape _ _ _ _ _ (gd_n _ _ _ _ _ G))) as MOK.
  destruct (N Hf Ht) as [(Er & Es & T1) | [(Er & Es & T1 & T2) | (Er & H0 & Hft & Hdw & T1 & T2 & Hc & Hn & HU & Vo & VV & Ea & En & Ed & Ep & Edc & Ely & Eq & Etr & Ece & Ecf)]].
  - left. injection Er as ->. split; [reflexivity |]. split; [exact Es |]. intros x M Cs.
    apply (ds_lt_neg _ _ _ DS _ _ _ (MOK t f) Hw) in T1. fold (dval s t f) in T1.
    destruct (dval s t f) as [g |] eqn:Eg; cbn in T1; [| contradiction].
    pose proof (models_dist s x t f g G M Ht Hf Eg) as L. unfold csat in Cs. og O.
  - right. left. injection Er as ->. split; [reflexivity |]. split; [exact Es |]. intros x M.
    apply (ds_le _ _ _ DS _ _ _ (MOK f t) Hw) in T2. fold (dval s f t) in T2.
    destruct (dval s f t) as [g |] eqn:Eg; cbn in T2; [| contradiction].
    pose proof (models_dist s x f t g G M Hf Ht Eg) as L. unfold csat. og O.
  - right. right. injection Er as ->. repeat split; try assumption.
    + intros (v & (Pb & Pv & Pq) & Le). exists v.
      assert (Hne : v <> length (assigns s)) by (intros ->; congruence).
      split; [split; [destruct Pb as [c Hcv]; exists c; rewrite <- (Vo v Hne); exact Hcv | split; [rewrite <- VV; exact Pv | unfold DlSpec_Proofs.in_q in *; rewrite <- Eq; exact Pq]] |].
      destruct Le as (c & g & H1 & H2 & H3). exists c, g. unfold DlSpec_Proofs.true_lit in *. cbn [fst] in *. rewrite (Vo v Hne) in H1. rewrite VV in H3. auto.
    + intros (v & (Pb & Pv & Pq) & Le). exists v.
      assert (Hne : v <> length (assigns s)) by (intros ->; destruct Pb as [c Hcv]; congruence).
      split; [split; [destruct Pb as [c Hcv]; exists c; rewrite (Vo v Hne); exact Hcv | split; [rewrite VV; exact Pv | unfold DlSpec_Proofs.in_q in *; rewrite Eq; exact Pq]] |].
      destruct Le as (c & g & H1 & H2 & H3). exists c, g. unfold DlSpec_Proofs.true_lit in *. cbn [fst] in *. rewrite (Vo v Hne). rewrite VV. auto.
Qed.

(* whatever it answers, new_distance returns a literal and leaves the asserted edges as they are *)
Lemma new_distance_lit s f t d gd s' r :
  good s -> wt DS d gd -> f < n_vars s -> t < n_vars s -> new_distance D dm s f t d = (s', r) -> fault s' = 0 ->
  exists l, r = RLit l /\ (forall e, edges s' e <-> edges s e) /\ n_vars s' = n_vars s.
Proof.
  intros G Hw Hf Ht E F. destruct (new_distance_correct O D dm DS s f t d s' r G E F) as [_ [_ N]].
  destruct (N Hf Ht) as [(-> & -> & _) | [(-> & -> & _) | (-> & Rest)]]; [exists FALSE_lit | exists TRUE_lit |];
    try (split; [reflexivity | split; [intro; reflexivity | reflexivity]]).
  exists (length (assigns s), true). split; [reflexivity |].
  destruct (new_distance_meaning s f t d gd s' (length (assigns s), true) G Hw Hf Ht E F) as [_ M].
  destruct M as [(Hl & _) | [(Hl & _) | (_ & _ & _ & _ & _ & EE)]];
    try (exfalso; destruct Rest as (P0 & _); unfold FALSE_lit, TRUE_lit in Hl; injection Hl; lia).
  split; [exact EE |]. destruct Rest as (_ & _ & _ & _ & _ & _ & _ & _ & _ & _ & _ & En & _). exact En.
Qed.

(* new_eq: the pre-check answers FALSE only when the distances exclude the equality; otherwise the literal is
   sat_core::new_conj of the literals of the two constraints  to - from <= k  and  from - to <= -k *)
Theorem new_eq_vars_meaning s vp vm k gk s' l ev :
  good s -> dwok dm k = true -> wt DS k gk -> vp < n_vars s -> vm < n_vars s ->
  new_eq_vars D dm s vp vm k = (s', RLit l, ev) -> fault s' = 0 ->
  good s' /\
  ((l = FALSE_lit /\ s' = s /\ forall x, models x s -> ~ (csat x vp vm gk /\ csat x vm vp (-o gk))) \/
   (exists s1 l1 s2 l2,
      new_distance D dm s vp vm k = (s1, RLit l1) /\ new_distance D dm s1 vm vp (dneg dm k) = (s2, RLit l2) /\
      new_conj2 D s2 l1 l2 = (s', l, ev) /\ good s1 /\ good s2 /\ (forall e, edges s1 e <-> edges s e) /\ (forall e, edges s2 e <-> edges s e))).
Proof.
  intros G Hdw Hw Hp Hm E F.
  destruct (new_eq_vars_correct O D dm DS s vp vm k s' (RLit l) ev G E F) as [G' _]. split; [exact G' |].
  pose proof (sh_mok _ _ _ _ _ (gd_shape _ _ _ _ _ (gd_n _ _ _ _ _ G))) as MOK.
  unfold new_eq_vars in E.
  destruct (Nat.ltb_spec vp (n_vars s)) as [_ | ?]; [| lia]. destruct (Nat.ltb_spec vm (n_vars s)) as [_ | ?]; [| lia]. cbn [andb negb] in E.
  destruct (dleb dm (dneg dm (Dl.dget D dm s vm vp)) k) eqn:T1; cbn [andb] in E.
  2:{ injection E as <- <- <-. left. split; [reflexivity |]. split; [reflexivity |]. intros x M [C1 C2].
      apply not_true_iff_false in T1. apply T1. apply (ds_negx_le _ _ _ DS _ _ _ (MOK vm vp) Hw).
      fold (dval s vm vp). destruct (dval s vm vp) as [g |] eqn:Eg; [| exact I]. cbn.
      pose proof (models_dist s x vm vp g G M Hm Hp Eg) as L. unfold csat in C1. og O. }
  destruct (dleb dm k (Dl.dget D dm s vp vm)) eqn:T2.
  2:{ injection E as <- <- <-. left. split; [reflexivity |]. split; [reflexivity |]. intros x M [C1 C2].
      apply not_true_iff_false in T2. apply T2. apply (ds_le_x _ _ _ DS _ _ _ (MOK vp vm) Hw).
      fold (dval s vp vm). destruct (dval s vp vm) as [g |] eqn:Eg; [| exact I]. cbn.
      pose proof (models_dist s x vp vm g G M Hp Hm Eg) as L. unfold csat in C2. og O. }
  right.
  fold (nd_pair D dm s vp vm k vm vp (dneg dm k)) in E.
  destruct (nd_pair_good O D dm DS _ _ _ _ _ _ _ _ _ _ G E F) as (_ & _ & s1 & r1 & s2 & r2 & l3 & E1 & G1 & _ & E2 & G2 & _ & _ & [= <-] & E3 & F1 & F2).
  destruct (new_distance_lit s vp vm k gk s1 r1 G Hw Hp Hm E1 F1) as (l1 & -> & EE1 & En1).
  assert (Hm1 : vm < n_vars s1) by (rewrite En1; exact Hm). assert (Hp1 : vp < n_vars s1) by (rewrite En1; exact Hp).
  destruct (new_distance_lit s1 vm vp (dneg dm k) (-o gk) s2 r2 G1 (ds_wt_neg _ _ _ DS k gk Hdw Hw) Hm1 Hp1 E2 F2) as (l2 & -> & EE2 & _).
  exists s1, l1, s2, l2. cbn [lit_of] in E3.
  split; [exact E1 |]. split; [exact E2 |]. split; [exact E3 |]. split; [exact G1 |]. split; [exact G2 |]. split; [exact EE1 |].
  intro e. rewrite (EE2 e). apply EE1.
Qed.

End Thm.
