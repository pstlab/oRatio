(* C08 (SAT side): assigns / level are functions of the trail; pop after assume (no conflict, no lemma in between)
   restores the observable state exactly; with a theory attached, under the named undo hypotheses of the theory. *)
From Coq Require Import List Arith Bool Lia Permutation.
From ORatio Require Import smt.SatCoreBase smt.SatCoreSpec smt.SatCore proofs.SatCoreBase_Proofs proofs.SatCoreInv_Proofs
  proofs.SatCorePrim_Proofs proofs.SatCoreStep_Proofs proofs.SatCoreAnalyze_Proofs
  proofs.SatCoreRun_Proofs proofs.SatCoreLog_Proofs proofs.SatCoreThm_Proofs proofs.SatCoreTh_Proofs.
Import ListNotations.

Section Undo.
  Context {TS : Type}.
  Variable T : asg -> Prop.
  Variable sort : (lit -> lit -> bool) -> list lit -> list lit.
  Hypothesis Hsort : sort_contract sort.
  Variable th_propagate : TS -> list lbool -> nat -> lit -> TS * list (list lit) * option (list lit).
  Variable th_check : TS -> list lbool -> nat -> TS * list (list lit) * option (list lit).
  Variable th_push th_pop : TS -> TS.
  Variable FUEL : nat.
  Hypothesis Hth : theory_contract T th_propagate th_check.
  Notation state := (@state TS).

  (* assigns and level are determined by the trail (and the level boundaries) alone *)
  Theorem assigns_by_trail : forall (s : state), Inv T s -> forall v, value_var s v = val_of_trail (trail s) v.
  Proof.
    intros s I v. unfold value_var, val_of_trail. destruct v as [|v]; simpl. apply (i_a0 T s (proj1 I)).
    apply (i_assigns T s (proj1 I)). lia.
  Qed.
  Definition level_of_trail (tr : list lit) (lims : list nat) (v : var) : nat :=
    (fix go (tr : list lit) : nat :=
       match tr with
       | [] => 0
       | q :: suf => if Nat.eqb (fst q) v then lvl_at lims (length suf) else go suf
       end) tr.
  Theorem level_by_trail : forall (s : state), Inv T s -> forall v, nth v (level s) 0 = level_of_trail (trail s) (trail_lim s) v.
  Proof.
    intros s [I _] v. pose proof (i_trail T s I) as Ht. pose proof (i_free T s I v) as Hf.
    unfold level_of_trail. revert Ht Hf. generalize (trail s) as tr. induction tr as [|q suf IH]; intros Ht Hf.
    - apply Hf. simpl. auto.
    - destruct Ht as [[H1 _] Ht]. destruct (Nat.eqb_spec (fst q) v) as [<-|Hn]. exact H1.
      apply IH; auto. intros Hnin. apply Hf. simpl. intros [E|E]; auto.
  Qed.

  (* two states with the same trail, boundaries and variable count have the same assigns and level vectors *)
  Lemma assigns_level_eq : forall (s s' : state), Inv T s -> Inv T s' -> trail s' = trail s -> trail_lim s' = trail_lim s ->
    length (assigns s') = length (assigns s) -> assigns s' = assigns s /\ level s' = level s.
  Proof.
    intros s s' I I' Ht Hl Hn. split.
    - apply (list_ext _ _ _ LU); auto. intros i _. pose proof (assigns_by_trail s I i) as H1.
      pose proof (assigns_by_trail s' I' i) as H2. unfold value_var in *. rewrite H1, H2, Ht. reflexivity.
    - apply (list_ext _ _ _ 0). rewrite (i_len_level T s' (proj1 I')), (i_len_level T s (proj1 I)). exact Hn.
      intros i _. rewrite (level_by_trail s I i), (level_by_trail s' I' i), Ht, Hl. reflexivity.
  Qed.

  (* propagation that logs nothing (no conflict, no theory lemma) only extends the trail *)
  Definition ext_step (s s' : state) : Prop :=
    trail_lim s' = trail_lim s /\ decisions s' = decisions s /\ constrs s' = constrs s /\
    length (cls s') = length (cls s) /\ length (assigns s') = length (assigns s) /\
    (exists ext, trail s' = ext ++ trail s) /\
    (forall q, In q (trail s) -> nth (fst q) (reason s') None = nth (fst q) (reason s) None) /\
    (forall c, Permutation (lits_of s' c) (lits_of s c)).
  Lemma ext_step_refl : forall s, ext_step s s.
  Proof. intros. unfold ext_step. repeat split; auto. exists []; auto. Qed.
  Lemma ext_step_trans : forall s1 s2 s3, ext_step s1 s2 -> ext_step s2 s3 -> ext_step s1 s3.
  Proof.
    intros s1 s2 s3 (A1 & A2 & A3 & A4 & A5 & [e1 A6] & A7 & A8) (B1 & B2 & B3 & B4 & B5 & [e2 B6] & B7 & B8).
    unfold ext_step. repeat split; try congruence.
    - exists (e2 ++ e1). rewrite B6, A6. now rewrite app_assoc.
    - intros q Hq. rewrite B7. apply A7; auto. rewrite A6. apply in_or_app; auto.
    - intros c. eapply perm_trans. apply B8. apply A8.
  Qed.

  Lemma enqueue_ext : forall (s : state) p c s' b, Inv0 T s -> enqueue s p c = (s', b) -> ext_step s s'.
  Proof.
    intros s p c s' b I E. destruct (enqueue_frame _ _ _ _ _ E) as (B1 & B2 & _ & _ & B5 & B6 & B7 & B8 & _).
    unfold ext_step, lits_of. rewrite B1, B2, B7, B8. repeat split; auto. intros q Hq. apply (enqueue_level T s I s p c s' b eq_refl eq_refl E q Hq).
  Qed.

  Lemma pstep_ext : forall s s' : state, pstep s s' -> ext_step s s'.
  Proof.
    intros s s' (_ & A2 & A3 & A4 & A5 & A6 & A7 & _ & A9 & A10 & _). unfold ext_step. repeat split; auto. intros q Hq. apply A10, Hq.
  Qed.

  (* the theory states reachable by calls of propagate(p) / check() that record no lemma and report no conflict *)
  Inductive th_reach (ts0 : TS) : TS -> Prop :=
  | tr_refl : th_reach ts0 ts0
  | tr_prop : forall ts a dl p, th_reach ts0 ts ->
      snd (fst (th_propagate ts a dl p)) = [] -> snd (th_propagate ts a dl p) = None ->
      th_reach ts0 (fst (fst (th_propagate ts a dl p)))
  | tr_check : forall ts a dl, th_reach ts0 ts ->
      snd (fst (th_check ts a dl)) = [] -> snd (th_check ts a dl) = None ->
      th_reach ts0 (fst (fst (th_check ts a dl))).
  Lemma th_reach_trans : forall a b c, th_reach a b -> th_reach b c -> th_reach a c.
  Proof. intros a b c H1 H2. induction H2; auto; constructor; auto. Qed.

  Lemma fold_record_log_len : forall l (s0 : state),
    length (log (fold_left (fun s l => record sort s 2 l) l s0)) = length l + length (log s0).
  Proof.
    induction l as [|y u IH]; intros s0; simpl; auto. rewrite IH. rewrite (record_log sort s0 2 y). simpl. lia.
  Qed.
  Lemma apply_theory_quiet : forall (s : state) r s' cf, apply_theory sort s r = (s', cf) -> log s' = log s ->
    s' = set_thst s (fst (fst r)) /\ cf = snd r /\ snd (fst r) = [].
  Proof.
    intros s [[ts lemmas] cf0] s' cf E Hl. unfold apply_theory in E. inversion E; subst. simpl.
    destruct lemmas as [|x t]; auto. exfalso. apply (f_equal (@length _)) in Hl. rewrite fold_record_log_len in Hl.
    simpl in Hl. lia.
  Qed.

  (* propagate() along which the log does not grow: as long as nothing has been logged since s0, the state is an
     extension of s0 and the theory state is reachable by quiet calls *)
  Definition quiet_from (s0 s : state) : Prop :=
    exists ext, log s = ext ++ log s0 /\ (ext = [] -> ext_step s0 s /\ th_reach (thst s0) (thst s)).
  Lemma quiet_logged : forall (s0 s : state) e ext, log s = (e :: ext) ++ log s0 -> quiet_from s0 s.
  Proof. intros s0 s e ext H. exists (e :: ext). split; auto. discriminate. Qed.
  Lemma quiet_frame : forall (s0 s s' : state), log s' = log s -> thst s' = thst s -> ext_step s s' -> quiet_from s0 s -> quiet_from s0 s'.
  Proof.
    intros s0 s s' Hl Ht X [ext [E H]]. exists ext. rewrite Hl, Ht. split; auto. intros Hn. destruct (H Hn). split; auto.
    eapply ext_step_trans; eauto.
  Qed.

  Lemma quiet_jprop : forall s0 : state, jprop T sort th_propagate th_check th_pop (quiet_from s0) (quiet_from s0).
  Proof.
    intros s0. assert (Hfr : forall (s s' : state), trail_lim s' = trail_lim s -> decisions s' = decisions s -> constrs s' = constrs s ->
                 cls s' = cls s -> assigns s' = assigns s -> trail s' = trail s -> reason s' = reason s -> ext_step s s').
    { intros s s' H1 H2 H3 H4 H5 H6 H7. unfold ext_step, lits_of. rewrite H1, H2, H3, H4, H5, H6, H7. repeat split; auto. exists []; auto. }
    constructor.
    - intros s ts I [ext [E H]] _ Ec. exists ext. split; auto. intros Hn. destruct (H Hn) as [X R]. split.
      + eapply ext_step_trans; [exact X|]. apply Hfr; auto.
      + simpl. replace ts with (fst (fst (th_check (thst s) (assigns s) (decision_level s)))) by now rewrite Ec.
        apply tr_check; auto; now rewrite Ec.
    - intros s ts cnfl I [ext [E H]] _ _. apply (quiet_logged s0 _ (3, cnfl) ext). simpl. now rewrite E.
    - intros s p q s2 I Hj Eq Ev. destruct (bcp_spec T s p q s2 None I Eq Ev) as (_ & _ & _ & _ & _ & P2 & _).
      pose proof P2 as (B1 & _ & _ & _ & _ & _ & _ & B8 & _).
      apply (quiet_frame s0 s); auto. eapply ext_step_trans; [apply Hfr; reflexivity|]. apply pstep_ext, P2.
    - intros s p q s2 c rest I Hj Eq Ev. destruct (bcp_spec T s p q s2 _ I Eq Ev) as (_ & _ & _ & _ & _ & P2 & _).
      pose proof P2 as (B1 & _ & _ & _ & _ & _ & _ & B8 & _).
      apply (quiet_frame s0 s); auto. eapply ext_step_trans; [apply Hfr; reflexivity|].
      eapply ext_step_trans; [apply pstep_ext, P2|]. apply Hfr; reflexivity.
    - intros s p s3 I [ext [E H]] Hp Hpl Ea.
      destruct (apply_theory_log sort s (th_propagate (thst s) (assigns s) (decision_level s) p)) as [e1 [A1 _]].
      rewrite Ea in A1. simpl in A1. exists (e1 ++ ext). rewrite A1, E, app_assoc. split; auto. intros Hn.
      apply app_eq_nil in Hn. destruct Hn as [-> ->]. destruct (H eq_refl) as [X R].
      destruct (apply_theory_quiet s _ s3 None Ea A1) as (-> & Q1 & Q2). split.
      + eapply ext_step_trans; [exact X|]. apply Hfr; auto.
      + eapply th_reach_trans; [exact R|]. apply tr_prop; auto. constructor.
    - intros s p s3 cnfl I [ext [E H]] _ _ Ea.
      destruct (apply_theory_log sort s (th_propagate (thst s) (assigns s) (decision_level s) p)) as [e1 [A1 _]].
      rewrite Ea in A1. simpl in A1. apply (quiet_logged s0 _ (3, cnfl) (e1 ++ ext)). simpl. now rewrite A1, E, app_assoc.
    - intros s cl I [ext [E H]] Hc. destruct (abr_inv T sort (proj1 Hsort) th_pop s cl I Hc) as (_ & [lits C1] & _).
      apply (quiet_logged s0 _ (0, lits) ext). now rewrite C1, E.
  Qed.

  Lemma propagate_f_quiet : forall fuel (s s' : state) r, Inv T s ->
    propagate_f sort th_propagate th_check th_pop fuel s = (s', r) -> log s' = log s ->
    ext_step s s' /\ th_reach (thst s) (thst s').
  Proof.
    intros fuel s s' r I E Hl.
    assert (H0 : quiet_from s s). { exists []. split; auto. intros _. split. apply ext_step_refl. constructor. }
    destruct (propagate_rule T sort (proj1 Hsort) th_propagate th_check th_pop (proj1 Hth) (proj2 Hth) _ _ (quiet_jprop s) fuel s s' r I H0 E)
      as (_ & _ & Hj).
    assert (Hq : quiet_from s s') by (destruct r; exact Hj). destruct Hq as [ext [Ee H]]. apply H.
    rewrite Hl in Ee. apply (f_equal (@length _)) in Ee. rewrite app_length in Ee. destruct ext; auto. simpl in Ee. lia.
  Qed.

  Lemma pop_while_reason : forall fuel lim (s : state), Inv0 T s -> prop_q s = [] ->
    forall q, In q (trail (pop_while fuel lim s)) ->
    nth (fst q) (reason (pop_while fuel lim s)) None = nth (fst q) (reason s) None.
  Proof.
    induction fuel as [|f IH]; intros lim s I Hq q Hin; simpl in *; auto.
    destruct (Nat.ltb_spec lim (length (trail s))) as [Hlt|]; auto.
    destruct (trail s) as [|x t] eqn:Et. { simpl in Hlt. lia. }
    assert (I1 : Inv0 T (pop_one s)). { eapply pop_one_inv0; eauto. rewrite Hq. auto. }
    destruct (pop_one_frame s x t Et) as (_ & _ & _ & _ & _ & A6 & A7 & _).
    rewrite (IH lim (pop_one s) I1 ltac:(congruence) q Hin).
    destruct (pop_while_inv0 T f lim (pop_one s) I1 ltac:(congruence)) as (_ & B & _).
    destruct B as (_ & _ & _ & _ & _ & _ & [pre B7] & _). rewrite A7 in B7.
    pose proof (i_nodup T s I) as ND. rewrite Et in ND. simpl in ND. apply NoDup_cons_iff in ND. destruct ND as [Hn _].
    assert (Hqt : In q t). { rewrite B7. apply in_or_app. auto. }
    unfold pop_one. rewrite Et. simpl. rewrite nth_upd_neq; auto. intros Eq. apply Hn. rewrite Eq. now apply in_map.
  Qed.

  (* an observation th_obs of the theory state (bounds / distances / domains) *)
  Variable O : Type.
  Variable th_obs : TS -> O.

  Record restored (s s2 : state) : Prop := {
    r_assigns : assigns s2 = assigns s;
    r_level : level s2 = level s;
    r_reason : reason s2 = reason s;
    r_trail : trail s2 = trail s;
    r_lims : trail_lim s2 = trail_lim s;
    r_decs : decisions s2 = decisions s;
    r_queue : prop_q s2 = prop_q s;
    r_constrs : constrs s2 = constrs s;
    r_lits : forall c, Permutation (lits_of s2 c) (lits_of s c);
    r_log : log s2 = log s;
    r_theory : th_obs (thst s2) = th_obs (thst s)
  }.

  (* trace form: all that is asked of the theory is that a pop gives back the observation of the matching push, whatever
     lemma-free, conflict-free propagate / check calls happened in between - the shape of the undo theorems of the theory
     models (difference logics: do_pop (run (do_push s) os) = s; LRA: the bounds after EPush :: es ++ [EPop]; OV: ov_pop) *)
  Theorem pop_assume_restores_trace : forall (s s' : state) p r, Inv T s -> prop_q s = [] -> fst p < length (assigns s) ->
    assume sort th_propagate th_check th_push th_pop FUEL s p = (s', r) -> r = RTrue -> log s' = log s ->
    (forall ts, th_reach (th_push (thst s)) ts -> th_obs (th_pop ts) = th_obs (thst s)) ->
    restored s (pop th_pop s').
  Proof.
    intros s s' p r I Hq Hr E -> Hl Hundo.
    destruct (assume_inv T sort (proj1 Hsort) th_propagate th_check th_push th_pop FUEL (proj1 Hth) (proj2 Hth)
                s s' p RTrue I Hq Hr E) as (I' & _ & Hn & _ & _ & _ & Hq' & _).
    specialize (Hq' eq_refl).
    rewrite assume_unfold in E.
    pose proof (push_level_inv T s p (th_push (thst s)) I Hq) as I1. set (s1 := push_level s p (th_push (thst s))) in *.
    destruct (enqueue s1 p None) as [s2 ok] eqn:Ee.
    pose proof (enqueue_ext s1 p None s2 ok (proj1 I1) Ee) as X12.
    pose proof (decide_inv T th_push s s2 p ok I Hq Hr Ee) as I2.
    destruct (enqueue_frame _ _ _ _ _ Ee) as (_ & _ & B3 & B4 & _).
    destruct ok; [|inversion E].
    unfold propagate in E. assert (Hl2 : log s' = log s2) by (rewrite Hl, B3; reflexivity).
    destruct (propagate_f_quiet FUEL s2 s' RTrue I2 E Hl2) as [X2 R2].
    pose proof (ext_step_trans _ _ _ X12 X2) as X. destruct X as (A1 & A2 & A3 & A4 & A5 & [ext A6] & A7 & A8).
    simpl in A1, A2, A3, A4, A5, A6, A7.
    destruct (pop_inv T th_pop s' I' Hq') as (I'' & B & E1 & E2 & Hlen).
    specialize (Hlen _ _ A1). destruct B as (C1 & C2 & C3 & C4 & C5 & C6 & [pre C7] & _).
    assert (Htr : trail (pop th_pop s') = trail s). { rewrite A6 in C7. symmetry in C7. eapply app_suffix_len; eauto. }
    assert (Hlims : trail_lim (pop th_pop s') = trail_lim s) by (rewrite E1, A1; reflexivity).
    destruct (assigns_level_eq s (pop th_pop s') I I'' Htr Hlims ltac:(congruence)) as [Ha Hlv].
    constructor; auto.
    - (* reason *)
      apply (list_ext _ _ _ None). rewrite (i_len_reason T _ (proj1 I'')), (i_len_reason T s (proj1 I)). congruence.
      intros i _. destruct (in_dec Nat.eq_dec i (map fst (trail s))) as [Hin|Hout].
      + apply in_map_iff in Hin. destruct Hin as [q [<- Hqin]].
        assert (Hrw : nth (fst q) (reason (pop th_pop s')) None = nth (fst q) (reason s') None).
        { unfold pop. rewrite A1. simpl.
          apply (pop_while_reason (length (trail s')) (length (trail s)) s' (proj1 I') Hq' q).
          unfold pop in Htr. rewrite A1 in Htr. simpl in Htr. rewrite Htr. exact Hqin. }
        rewrite Hrw. apply A7. exact Hqin.
      + destruct (i_free T s (proj1 I) i Hout) as [_ H1].
        destruct (i_free T _ (proj1 I'') i) as [_ H2]. rewrite Htr. exact Hout. congruence.
    - rewrite E2, A2. reflexivity.
    - congruence.
    - congruence.
    - intros c. unfold lits_of at 1. rewrite C2. apply A8.
    - congruence.
    - (* theory *)
      unfold pop. rewrite A1. simpl.
      destruct (pop_while_inv0 T (length (trail s')) (length (trail s)) s' (proj1 I') Hq') as (_ & _ & _ & _ & D3 & _).
      rewrite D3. apply Hundo. rewrite B4 in R2. exact R2.
  Qed.

  (* pointwise form: three laws on single calls imply the trace law *)
  Section Pointwise.
    Hypothesis th_pop_push : forall ts, th_obs (th_pop (th_push ts)) = th_obs ts.
    Hypothesis th_pop_propagate : forall ts a dl p, th_obs (th_pop (fst (fst (th_propagate ts a dl p)))) = th_obs (th_pop ts).
    Hypothesis th_pop_check : forall ts a dl, th_obs (th_pop (fst (fst (th_check ts a dl)))) = th_obs (th_pop ts).

    Lemma th_reach_obs : forall ts0 ts, th_reach ts0 ts -> th_obs (th_pop ts) = th_obs (th_pop ts0).
    Proof. intros ts0 ts H. induction H; auto. now rewrite th_pop_propagate. now rewrite th_pop_check. Qed.

    Theorem pop_assume_restores : forall (s s' : state) p r, Inv T s -> prop_q s = [] -> fst p < length (assigns s) ->
      assume sort th_propagate th_check th_push th_pop FUEL s p = (s', r) -> r = RTrue -> log s' = log s ->
      restored s (pop th_pop s').
    Proof.
      intros s s' p r I Hq Hr E Hrt Hl. apply (pop_assume_restores_trace s s' p r I Hq Hr E Hrt Hl).
      intros ts R. rewrite (th_reach_obs _ _ R). apply th_pop_push.
    Qed.
  End Pointwise.
End Undo.

Section UndoClosed.
  Context {TS : Type}.
  Variables (T : asg -> Prop) (sort : (lit -> lit -> bool) -> list lit -> list lit).
  Variables (thp : TS -> list lbool -> nat -> lit -> TS * list (list lit) * option (list lit))
            (thc : TS -> list lbool -> nat -> TS * list (list lit) * option (list lit)) (thpush thpop : TS -> TS) (FUEL : nat).
  Hypothesis Hsort : sort_contract sort.
  Hypothesis Hth : theory_contract T thp thc.
  Notation run := (run sort thp thc thpush thpop FUEL).
  Notation run_ok := (run_ok sort thp thc thpush thpop FUEL).

  Lemma reach : forall ops ts, run_ok ops (init ts) = true -> ub (run ops (init ts)) = false -> Inv T (run ops (init ts)).
  Proof. exact (reach_inv T sort thp thc thpush thpop FUEL Hsort Hth). Qed.

  Theorem c08_assigns_by_trail : forall ops ts, run_ok ops (init ts) = true -> ub (run ops (init ts)) = false ->
    forall v, value_var (run ops (init ts)) v = val_of_trail (trail (run ops (init ts))) v.
  Proof. intros. apply (assigns_by_trail T). now apply reach. Qed.
  Theorem c08_level_by_trail : forall ops ts, run_ok ops (init ts) = true -> ub (run ops (init ts)) = false ->
    forall v, nth v (level (run ops (init ts))) 0 =
              level_of_trail (trail (run ops (init ts))) (trail_lim (run ops (init ts))) v.
  Proof. intros. apply (level_by_trail T). now apply reach. Qed.

  Theorem c08_pop_assume_trace : forall (O : Type) (th_obs : TS -> O) (th_inv : TS -> Prop),
    (forall ts0 ts, th_inv ts0 -> th_reach thp thc (thpush ts0) ts -> th_obs (thpop ts) = th_obs ts0) ->
    forall ops ts, run_ok ops (init ts) = true -> ub (run ops (init ts)) = false ->
    th_inv (thst (run ops (init ts))) ->
    forall p s', pre (run ops (init ts)) (OAssume p) = true ->
    assume sort thp thc thpush thpop FUEL (run ops (init ts)) p = (s', RTrue) ->
    log s' = log (run ops (init ts)) ->
    restored O th_obs (run ops (init ts)) (pop thpop s').
  Proof.
    intros O th_obs th_inv Hundo ops ts Hok Hub Hinv p s' Hpre E Hl. simpl in Hpre.
    apply andb_true_iff in Hpre. destruct Hpre as [Hpre _]. apply andb_true_iff in Hpre. destruct Hpre as [Hq Hr].
    eapply (pop_assume_restores_trace T sort Hsort thp thc thpush thpop FUEL Hth O th_obs); eauto.
    now apply reach. now apply qempty_true. now apply Nat.ltb_lt.
  Qed.

  (* the same with the invariant of the theory carried along the history: it only has to hold initially and to be preserved
     by the four theory functions *)
  Theorem c08_pop_assume_inv : forall (O : Type) (th_obs : TS -> O) (th_inv : TS -> Prop),
    (forall ts a dl p, th_inv ts -> th_inv (fst (fst (thp ts a dl p)))) ->
    (forall ts a dl, th_inv ts -> th_inv (fst (fst (thc ts a dl)))) ->
    (forall ts, th_inv ts -> th_inv (thpush ts)) -> (forall ts, th_inv ts -> th_inv (thpop ts)) ->
    (forall ts0 ts, th_inv ts0 -> th_reach thp thc (thpush ts0) ts -> th_obs (thpop ts) = th_obs ts0) ->
    forall ops ts, th_inv ts -> run_ok ops (init ts) = true -> ub (run ops (init ts)) = false ->
    forall p s', pre (run ops (init ts)) (OAssume p) = true ->
    assume sort thp thc thpush thpop FUEL (run ops (init ts)) p = (s', RTrue) ->
    log s' = log (run ops (init ts)) ->
    restored O th_obs (run ops (init ts)) (pop thpop s').
  Proof.
    intros O th_obs th_inv H1 H2 H3 H4 Hundo ops ts H0 Hok Hub.
    apply (c08_pop_assume_trace O th_obs th_inv Hundo ops ts Hok Hub).
    apply (run_th_inv sort thp thc thpush thpop FUEL th_inv H1 H2 H3 H4 ops ts H0).
  Qed.

  Theorem c08_pop_assume : forall (O : Type) (th_obs : TS -> O),
    (forall ts, th_obs (thpop (thpush ts)) = th_obs ts) ->
    (forall ts a dl p, th_obs (thpop (fst (fst (thp ts a dl p)))) = th_obs (thpop ts)) ->
    (forall ts a dl, th_obs (thpop (fst (fst (thc ts a dl)))) = th_obs (thpop ts)) ->
    forall ops ts, run_ok ops (init ts) = true -> ub (run ops (init ts)) = false ->
    forall p s', pre (run ops (init ts)) (OAssume p) = true ->
    assume sort thp thc thpush thpop FUEL (run ops (init ts)) p = (s', RTrue) ->
    log s' = log (run ops (init ts)) ->
    restored O th_obs (run ops (init ts)) (pop thpop s').
  Proof.
    intros O th_obs H1 H2 H3 ops ts Hok Hub p s' Hpre E Hl. simpl in Hpre.
    apply andb_true_iff in Hpre. destruct Hpre as [Hpre _]. apply andb_true_iff in Hpre. destruct Hpre as [Hq Hr].
    eapply (pop_assume_restores T sort Hsort thp thc thpush thpop FUEL Hth O th_obs H1 H2 H3); eauto.
    now apply reach. now apply qempty_true. now apply Nat.ltb_lt.
  Qed.
End UndoClosed.

Lemma c08_pop_assume_prop :
  forall FUEL ops, run_ok (@isort lit) nt_propagate nt_check nt_id nt_id FUEL ops p_init = true ->
  ub (run (@isort lit) nt_propagate nt_check nt_id nt_id FUEL ops p_init) = false ->
  forall p s', pre (run (@isort lit) nt_propagate nt_check nt_id nt_id FUEL ops p_init) (OAssume p) = true ->
  assume (@isort lit) nt_propagate nt_check nt_id nt_id FUEL (run (@isort lit) nt_propagate nt_check nt_id nt_id FUEL ops p_init) p = (s', RTrue) ->
  log s' = log (run (@isort lit) nt_propagate nt_check nt_id nt_id FUEL ops p_init) ->
  restored unit (fun ts => ts) (run (@isort lit) nt_propagate nt_check nt_id nt_id FUEL ops p_init) (pop nt_id s').
Proof.
  intros FUEL ops Hok Hub p s' Hpre E Hl. unfold p_init in *.
  eapply (@c08_pop_assume unit no_theory (@isort lit) nt_propagate nt_check nt_id nt_id FUEL isort_contract no_theory_contract
            unit (fun ts => ts)); eauto.
  - intros [] a dl q. reflexivity.
  - intros [] a dl. reflexivity.
Qed.
