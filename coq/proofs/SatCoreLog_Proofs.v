(* How the operations extend the hook log (no invariant needed): outside next() only entries of kind 0 (learnt clause),
   2 (theory lemma), 3 (theory conflict) and 4 (added clause) appear (run_no_next); next() adds one entry of kind 1, namely
   the negated standing decisions, most recent first (next_log). *)
From Coq Require Import List Arith Bool.
From ORatio Require Import smt.SatCoreBase smt.SatCoreSpec smt.SatCore proofs.SatCoreBase_Proofs proofs.SatCoreUb_Proofs.
Import ListNotations.

Definition kinds_in (ks : list nat) (ext : hooklog) : Prop := Forall (fun e => In (fst e) ks) ext.
Lemma kinds_in_app : forall ks a b, kinds_in ks a -> kinds_in ks b -> kinds_in ks (a ++ b).
Proof. intros. unfold kinds_in in *. apply Forall_app. auto. Qed.
Lemma log_clauses_app : forall ks a b, log_clauses ks (a ++ b) = log_clauses ks a ++ log_clauses ks b.
Proof. intros. unfold log_clauses. now rewrite filter_app, map_app. Qed.
Lemma log_clauses_other : forall ks ks' ext, kinds_in ks' ext -> (forall k, In k ks -> ~ In k ks') -> log_clauses ks ext = [].
Proof.
  intros ks ks' ext H Hd. unfold log_clauses. induction H as [|e t He Ht IH]; simpl; auto.
  destruct (kind_in ks e) eqn:E; auto. exfalso. unfold kind_in in E. apply existsb_exists in E.
  destruct E as [k [Hk Ek]]. apply Nat.eqb_eq in Ek. subst k. apply (Hd (fst e)); auto.
Qed.
Lemma axioms_ext : forall ext l, kinds_in [0; 2; 3] ext -> axioms (ext ++ l) = axioms l.
Proof.
  intros. unfold axioms. rewrite log_clauses_app. rewrite (log_clauses_other [4; 1] [0; 2; 3] ext); auto.
  intros k [<-|[<-|[]]] [E|[E|[E|[]]]]; discriminate.
Qed.
Lemma nogoods_ext : forall ext l, kinds_in [0; 2; 3; 4] ext -> nogoods (ext ++ l) = nogoods l.
Proof.
  intros. unfold nogoods. rewrite log_clauses_app. rewrite (log_clauses_other [1] [0; 2; 3; 4] ext); auto.
  intros k [<-|[]] [E|[E|[E|[E|[]]]]]; discriminate.
Qed.
Lemma axioms_added : forall l, nogoods l = [] -> axioms l = added l.
Proof.
  intros l H. unfold axioms, added, nogoods, log_clauses in *. f_equal.
  induction l as [|[k c] t IH]; simpl in *; auto.
  unfold kind_in in *. simpl in *. destruct (Nat.eqb_spec k 4) as [->|]; simpl.
  - f_equal. apply IH. exact H.
  - destruct (Nat.eqb_spec k 1) as [->|]; simpl in *. discriminate. apply IH. exact H.
Qed.

Section Log.
  Context {TS : Type}.
  Variable sort : (lit -> lit -> bool) -> list lit -> list lit.
  Variable th_propagate : TS -> list lbool -> nat -> lit -> TS * list (list lit) * option (list lit).
  Variable th_check : TS -> list lbool -> nat -> TS * list (list lit) * option (list lit).
  Variable th_push th_pop : TS -> TS.
  Variable FUEL : nat.
  Notation state := (@state TS).

  (* the log only grows, by entries of the kinds [ks] *)
  Definition logext (ks : list nat) (s s' : state) : Prop := exists ext, log s' = ext ++ log s /\ kinds_in ks ext.
  Lemma logext_closed : forall ks, closed th_propagate th_check th_push th_pop (fun k => In k ks) (logext ks).
  Proof.
    intros ks. assert (Hsame : forall s s' : state, log s' = log s -> logext ks s s').
    { intros s s' H. exists []. split; auto. constructor. }
    constructor; auto.
    - intros s1 s2 s3 [e1 [A1 A2]] [e2 [B1 B2]]. exists (e2 ++ e1). rewrite B1, A1, app_assoc. split; auto. apply kinds_in_app; auto.
    - intros s k l Hk. exists [(k, l)]. split; auto. repeat constructor. exact Hk.
  Qed.
  Lemma logext_nil : forall s s' : state, logext [] s s' -> log s' = log s.
  Proof. intros s s' [ext [H K]]. destruct K as [|e t He]; auto. destruct He. Qed.

  Lemma record_log : forall (s : state) k ls, log (record sort s k ls) = (k, ls) :: log s.
  Proof.
    intros. unfold record. set (sh := hook s k ls). destruct ls as [|l0 [|l1 t]].
    - reflexivity.
    - unfold enqueue. destruct (value_lit sh l0); reflexivity.
    - destruct (clause_new sh (l0 :: sort (level_gt sh) (l1 :: t))) as [s1 id] eqn:E1.
      assert (H1 : log s1 = log sh). { unfold clause_new in E1. destruct (sort (level_gt sh) (l1 :: t)); inversion E1; reflexivity. }
      unfold enqueue. destruct (value_lit s1 l0); simpl; rewrite H1; reflexivity.
  Qed.
  Lemma apply_theory_log : forall (s : state) r, logext [0; 2; 3] s (fst (apply_theory sort s r)).
  Proof.
    intros s [[ts lemmas] cf]. unfold apply_theory. cbn [fst].
    assert (H : forall l (s0 : state), logext [0; 2; 3] s0 (fold_left (fun s l => record sort s 2 l) l s0)).
    { induction l as [|x t IH]; intros s0; simpl. exists []; split; auto; constructor.
      destruct (IH (record sort s0 2 x)) as [ext [C D]]. exists (ext ++ [(2, x)]). rewrite C, record_log, <- app_assoc. split; auto.
      apply kinds_in_app; auto. constructor; [simpl; auto|constructor]. }
    exact (H lemmas (set_thst s ts)).
  Qed.

  (* next(): exactly one no-good, the negation of the standing decisions (most recent first) *)
  Lemma next_log : forall (s : state), root_level s = false -> exists ext,
    log (fst (next sort th_propagate th_check th_pop FUEL s)) = ext ++ (1, map lneg (decisions s)) :: log s /\
    kinds_in [0; 2; 3] ext.
  Proof.
    intros s Hr. unfold next. rewrite Hr.
    destruct (propagate_f_R sort th_propagate th_check th_push th_pop _ _ (logext_closed [0; 2; 3])) with (fuel := FUEL)
      (s := record sort (pop th_pop s) 1 (map lneg (decisions s))) as [ext [C D]]; simpl; auto.
    exists ext. unfold propagate. rewrite C, record_log.
    rewrite (logext_nil _ _ (pop_R th_propagate th_check th_push th_pop _ _ (logext_closed []) s)). auto.
  Qed.

  (* histories that never call next() record no no-good: there the axioms are just the added clauses *)
  Lemma run_no_next : forall ops (s : state), ~ In ONext ops ->
    nogoods (log (run sort th_propagate th_check th_push th_pop FUEL ops s)) = nogoods (log s).
  Proof.
    intros ops s Hn.
    destruct (run_R sort th_propagate th_check th_push th_pop FUEL _ _ (logext_closed [0; 2; 3; 4])) with (ops := ops) (s := s)
      as [ext [A B]]; simpl; auto. contradiction.
    rewrite A. apply nogoods_ext. exact B.
  Qed.
End Log.
