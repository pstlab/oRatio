(* The model never raises [ub] in a history that respects the preconditions and does not call simplify_db:
   every use of back() / pop_back() / lits[0] / lits[1] / erase() below sat_core's search operations is defined.
   Outside simplify_db the flag is not even touched (the last component of PF, the corresponding clauses of step_rule);
   simplify_db / clause::remove rely on the two-watched-literal discipline, see SatCoreWlThm_Proofs. *)
From Coq Require Import List Arith Bool.
From ORatio Require Import smt.SatCoreBase smt.SatCore proofs.SatCoreInv_Proofs proofs.SatCoreRun_Proofs proofs.SatCoreThm_Proofs.
Import ListNotations.

Section NoUbClosed.
  Context {TS : Type}.
  Variables (T : asg -> Prop) (sort : (lit -> lit -> bool) -> list lit -> list lit).
  Variables (thp : TS -> list lbool -> nat -> lit -> TS * list (list lit) * option (list lit))
            (thc : TS -> list lbool -> nat -> TS * list (list lit) * option (list lit)) (thpush thpop : TS -> TS) (FUEL : nat).
  Hypothesis Hsort : sort_contract sort.
  Hypothesis Hth : theory_contract T thp thc.
  Theorem c07_no_ub_without_simplify : forall ops ts, ~ In OSimplify ops ->
    run_ok sort thp thc thpush thpop FUEL ops (init ts) = true -> ub (run sort thp thc thpush thpop FUEL ops (init ts)) = false.
  Proof.
    intros ops ts Hns Hok.
    apply (run_rule_no_ub T sort (proj1 Hsort) (proj2 Hsort) thp thc thpush thpop FUEL (proj1 Hth) (proj2 Hth) _ _
             (joint_true T sort thp thc thpop) ops (init ts) (init_inv T ts) Logic.I eq_refl Hok).
    intros H. contradiction.
  Qed.
End NoUbClosed.
