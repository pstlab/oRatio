(* Preservation of the sat_core invariant by the primitive state changes: enqueue, pop_one, new_var, clause
   allocation, literal permutations inside a clause, watch-list edits, hook, level push / pop. *)
From Coq Require Import List Arith Bool Lia Sorted.
From ORatio Require Import smt.SatCoreBase smt.SatCoreSpec smt.SatCore proofs.SatCoreBase_Proofs proofs.SatCoreInv_Proofs.
Import ListNotations.

Lemma lit_of_index_index : forall p, lit_of_index (index p) = p.
Proof.
  intros [v b]. unfold lit_of_index, index. simpl fst. simpl snd. destruct b.
  - replace (2 * v + 1) with (S (2 * v)) by lia. rewrite Nat.div2_succ_double, Nat.odd_succ, Nat.even_mul. reflexivity.
  - rewrite Nat.add_0_r, Nat.div2_double, Nat.odd_mul. reflexivity.
Qed.

Lemma decs_at_full : forall lims decs pos, length decs = length lims -> Forall (fun lim => lim <= pos) lims ->
  decs_at lims decs pos = decs.
Proof.
  induction lims as [|l t IH]; intros [|d ds] pos Hl Hf; simpl in *; try discriminate; auto.
  inversion Hf; subst. destruct (Nat.leb_spec l pos); try lia. simpl. f_equal. apply IH; auto.
Qed.

Section Prim.
  Context {TS : Type}.
  Variable T : asg -> Prop.
  Notation state := (@state TS).

  (* a frame rule for the structural trail predicate *)
  Lemma elem_st_frame : forall (s s' : state) tr,
    trail_lim s' = trail_lim s ->
    (forall q, In q tr -> nth (fst q) (level s') 0 = nth (fst q) (level s) 0 /\
                          nth (fst q) (reason s') None = nth (fst q) (reason s) None) ->
    (forall q c, In q tr -> nth (fst q) (reason s) None = Some c -> lits_of s' c = lits_of s c) ->
    trail_ok (elem_st s) tr -> trail_ok (elem_st s') tr.
  Proof.
    intros s s' tr Hl Hv Hc Hok. eapply trail_ok_impl; [|exact Hok].
    intros pre q suf E [H1 [H2 H3]].
    assert (Hin : In q tr) by (rewrite E; apply in_or_app; right; simpl; auto).
    destruct (Hv q Hin) as [Hv1 Hv2]. unfold elem_st. rewrite Hl, Hv1, Hv2. repeat split; auto.
    intros c Hr. rewrite (Hc q c Hin Hr). auto.
  Qed.
  Lemma elem_sem_frame : forall (s s' : state) tr,
    trail_lim s' = trail_lim s -> decisions s' = decisions s -> incl (axioms (log s)) (axioms (log s')) ->
    trail_ok (elem_sem T s) tr -> trail_ok (elem_sem T s') tr.
  Proof.
    intros s s' tr Hl Hd Ha Hok. eapply trail_ok_impl; [|exact Hok].
    intros pre q suf E H. unfold elem_sem in *. rewrite Hl, Hd. eapply entails_mono; [|exact H].
    apply incl_app. apply incl_appl; auto. apply incl_appr, incl_refl.
  Qed.

  Definition reason_ok (s : state) (p : lit) (c : option nat) : Prop :=
    match c with
    | Some id => exists rest, lits_of s id = p :: rest /\ forall r, In r rest -> false_in (trail s) r
    | None => trail_lim s = [] \/ In (length (trail s)) (trail_lim s)
    end.

  Lemma enqueue_inv : forall (s : state) p c s' b, Inv T s -> enqueue s p c = (s', b) ->
    fst p < length (assigns s) -> reason_ok s p c ->
    entails T (axioms (log s) ++ units (decisions s)) [p] ->
    Inv T s'.
  Proof.
    intros s p c s' b [I L] E Hr Hc Hs. unfold enqueue in E.
    destruct (value_lit s p) eqn:V; inversion E; subst; clear E; try (split; assumption).
    destruct (value_lit_undef T s p I V) as [Hp0 Hnin].
    assert (Hlr : fst p < length (reason s)) by (rewrite (i_len_reason T s I); auto).
    assert (Hll : fst p < length (level s)) by (rewrite (i_len_level T s I); auto).
    split; [constructor|]; simpl.
    - rewrite !upd_length. apply I.
    - rewrite !upd_length. apply I.
    - rewrite nth_upd_neq by auto. apply I.
    - constructor; auto. apply I.
    - intros q [<-|Hq]; rewrite upd_length. lia. apply I; auto.
    - intros v Hv. rewrite tr_val_cons. destruct (Nat.eqb_spec (fst p) v) as [<-|Hn].
      + apply nth_upd_eq; auto.
      + rewrite nth_upd_neq by auto. apply I; auto.
    - intros v Hv. assert (v <> fst p) by (intros ->; apply Hv; auto).
      rewrite !nth_upd_neq by auto. apply I. intros Hin. apply Hv. auto.
    - apply I.
    - apply I.
    - split.
      + unfold elem_st. simpl. rewrite !nth_upd_eq by auto. split; [|split].
        * unfold decision_level. symmetry. apply lvl_at_full. exact L.
        * intros c0 Hc0. subst c. simpl in Hc. unfold lits_of in *. simpl. exact Hc.
        * intros Hc0 Hlv. subst c. simpl in Hc. destruct Hc as [Hc|Hc]; auto.
          rewrite Hc in Hlv. unfold lvl_at in Hlv. simpl in Hlv. lia.
      + eapply elem_st_frame; [| | |apply (i_trail T s I)]; simpl; auto.
        intros q Hq. assert (fst q <> fst p).
        { intros Eq. apply Hnin. rewrite <- Eq. now apply in_map. }
        rewrite !nth_upd_neq by auto. auto.
    - intros c0 l. rewrite upd_length. apply (i_cls_range T s I).
    - apply (i_cls_taut T s I).
    - apply (i_watch T s I).
    - intros q Hq. apply in_app_or in Hq. destruct Hq as [Hq|[<-|[]]]; auto. right. apply I; auto.
    - intros q Hq. apply in_app_or in Hq. destruct Hq as [Hq|[<-|[]]].
      + assert (fst q <> fst p). { intros Eq. apply Hnin. rewrite <- Eq. apply in_map. apply I; auto. }
        rewrite nth_upd_neq by auto. apply (i_queue_lvl T s I); auto.
      + rewrite nth_upd_eq by auto. reflexivity.
    - apply (i_cls_sound T s I).
    - split.
      + unfold elem_sem. simpl. rewrite decs_at_full; auto. apply I.
      + eapply elem_sem_frame; [| | |apply (i_trail_sem T s I)]; simpl; auto. apply incl_refl.
    - apply I.
    - unfold LimOK in *. simpl. eapply Forall_impl; [|exact L]. simpl. intros; lia.
  Qed.

  (* what enqueue does to the observable fields *)
  Lemma enqueue_log : forall (s : state) p c, log (fst (enqueue s p c)) = log s.
  Proof. intros. unfold enqueue. destruct (value_lit s p); auto. Qed.
  Lemma enqueue_cls : forall (s : state) p c, cls (fst (enqueue s p c)) = cls s.
  Proof. intros. unfold enqueue. destruct (value_lit s p); auto. Qed.
  Lemma enqueue_lims : forall (s : state) p c, trail_lim (fst (enqueue s p c)) = trail_lim s /\ decisions (fst (enqueue s p c)) = decisions s.
  Proof. intros. unfold enqueue. destruct (value_lit s p); auto. Qed.
  Lemma enqueue_nvars : forall (s : state) p c, length (assigns (fst (enqueue s p c))) = length (assigns s).
  Proof. intros. unfold enqueue. destruct (value_lit s p); auto. simpl. apply upd_length. Qed.
  Lemma enqueue_watches : forall (s : state) p c, watches (fst (enqueue s p c)) = watches s.
  Proof. intros. unfold enqueue. destruct (value_lit s p); auto. Qed.
  Lemma enqueue_trail : forall (s : state) p c, exists ext, trail (fst (enqueue s p c)) = ext ++ trail s.
  Proof. intros. unfold enqueue. destruct (value_lit s p); simpl; [exists []|exists []|exists [p]]; auto. Qed.
  Lemma enqueue_false : forall (s : state) p c s', enqueue s p c = (s', false) -> s' = s /\ value_lit s p = LF.
  Proof. intros s p c s' E. unfold enqueue in E. destruct (value_lit s p); inversion E; auto. Qed.

  Lemma pop_one_inv0 : forall (s : state) p t, Inv0 T s -> trail s = p :: t -> ~ In p (prop_q s) -> Inv0 T (pop_one s).
  Proof.
    intros s p t I E Hq. unfold pop_one. rewrite E.
    assert (Hr : 0 < fst p < length (assigns s)) by (apply I; rewrite E; simpl; auto).
    assert (Hlr : fst p < length (reason s)) by (rewrite (i_len_reason T s I); lia).
    assert (Hll : fst p < length (level s)) by (rewrite (i_len_level T s I); lia).
    pose proof (i_nodup T s I) as ND. rewrite E in ND. simpl in ND. inversion ND as [|? ? Hnin ND']; subst.
    constructor; simpl.
    - rewrite !upd_length. apply I.
    - rewrite !upd_length. apply I.
    - rewrite nth_upd_neq by lia. apply I.
    - exact ND'.
    - intros q Hin. rewrite upd_length. apply I. rewrite E. simpl; auto.
    - intros v Hv. destruct (Nat.eq_dec (fst p) v) as [<-|Hn].
      + rewrite nth_upd_eq by lia. symmetry. apply tr_val_notin. auto.
      + rewrite nth_upd_neq by auto. rewrite (i_assigns T s I) by auto. rewrite E, tr_val_cons.
        destruct (Nat.eqb_spec (fst p) v); try contradiction. auto.
    - intros v Hv. destruct (Nat.eq_dec (fst p) v) as [<-|Hn].
      + rewrite !nth_upd_eq by lia. auto.
      + rewrite !nth_upd_neq by auto. apply I. rewrite E. simpl. intros [H|H]; auto.
    - apply I.
    - apply I.
    - pose proof (i_trail T s I) as Ht. rewrite E in Ht. destruct Ht as [_ Ht].
      eapply elem_st_frame; [| | |exact Ht]; simpl; auto.
      intros q Hin. assert (fst q <> fst p). { intros Eq. apply Hnin. rewrite <- Eq. now apply in_map. }
      rewrite !nth_upd_neq by auto. auto.
    - intros c l. rewrite upd_length. apply (i_cls_range T s I).
    - apply (i_cls_taut T s I).
    - apply (i_watch T s I).
    - intros q Hin. pose proof (i_queue T s I q Hin) as H. rewrite E in H. destruct H as [<-|H]; auto. contradiction.
    - intros q Hin. pose proof (i_queue T s I q Hin) as H. rewrite E in H. destruct H as [<-|H]. contradiction.
      assert (fst q <> fst p). { intros Eq. apply Hnin. rewrite <- Eq. now apply in_map. }
      rewrite nth_upd_neq by auto. apply (i_queue_lvl T s I); auto.
    - apply (i_cls_sound T s I).
    - pose proof (i_trail_sem T s I) as Ht. rewrite E in Ht. destruct Ht as [_ Ht].
      eapply elem_sem_frame; [| | |exact Ht]; simpl; auto. apply incl_refl.
    - apply I.
  Qed.

  (* fields that no invariant clause mentions *)
  Lemma inv0_ext : forall (s s' : state),
    cls s' = cls s -> watches s' = watches s -> assigns s' = assigns s -> prop_q s' = prop_q s -> trail s' = trail s ->
    trail_lim s' = trail_lim s -> decisions s' = decisions s -> reason s' = reason s -> level s' = level s -> log s' = log s ->
    Inv0 T s -> Inv0 T s'.
  Proof.
    intros s s' H1 H2 H3 H4 H5 H6 H7 H8 H9 H10 I.
    assert (Hl : forall c, lits_of s' c = lits_of s c) by (intros; unfold lits_of; now rewrite H1).
    constructor; rewrite ?H1, ?H2, ?H3, ?H4, ?H5, ?H6, ?H7, ?H8, ?H9, ?H10; try apply I.
    - eapply elem_st_frame; [| | |apply (i_trail T s I)]; auto. intros; rewrite H8, H9; auto.
    - intros c l. rewrite Hl. apply (i_cls_range T s I).
    - intros c l. rewrite Hl. apply (i_cls_taut T s I).
    - intros i c. rewrite Hl. apply (i_watch T s I).
    - unfold decision_level. rewrite H6. apply (i_queue_lvl T s I).
    - intros c. rewrite Hl. apply (i_cls_sound T s I).
    - eapply elem_sem_frame; [| | |apply (i_trail_sem T s I)]; auto. rewrite H10. apply incl_refl.
  Qed.
  Lemma inv_ext : forall (s s' : state),
    cls s' = cls s -> watches s' = watches s -> assigns s' = assigns s -> prop_q s' = prop_q s -> trail s' = trail s ->
    trail_lim s' = trail_lim s -> decisions s' = decisions s -> reason s' = reason s -> level s' = level s -> log s' = log s ->
    Inv T s -> Inv T s'.
  Proof.
    intros s s' H1 H2 H3 H4 H5 H6 H7 H8 H9 H10 [I L]. split. eapply inv0_ext; eauto.
    unfold LimOK in *. now rewrite H5, H6.
  Qed.
  Lemma set_constrs_inv : forall (s : state) v, Inv T s -> Inv T (set_constrs s v).
  Proof. intros. apply (inv_ext s); auto. Qed.
  Lemma set_thst_inv : forall (s : state) v, Inv T s -> Inv T (set_thst s v).
  Proof. intros. apply (inv_ext s); auto. Qed.
  Lemma set_ub_inv : forall (s : state), Inv T s -> Inv T (set_ub s).
  Proof. intros. apply (inv_ext s); auto. Qed.
  Lemma set_ub_inv0 : forall (s : state), Inv0 T s -> Inv0 T (set_ub s).
  Proof. intros. apply (inv0_ext s); auto. Qed.

  (* the queue may lose elements *)
  Lemma set_prop_q_inv0 : forall (s : state) q, incl q (prop_q s) -> Inv0 T s -> Inv0 T (set_prop_q s q).
  Proof.
    intros s q Hq I. constructor; simpl; try apply I. intros p Hp. apply I. auto.
    intros p Hp. apply (i_queue_lvl T s I). auto.
  Qed.
  Lemma set_prop_q_inv : forall (s : state) q, incl q (prop_q s) -> Inv T s -> Inv T (set_prop_q s q).
  Proof. intros s q Hq [I L]. split. now apply set_prop_q_inv0. exact L. Qed.

  (* hook: the log grows *)
  Definition entry_ok (l : hooklog) (k : nat) (c : list lit) : Prop :=
    (k = 0 -> entails T (axioms l) c) /\ (k = 2 \/ k = 3 -> entails T [] c).
  Lemma hook_inv0 : forall (s : state) k c, entry_ok (log s) k c -> Inv0 T s -> Inv0 T (hook s k c).
  Proof.
    intros s k c Hk I. unfold hook.
    assert (Ha : incl (axioms (log s)) (axioms ((k, c) :: log s))) by apply axioms_incl_cons.
    constructor; simpl; try apply I.
    - intros c0 Hc0. eapply entails_mono; [exact Ha|]. apply (i_cls_sound T s I); auto.
    - eapply elem_sem_frame; [| | |apply (i_trail_sem T s I)]; simpl; auto.
    - split. apply I. exact Hk.
  Qed.
  Lemma hook_inv : forall (s : state) k c, entry_ok (log s) k c -> Inv T s -> Inv T (hook s k c).
  Proof. intros s k c Hk [I L]. split. now apply hook_inv0. exact L. Qed.

  Lemma new_var_inv : forall (s : state), Inv T s -> Inv T (fst (new_var s)).
  Proof.
    intros s [I L]. unfold new_var. simpl.
    assert (Hn : forall A (l : list A) d v, nth v (l ++ [d]) d = nth v l d).
    { intros. apply nth_app_default. intros x [<-|[]]; auto. }
    split; [constructor|]; simpl; rewrite ?app_length; simpl.
    - rewrite (i_len_level T s I); auto.
    - rewrite (i_len_reason T s I); auto.
    - rewrite Hn. apply I.
    - apply I.
    - intros q Hq. pose proof (i_range T s I q Hq). lia.
    - intros v Hv. rewrite Hn. apply I; auto.
    - intros v Hv. rewrite !Hn. apply (i_free T s I v Hv).
    - apply I.
    - apply I.
    - eapply elem_st_frame; [| | |apply (i_trail T s I)]; simpl; auto.
    - intros c l Hl. pose proof (i_cls_range T s I c l Hl). lia.
    - apply (i_cls_taut T s I).
    - intros i c Hin. apply (i_watch T s I i c). rewrite (nth_app_default _ (watches s) [[]; []] [] i) in Hin; auto.
      intros x [<-|[<-|[]]]; auto.
    - apply I.
    - intros p Hp. rewrite Hn. apply (i_queue_lvl T s I); auto.
    - apply (i_cls_sound T s I).
    - eapply elem_sem_frame; [| | |apply (i_trail_sem T s I)]; simpl; auto. apply incl_refl.
    - apply I.
    - exact L.
  Qed.

  (* clause store: allocation, permutation of the literals of one clause *)
  Definition lits_ok (s : state) (ls : list lit) : Prop :=
    (forall l, In l ls -> fst l < length (assigns s)) /\ (forall l, In l ls -> ~ In (lneg l) ls) /\
    entails T (axioms (log s)) ls.

  Lemma lits_of_app_new : forall (s : state) ls c,
    lits_of (set_cls s (cls s ++ [ls])) c = if Nat.eqb c (length (cls s)) then ls else lits_of s c.
  Proof.
    intros. unfold lits_of. simpl. destruct (Nat.eqb_spec c (length (cls s))) as [->|Hn].
    - rewrite app_nth2 by lia. now rewrite Nat.sub_diag.
    - destruct (Nat.lt_ge_cases c (length (cls s))). now rewrite app_nth1.
      rewrite !nth_overflow; auto. rewrite app_length. simpl. lia.
  Qed.
  Lemma lits_of_overflow : forall (s : state) c, length (cls s) <= c -> lits_of s c = [].
  Proof. intros. unfold lits_of. now apply nth_overflow. Qed.

  Lemma alloc_inv : forall (s : state) ls, lits_ok s ls -> Inv T s -> Inv T (set_cls s (cls s ++ [ls])).
  Proof.
    intros s ls [Hr [Ht Hs]] [I L].
    assert (Hold : forall q c, In q (trail s) -> nth (fst q) (reason s) None = Some c ->
                               lits_of (set_cls s (cls s ++ [ls])) c = lits_of s c).
    { intros q c Hq Hc. rewrite lits_of_app_new. destruct (Nat.eqb_spec c (length (cls s))) as [->|]; auto.
      apply in_split in Hq. destruct Hq as [pre [suf E]].
      destruct (trail_ok_in _ _ _ _ _ (i_trail T s I) E) as [_ [H2 _]]. destruct (H2 _ Hc) as [rest [Hl _]].
      rewrite lits_of_overflow in Hl by lia. discriminate. }
    split; [constructor|]; simpl; try apply I.
    - eapply elem_st_frame; [| | |apply (i_trail T s I)]; simpl; auto.
    - intros c l. rewrite lits_of_app_new. destruct (Nat.eqb c (length (cls s))); auto. apply (i_cls_range T s I).
    - intros c l. rewrite lits_of_app_new. destruct (Nat.eqb c (length (cls s))); auto. apply (i_cls_taut T s I).
    - intros i c Hin. destruct (i_watch T s I i c Hin) as [H1 H2]. rewrite app_length. simpl. split. lia.
      rewrite lits_of_app_new. destruct (Nat.eqb_spec c (length (cls s))); auto. lia.
    - intros c Hc. rewrite lits_of_app_new. destruct (Nat.eqb_spec c (length (cls s))); auto.
      apply (i_cls_sound T s I). rewrite app_length in Hc. simpl in Hc. lia.
    - exact L.
  Qed.

  Lemma lits_of_upd : forall (s : state) c ls c', c < length (cls s) ->
    lits_of (set_cls s (upd (cls s) c ls)) c' = if Nat.eqb c c' then ls else lits_of s c'.
  Proof.
    intros. unfold lits_of. simpl. rewrite nth_upd. destruct (Nat.eqb c c'); auto.
    destruct (Nat.ltb_spec c (length (cls s))); auto. lia.
  Qed.

  (* replacing the literals of clause c by a sub-multiset-preserving list; the head is kept when c is a reason *)
  Lemma relits_inv : forall (s : state) c ls, Inv T s -> c < length (cls s) ->
    (forall l, In l ls -> In l (lits_of s c)) ->
    (forall i, In c (nth i (watches s) []) -> In (lneg (lit_of_index i)) ls) ->
    entails T (axioms (log s)) ls ->
    (forall q suf, (exists pre, trail s = pre ++ q :: suf) -> nth (fst q) (reason s) None = Some c ->
        exists rest, ls = q :: rest /\ forall r, In r rest -> false_in suf r) ->
    Inv T (set_cls s (upd (cls s) c ls)).
  Proof.
    intros s c ls [I L] Hc Hsub Hw Hent Hhd.
    split; [constructor|]; simpl; try apply I.
    - eapply trail_ok_impl; [|apply (i_trail T s I)]. intros pre q suf E [H1 [H2 H3]].
      unfold elem_st. simpl. split; [exact H1|split; [|exact H3]].
      intros c0 Hc0. rewrite lits_of_upd by auto. destruct (Nat.eqb_spec c c0) as [<-|Hn]; auto.
      apply Hhd; eauto.
    - intros c0 l. rewrite lits_of_upd by auto. destruct (Nat.eqb_spec c c0) as [<-|Hn].
      intros Hl. apply (i_cls_range T s I c). auto. apply (i_cls_range T s I).
    - intros c0 l. rewrite lits_of_upd by auto. destruct (Nat.eqb_spec c c0) as [<-|Hn].
      intros Hl Hl'. apply (i_cls_taut T s I c l); auto. apply (i_cls_taut T s I).
    - intros i c0 Hin. destruct (i_watch T s I i c0 Hin) as [H1 H2]. rewrite upd_length. split; auto.
      rewrite lits_of_upd by auto. destruct (Nat.eqb_spec c c0) as [<-|Hn]; auto.
    - intros c0. rewrite upd_length. intros Hc0. rewrite lits_of_upd by auto.
      destruct (Nat.eqb_spec c c0) as [<-|Hn]; auto. apply (i_cls_sound T s I); auto.
    - exact L.
  Qed.

  Lemma set_watches_inv : forall (s : state) w,
    (forall i c, In c (nth i w []) -> c < length (cls s) /\ In (lneg (lit_of_index i)) (lits_of s c)) ->
    Inv T s -> Inv T (set_watches s w).
  Proof.
    intros s w Hw [I L]. split; [constructor|]; simpl; try apply I; auto.
  Qed.
  Lemma watch_add_inv : forall (s : state) p c, c < length (cls s) -> In (lneg p) (lits_of s c) -> Inv T s -> Inv T (watch_add s p c).
  Proof.
    intros s p c Hc Hp I. unfold watch_add. apply set_watches_inv; auto.
    intros i c0. rewrite nth_upd. destruct (Nat.eqb_spec (index p) i) as [<-|Hn].
    - destruct (Nat.ltb (index p) (length (watches s))).
      + intros Hin. apply in_app_or in Hin. destruct Hin as [Hin|[<-|[]]].
        apply (i_watch T s (proj1 I)); auto. rewrite lit_of_index_index. auto.
      + apply (i_watch T s (proj1 I)).
    - apply (i_watch T s (proj1 I)).
  Qed.
  Lemma watch_clear_inv : forall (s : state) i, Inv T s -> Inv T (set_watches s (upd (watches s) i [])).
  Proof.
    intros s i I. apply set_watches_inv; auto. intros j c. rewrite nth_upd.
    destruct (Nat.eqb i j). destruct (Nat.ltb i (length (watches s))). intros []. apply (i_watch T s (proj1 I)).
    apply (i_watch T s (proj1 I)).
  Qed.
  Lemma watch_restore_inv : forall (s : state) p rest, Inv T s ->
    (forall c, In c rest -> c < length (cls s) /\ In (lneg p) (lits_of s c)) ->
    Inv T (set_watches s (upd (watches s) (index p) (nth (index p) (watches s) [] ++ rest))).
  Proof.
    intros s p rest I Hr. apply set_watches_inv; auto. intros j c. rewrite nth_upd.
    destruct (Nat.eqb_spec (index p) j) as [<-|Hn]; [|apply (i_watch T s (proj1 I))].
    destruct (Nat.ltb (index p) (length (watches s))); [|apply (i_watch T s (proj1 I))].
    intros Hin. apply in_app_or in Hin. destruct Hin as [Hin|Hin]. apply (i_watch T s (proj1 I)); auto.
    rewrite lit_of_index_index. auto.
  Qed.

  (* levels: push (assume) and drop of the top boundary (pop) *)
  Definition push_level (s : state) (p : lit) (ts : TS) : state :=
    mkst (constrs s) (cls s) (watches s) (assigns s) (prop_q s) (trail s) (length (trail s) :: trail_lim s)
         (p :: decisions s) (reason s) (level s) ts (log s) (ub s).
  Lemma push_level_inv : forall (s : state) p ts, Inv T s -> prop_q s = [] -> Inv T (push_level s p ts).
  Proof.
    intros s p ts [I L] Hq. unfold push_level.
    split; [constructor|]; simpl; try apply I; try (rewrite Hq; intros ? []).
    - constructor. apply I. eapply Forall_impl; [|exact L]. simpl. intros; lia.
    - f_equal. apply I.
    - eapply trail_ok_impl; [|apply (i_trail T s I)]. intros pre q suf E [H1 [H2 H3]].
      assert (Hlen : length suf < length (trail s)).
      { rewrite E, app_length. simpl. lia. }
      unfold elem_st. simpl. rewrite lvl_at_cons. destruct (Nat.leb_spec (length (trail s)) (length suf)); try lia.
      simpl. repeat split; auto.
    - eapply trail_ok_impl; [|apply (i_trail_sem T s I)]. intros pre q suf E H.
      assert (Hlen : length suf < length (trail s)).
      { rewrite E, app_length. simpl. lia. }
      unfold elem_sem in *. simpl. destruct (Nat.leb_spec (length (trail s)) (length suf)); try lia. exact H.
    - constructor; [simpl; lia | exact L].
  Qed.

  Definition drop_level (s : state) (ts : TS) : state :=
    mkst (constrs s) (cls s) (watches s) (assigns s) (prop_q s) (trail s) (tl (trail_lim s))
         (tl (decisions s)) (reason s) (level s) ts (log s) (ub s).
  Lemma drop_level_inv : forall (s : state) lim lims ts, Inv0 T s -> prop_q s = [] -> trail_lim s = lim :: lims ->
    length (trail s) = lim -> Inv T (drop_level s ts).
  Proof.
    intros s lim lims ts I Hq E Hlen. unfold drop_level. rewrite E. simpl tl.
    split; [constructor|]; simpl; try apply I; try (rewrite Hq; intros ? []).
    - pose proof (i_lims_sorted T s I) as Hs. rewrite E in Hs. now inversion Hs.
    - pose proof (i_decs_len T s I) as Hd. rewrite E in Hd. destruct (decisions s); simpl in *; lia.
    - eapply trail_ok_impl; [|apply (i_trail T s I)]. intros pre q suf Et [H1 [H2 H3]].
      assert (Hl : length suf < lim). { rewrite Et, app_length in Hlen. simpl in Hlen. lia. }
      unfold elem_st in *. simpl. rewrite E in H1, H3. rewrite lvl_at_cons in H1, H3.
      destruct (Nat.leb_spec lim (length suf)); try lia. simpl in *. repeat split; auto.
      intros Hn Hp. destruct (H3 Hn Hp) as [Hx|Hx]; auto. lia.
    - eapply trail_ok_impl; [|apply (i_trail_sem T s I)]. intros pre q suf Et H.
      assert (Hl : length suf < lim). { rewrite Et, app_length in Hlen. simpl in Hlen. lia. }
      unfold elem_sem in *. simpl. rewrite E in H. destruct (decisions s) as [|d ds]; simpl in *.
      + destruct lims; exact H.
      + destruct (Nat.leb_spec lim (length suf)); try lia. exact H.
    - (* the boundaries below the dropped one are not above it *)
      unfold LimOK. simpl. pose proof (i_lims_sorted T s I) as Hs. rewrite E in Hs. apply StronglySorted_inv in Hs.
      eapply Forall_impl; [|apply Hs]. simpl. intros a Ha. lia.
  Qed.
End Prim.
