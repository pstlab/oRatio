(* sat_core + the GUARDED idl_theory (construction of proofs/SatCoreGuard_Proofs.v; raw theory smt/DlAdapter.v, tests
   smt/DlGuard.v): the absolute theory contract, hence C07's soundness core and C08's pop-after-assume theorem with no
   hypothesis about the theory.

     K  := KI VD0 : the structural invariant dl_th_inv of the theory state + "the constraint table is VD0" (VD0 = the
           constraints the network was built with; it fixes the meaning T of the constraint literals)
     T  := idl_T VD0 : the propositional assignments realised by an integer valuation x of the time points
           (v true: x(to) - x(from) <= d; v false: x(from) - x(to) <= -d-1)
     gp := idl_gp : one layer per level + the answer carries its certificate (smt/DlGuard.v); gc := true
     (P1-P4) KI_thp / KI_thc / KI_push / KI_pop - unconditional (DlGuardChk_Proofs)
     (V1) idl_V_p : from the certificate check (valid_chk_sound) - NOT from `good`: see the header of Properties_C08.v
     (V2) idl_V_c : check() says nothing
     (U)  KI_undo = dl_th_undo
   (W) lemmas_wl_ok is not provided (it speaks about the levels of the tail literals, which the call does not receive), so the
   `ub = false` premise of the generic theorems stays. *)
From Coq Require Import List Arith Bool ZArith Lia Permutation Sorted.
From ORatio Require Import smt.SatCoreBase smt.SatCoreSpec smt.SatCore proofs.SatCoreBase_Proofs proofs.SatCoreInv_Proofs
  proofs.SatCoreAnalyze_Proofs proofs.SatCoreRun_Proofs proofs.SatCoreThm_Proofs proofs.SatCoreTh_Proofs proofs.SatCoreUndo_Proofs
  proofs.SatCoreGuard_Proofs.
From ORatio Require smt.DlDom smt.Dl smt.DlInst smt.DlAdapter smt.DlGuard proofs.DlAdapter_Proofs proofs.DlGuardChk_Proofs.
Import ListNotations.

Section IdlGuarded.
Variable sat : bool.
Variable VD0 : list (nat * Dl.cstr Z).
Notation dmI := (DlDom.idl_dom sat).
Notation thp := (DlAdapter.dl_thp Z dmI).
Notation thc := (DlAdapter.dl_thc Z).
Notation thpush := (DlAdapter.dl_thpush Z).
Notation thpop := (DlAdapter.dl_thpop Z).
Notation K := (DlGuardChk_Proofs.KI Z VD0).
Notation gp := (DlGuard.idl_gp sat).
Notation gc := DlGuard.idl_gc.
Notation T := (DlGuardChk_Proofs.idl_T VD0).

Lemma idl_K_p : forall ts a dl p, K ts -> gp ts a dl p = true -> K (fst (fst (thp ts a dl p))).
Proof. intros ts a dl p H _. apply DlGuardChk_Proofs.KI_thp. exact H. Qed.
Lemma idl_K_c : forall ts a dl, K ts -> gc ts a dl = true -> K (fst (fst (thc ts a dl))).
Proof. intros ts a dl H _. apply DlGuardChk_Proofs.KI_thc. exact H. Qed.
Lemma idl_K_push : forall ts, K ts -> K (thpush ts).
Proof. apply DlGuardChk_Proofs.KI_push. Qed.
Lemma idl_K_pop : forall ts, K ts -> K (thpop ts).
Proof. apply (DlGuardChk_Proofs.KI_pop Z dmI). Qed.

Notation WSt := (@WS (Dl.state Z) K).
Notation wstate := (@state WSt).

Lemma avalue_value (s : wstate) r : DlGuard.avalue (assigns s) r = value_lit s r.
Proof. reflexivity. Qed.

Lemma dl_lit_eqb_true (x y : lit) : Dl.lit_eqb x y = true -> x = y.
Proof.
  destruct x as [a b], y as [c d]. unfold Dl.lit_eqb. cbn. intro H. apply andb_true_iff in H. destruct H as [H1 H2].
  apply Nat.eqb_eq in H1. apply Bool.eqb_prop in H2. congruence.
Qed.
Lemma dl_lit_eqb_refl (x : lit) : Dl.lit_eqb x x = true.
Proof. destruct x as [a b]. unfold Dl.lit_eqb. cbn. rewrite Nat.eqb_refl. destruct b; reflexivity. Qed.

Lemma valid_entails cl : DlGuard.valid_chk VD0 cl = true -> entails T [] cl.
Proof.
  intros H a Ta _. destruct (DlGuardChk_Proofs.valid_chk_sound VD0 cl a H Ta) as (l & Hl & E). exists l. split; [exact Hl | exact E].
Qed.

Lemma lemma_chk_ok (s : wstate) lem : DlGuard.lemma_chk VD0 (assigns s) lem = true -> lemma_ok T s lem.
Proof.
  unfold DlGuard.lemma_chk. intro H. repeat (apply andb_true_iff in H; destruct H as [H ?]).
  rename H into Hv, H0 into Hl, H1 into Ht, H2 into Hn, H3 into Hr. apply Nat.leb_le in Hl.
  split; [apply valid_entails; exact Hv |]. split.
  { intros l Hin. rewrite forallb_forall in Hr. apply Nat.ltb_lt. exact (Hr l Hin). }
  split.
  { intros l Hin Hc. unfold DlGuard.nocompl in Hn. rewrite forallb_forall in Hn. specialize (Hn l Hin).
    apply negb_true_iff in Hn. assert (E : existsb (Dl.lit_eqb (Dl.lnot l)) lem = true).
    { apply existsb_exists. exists (lneg l). split; [exact Hc | apply dl_lit_eqb_refl]. }
    congruence. }
  split.
  { intros r Hin. rewrite forallb_forall in Ht. specialize (Ht r Hin). rewrite avalue_value in Ht. destruct (value_lit s r); [reflexivity | discriminate | discriminate]. }
  unfold Dl.lit, lit in *. split; [intro E; exfalso; lia | intros ->; cbn in Hl; lia].
Qed.

Lemma cnfl_chk_ok (s : wstate) p c : lvl s p = decision_level s -> DlGuard.cnfl_chk VD0 (assigns s) p c = true -> cnfl_ok T s c.
Proof.
  unfold DlGuard.cnfl_chk. intros Hlv H. repeat (apply andb_true_iff in H; destruct H as [H ?]). rename H into Hv, H0 into He, H1 into Hf.
  split; [apply valid_entails; exact Hv |]. split.
  { intros r Hin. rewrite forallb_forall in Hf. specialize (Hf r Hin). rewrite avalue_value in Hf. destruct (value_lit s r); [reflexivity | discriminate | discriminate]. }
  intros _. apply existsb_exists in He. destruct He as (r & Hin & E). apply dl_lit_eqb_true in E. subst r.
  exists (lneg p). split; [exact Hin |]. replace (lneg (lneg p)) with p; [exact Hlv |].
  destruct p as [v b]. unfold lneg. cbn. rewrite negb_involutive. reflexivity.
Qed.

Theorem idl_V_p : forall (s : wstate) p, Inv T s -> In p (trail s) -> lvl s p = decision_level s ->
  gp (proj1_sig (thst s)) (assigns s) (decision_level s) p = true ->
  th_result_ok T s (thst s, snd (fst (thp (proj1_sig (thst s)) (assigns s) (decision_level s) p)),
                    snd (thp (proj1_sig (thst s)) (assigns s) (decision_level s) p)).
Proof.
  intros s p _ _ Hlv G. unfold DlGuard.idl_gp in G.
  apply andb_true_iff in G. destruct G as [G G3]. apply andb_true_iff in G. destruct G as [_ G2].
  assert (Evd : Dl.var_dists (proj1_sig (thst s)) = VD0) by (exact (proj2 (proj2_sig (thst s)))).
  rewrite Evd in G2, G3. unfold th_result_ok. cbn [fst snd]. split.
  - apply Forall_forall. intros lem Hin. rewrite forallb_forall in G2. apply lemma_chk_ok. exact (G2 lem Hin).
  - intros c Ec. rewrite Ec in G3. exact (cnfl_chk_ok s p c Hlv G3).
Qed.

Theorem idl_V_c : forall (s : wstate), Inv T s -> gc (proj1_sig (thst s)) (assigns s) (decision_level s) = true ->
  th_result_ok T s (thst s, snd (fst (thc (proj1_sig (thst s)) (assigns s) (decision_level s))),
                    snd (thc (proj1_sig (thst s)) (assigns s) (decision_level s))) /\
  snd (fst (thc (proj1_sig (thst s)) (assigns s) (decision_level s))) = [].
Proof. intros s _ _. split; [| reflexivity]. split; [constructor | intros; discriminate]. Qed.

Definition idl_wthp := w_thp thp K gp idl_K_p.
Definition idl_wthc := w_thc thc K gc idl_K_c.
Definition idl_wpush := w_thpush thpush K idl_K_push.
Definition idl_wpop := w_thpop thpop K idl_K_pop.

Theorem idl_guarded_contract : theory_contract T idl_wthp idl_wthc.
Proof. exact (w_contract T thp thc K gp gc idl_K_p idl_K_c idl_V_p idl_V_c). Qed.

Variable sort : (lit -> lit -> bool) -> list lit -> list lit.
Hypothesis Hsort : sort_contract sort.
Variable FUEL : nat.

Theorem idl_guarded_soundness : forall ops w0,
  run_ok sort idl_wthp idl_wthc idl_wpush idl_wpop FUEL ops (init w0) = true ->
  ub (run sort idl_wthp idl_wthc idl_wpush idl_wpop FUEL ops (init w0)) = false ->
  let s := run sort idl_wthp idl_wthc idl_wpush idl_wpop FUEL ops (init w0) in
  Inv T s /\
  (forall p, value_lit s p = LT -> entails T (axioms (log s) ++ units (decisions s)) [p]) /\
  (forall p, value_lit s p = LF -> entails T (axioms (log s) ++ units (decisions s)) [lneg p]) /\
  (forall pre q suf c, trail s = pre ++ q :: suf -> nth (fst q) (reason s) None = Some c ->
     exists rest, lits_of s c = q :: rest /\ (forall r, In r rest -> In (lneg r) suf \/ r = FALSE_lit) /\
                  entails T (axioms (log s)) (lits_of s c)) /\
  (forall post c pre, log s = post ++ (0, c) :: pre -> entails T (axioms pre) c).
Proof. exact (w_soundness_core T thp thc thpush thpop K gp gc idl_K_p idl_K_c idl_K_push idl_K_pop idl_V_p idl_V_c sort Hsort FUEL). Qed.

Theorem idl_guarded_pop_assume : forall ops w0,
  run_ok sort idl_wthp idl_wthc idl_wpush idl_wpop FUEL ops (init w0) = true ->
  ub (run sort idl_wthp idl_wthc idl_wpush idl_wpop FUEL ops (init w0)) = false ->
  forall p s', pre (run sort idl_wthp idl_wthc idl_wpush idl_wpop FUEL ops (init w0)) (OAssume p) = true ->
  assume sort idl_wthp idl_wthc idl_wpush idl_wpop FUEL (run sort idl_wthp idl_wthc idl_wpush idl_wpop FUEL ops (init w0)) p = (s', RTrue) ->
  log s' = log (run sort idl_wthp idl_wthc idl_wpush idl_wpop FUEL ops (init w0)) ->
  restored _ (fun w => DlAdapter.th_part Z (proj1_sig w)) (run sort idl_wthp idl_wthc idl_wpush idl_wpop FUEL ops (init w0)) (pop idl_wpop s').
Proof.
  exact (w_pop_assume T thp thc thpush thpop K gp gc idl_K_p idl_K_c idl_K_push idl_K_pop idl_V_p idl_V_c sort Hsort FUEL _
           (DlAdapter.th_part Z) (DlGuardChk_Proofs.KI_undo Z dmI VD0)).
Qed.

End IdlGuarded.
