(* The tableau: well-formedness, pivot preserves the solution set, update / pivot_and_update keep the values on the rows. *)
From Coq Require Import QArith List Lia Lqa.
From ORatio Require Import smt.Lra smt.LraSem proofs.LraBase_Proofs.
Import ListNotations.
Local Open Scope Q_scope.
#[local] Arguments Qred : simpl never.
#[local] Arguments Qplus : simpl never.
#[local] Arguments Qmult : simpl never.
#[local] Arguments Qopp : simpl never.
#[local] Arguments Qminus : simpl never.
#[local] Arguments Qdiv : simpl never.
#[local] Arguments Qinv : simpl never.
#[local] Arguments Qeq_bool : simpl never.
#[local] Arguments Qle_bool : simpl never.

Definition tkeys (T : list (var * lin)) : list nat := map fst T.
Definition lkeys (l : lin) : list nat := keys (lterms l).

(* the tableau as an association list (LraBase_Proofs, Section Assoc) *)
Lemma trow_alook T x : trow T x = alook x T.
Proof. induction T as [| [y m] t IH]; simpl; [| rewrite IH]; reflexivity. Qed.
Lemma trow_In T x l : trow T x = Some l -> In (x, l) T.
Proof. rewrite trow_alook. apply alook_In. Qed.
Lemma trow_none_notin T x : trow T x = None <-> ~ In x (tkeys T).
Proof. rewrite trow_alook. apply alook_none. Qed.
Lemma In_trow T x l : ksorted (tkeys T) -> In (x, l) T -> trow T x = Some l.
Proof. rewrite trow_alook. apply In_alook. Qed.
Lemma In_tkeys T x l : In (x, l) T -> In x (tkeys T).
Proof. intro H. apply (in_map fst) in H. exact H. Qed.
Lemma trow_tinsert x l T y : trow T x = None -> trow (tinsert x l T) y = if Nat.eqb y x then Some l else trow T y.
Proof. rewrite !trow_alook. apply alook_ains. Qed.
Lemma tinsert_In_new x l T : trow T x = None -> In (x, l) (tinsert x l T).
Proof. rewrite trow_alook. apply ains_new. Qed.
Lemma trow_tremove x T y : ksorted (tkeys T) -> trow (tremove x T) y = if Nat.eqb y x then None else trow T y.
Proof. rewrite !trow_alook. apply alook_arem. Qed.
Lemma trow_map (f : var * lin -> lin) T y : trow (map (fun r => (fst r, f r)) T) y = match trow T y with Some l => Some (f (y, l)) | None => None end.
Proof. rewrite !trow_alook. apply alook_map. Qed.

(* sorted by basic variable; rows have sorted keys and mention only non-basic variables below n *)
Definition wf_tab (n : nat) (T : list (var * lin)) : Prop :=
  ksorted (tkeys T) /\
  forall x l, In (x, l) T -> (x < n)%nat /\ ksorted (lkeys l) /\ forall v, In v (lkeys l) -> (v < n)%nat /\ trow T v = None.

Lemma wf_tab_mono n m T : (n <= m)%nat -> wf_tab n T -> wf_tab m T.
Proof.
  intros L [H1 H2]. split; auto. intros x l K. destruct (H2 x l K) as [A [B C]]. split; [lia | split; auto].
  intros v Hv. destruct (C v Hv). split; auto. lia.
Qed.
Lemma wf_tab_row n T x l : wf_tab n T -> trow T x = Some l ->
  (x < n)%nat /\ ksorted (lkeys l) /\ forall v, In v (lkeys l) -> (v < n)%nat /\ trow T v = None.
Proof. intros [_ W] H. apply W. apply trow_In. exact H. Qed.
Lemma trow_ge_none n T x : wf_tab n T -> (n <= x)%nat -> trow T x = None.
Proof. intros W Hx. destruct (trow T x) as [l |] eqn:E; auto. destruct (wf_tab_row n T x l W E). lia. Qed.

(* the pivot's new tableau, as a function of the old one *)
Definition pivot_e3 (expr : lin) (x_i x_j : var) (cf : Q) : lin :=
  let e2 := lin_div (lin_remove x_j expr) (- cf) in mkLin (insert_term x_i (Qred (1 / cf)) (lterms e2)) (lconst e2).
Definition pivot_row (e3 : lin) (x_j : var) (r : var * lin) : lin :=
  match coef x_j (lterms (snd r)) with
  | Some cc => lin_add_scaled (lin_remove x_j (snd r)) e3 cc
  | None => snd r
  end.
Definition pivot_tab (T : list (var * lin)) (expr : lin) (x_i x_j : var) (cf : Q) : list (var * lin) :=
  let e3 := pivot_e3 expr x_i x_j cf in
  tinsert x_j e3 (map (fun r => (fst r, pivot_row e3 x_j r)) (tremove x_i T)).

Lemma pivot_unfold s x_i x_j expr cf :
  trow (tableau s) x_i = Some expr -> coef x_j (lterms expr) = Some cf ->
  pivot s x_i x_j = set_tableau s (pivot_tab (tableau s) expr x_i x_j cf).
Proof.
  intros H1 H2. unfold pivot. rewrite H1, H2. unfold pivot_tab, pivot_e3. f_equal. f_equal.
  apply map_ext. intros [y m]. unfold pivot_row. simpl. destruct (coef x_j (lterms m)); reflexivity.
Qed.

(* x_i leaves the basis, x_j enters it, every other row is rewritten *)
Lemma trow_pivot_tab n T expr x_i x_j cf y :
  wf_tab n T -> trow T x_i = Some expr -> coef x_j (lterms expr) = Some cf ->
  trow (pivot_tab T expr x_i x_j cf) y =
  if Nat.eqb y x_j then Some (pivot_e3 expr x_i x_j cf)
  else if Nat.eqb y x_i then None
  else match trow T y with Some l => Some (pivot_row (pivot_e3 expr x_i x_j cf) x_j (y, l)) | None => None end.
Proof.
  intros W Hi Hj. destruct (wf_tab_row n T x_i expr W Hi) as [_ [_ Vi]]. destruct (Vi x_j (alook_keys _ _ _ Hj)) as [_ Nj].
  destruct W as [S _]. unfold pivot_tab. rewrite trow_tinsert.
  - destruct (Nat.eqb y x_j); auto. rewrite trow_map, trow_tremove by auto. destruct (Nat.eqb y x_i); auto.
  - rewrite trow_map, trow_tremove by auto. destruct (Nat.eqb x_j x_i); auto. rewrite Nj. auto.
Qed.

Lemma ksorted_e3 expr x_i x_j cf : ksorted (lkeys expr) -> ksorted (lkeys (pivot_e3 expr x_i x_j cf)).
Proof. intro H. apply ksorted_ains. unfold lin_div. simpl. rewrite keys_map. apply ksorted_arem. exact H. Qed.
Lemma lkeys_e3 expr x_i x_j cf w :
  ksorted (lkeys expr) -> x_i <> x_j -> In w (lkeys (pivot_e3 expr x_i x_j cf)) -> w <> x_j /\ (w = x_i \/ In w (lkeys expr)).
Proof.
  intros S N H. apply keys_ains in H. destruct H as [-> | H]; auto. unfold lin_div in H. simpl in H. rewrite keys_map in H. split.
  - intros ->. exact (arem_notin x_j _ S H).
  - right. exact (keys_arem _ _ _ H).
Qed.
Lemma ksorted_pivot_row e3 x_j r : ksorted (lkeys (snd r)) -> ksorted (lkeys (pivot_row e3 x_j r)).
Proof.
  unfold pivot_row. intro S. destruct (coef x_j (lterms (snd r))) as [cc |]; auto.
  apply (ksorted_fold_add (fun c => c * cc)). apply ksorted_arem. exact S.
Qed.
Lemma lkeys_pivot_row e3 x_j r w :
  ksorted (lkeys (snd r)) -> ~ In x_j (lkeys e3) -> In w (lkeys (pivot_row e3 x_j r)) -> w <> x_j /\ (In w (lkeys (snd r)) \/ In w (lkeys e3)).
Proof.
  unfold pivot_row. intros S N. destruct (coef x_j (lterms (snd r))) as [cc |] eqn:E; intro H.
  - apply (keys_fold_add (fun c => c * cc)) in H. destruct H as [H | H].
    + split; [intros ->; exact (arem_notin x_j _ S H) | left; exact (keys_arem _ _ _ H)].
    + split; [intros ->; auto | auto].
  - split; [intros ->; apply alook_none in E; auto | auto].
Qed.

Lemma wf_tab_pivot n T expr x_i x_j cf :
  wf_tab n T -> trow T x_i = Some expr -> coef x_j (lterms expr) = Some cf ->
  wf_tab n (pivot_tab T expr x_i x_j cf).
Proof.
  intros W Hi Hj. pose proof (fun y => trow_pivot_tab n T expr x_i x_j cf y W Hi Hj) as RT.
  destruct (wf_tab_row n T x_i expr W Hi) as [Li [Si Vi]]. destruct (Vi x_j (alook_keys _ _ _ Hj)) as [Lj Nj].
  assert (Nij : x_i <> x_j) by congruence.
  set (e3 := pivot_e3 expr x_i x_j cf) in *.
  assert (S' : ksorted (tkeys (pivot_tab T expr x_i x_j cf))).
  { apply ksorted_ains. rewrite keys_map. apply ksorted_arem. apply W. }
  (* a variable other than x_j that was non-basic, or is x_i, is non-basic afterwards *)
  assert (NB : forall v, v <> x_j -> (v < n)%nat /\ trow T v = None \/ v = x_i -> (v < n)%nat /\ trow (pivot_tab T expr x_i x_j cf) v = None).
  { intros v Nv Hv. rewrite RT. apply Nat.eqb_neq in Nv. rewrite Nv.
    destruct Hv as [[Lv Hv] | ->]; [rewrite Hv; destruct (Nat.eqb v x_i); auto | rewrite Nat.eqb_refl; auto]. }
  assert (E3 : forall w, In w (lkeys e3) -> w <> x_j /\ ((w < n)%nat /\ trow T w = None \/ w = x_i)).
  { intros w Hw. destruct (lkeys_e3 _ _ _ _ _ Si Nij Hw) as [A [B | B]]; auto. }
  split; [exact S' |]. intros y m Hin. apply (In_trow _ _ _ S') in Hin. rewrite RT in Hin.
  destruct (Nat.eqb_spec y x_j) as [-> | Ny].
  - injection Hin as <-. split; [auto | split; [apply ksorted_e3; auto |]]. intros v Hv. destruct (E3 v Hv). auto.
  - destruct (Nat.eqb y x_i); [discriminate |]. destruct (trow T y) as [l |] eqn:Ty; [| discriminate]. injection Hin as <-.
    destruct (wf_tab_row n T y l W Ty) as [Ly [Sy Vy]]. split; [auto | split; [apply ksorted_pivot_row; auto |]].
    intros v Hv. apply lkeys_pivot_row in Hv; [| exact Sy | intro K; apply E3 in K; tauto].
    destruct Hv as [Nv [Hv | Hv]]; [auto | destruct (E3 v Hv); auto].
Qed.

Lemma evalq_e3 rho expr x_i x_j cf :
  coef x_j (lterms expr) = Some cf -> ~ cf == 0 -> coef x_i (lterms expr) = None ->
  evalq rho (pivot_e3 expr x_i x_j cf) == (evalq rho expr - cf * rho x_j) / (- cf) + (1 / cf) * rho x_i.
Proof.
  intros Hj Hz Hi. unfold pivot_e3.
  assert (Ni : coef x_i (lterms (lin_div (lin_remove x_j expr) (- cf))) = None).
  { apply alook_none. unfold lin_div. simpl. rewrite keys_map. intro K. apply keys_arem in K. apply alook_none in Hi. auto. }
  assert (Hz' : ~ - cf == 0) by (intro K; apply Hz; lra).
  unfold evalq at 1. cbn [lterms lconst]. rewrite sumq_insert_term by exact Ni. rewrite Qred_correct.
  pose proof (evalq_lin_div rho (lin_remove x_j expr) (- cf) Hz') as E. unfold evalq at 1 in E.
  rewrite (evalq_lin_remove rho x_j expr cf Hj).
  set (A := lconst (lin_div (lin_remove x_j expr) (- cf))) in *.
  set (B := sumq rho (lterms (lin_div (lin_remove x_j expr) (- cf)))) in *.
  transitivity (1 / cf * rho x_i + (A + B)); [ring |].
  rewrite E. field. auto.
Qed.

Lemma evalq_pivot_row rho e3 x_j r :
  evalq rho (pivot_row e3 x_j r) == evalq rho (snd r) + match coef x_j (lterms (snd r)) with Some cc => cc * (evalq rho e3 - rho x_j) | None => 0 end.
Proof.
  unfold pivot_row. destruct (coef x_j (lterms (snd r))) as [cc |] eqn:E.
  - rewrite evalq_lin_add_scaled. rewrite (evalq_lin_remove rho x_j (snd r) cc E). ring.
  - ring.
Qed.

Theorem pivot_tab_equiv n T expr x_i x_j cf rho :
  wf_tab n T -> trow T x_i = Some expr -> coef x_j (lterms expr) = Some cf -> ~ cf == 0 ->
  (sat_rows (pivot_tab T expr x_i x_j cf) rho <-> sat_rows T rho).
Proof.
  intros W Hi Hj Hz. pose proof (fun y => trow_pivot_tab n T expr x_i x_j cf y W Hi Hj) as RT.
  pose proof (wf_tab_pivot n T expr x_i x_j cf W Hi Hj) as [S' _].
  destruct (wf_tab_row n T x_i expr W Hi) as [_ [_ Vi]]. destruct (Vi x_j (alook_keys _ _ _ Hj)) as [_ Nj].
  assert (Nij : x_i <> x_j) by congruence.
  assert (Nii : coef x_i (lterms expr) = None).
  { apply alook_none. intro K. destruct (Vi _ K) as [_ K2]. congruence. }
  set (e3 := pivot_e3 expr x_i x_j cf) in *.
  (* the new row of x_j is the old row of x_i solved for x_j *)
  assert (Key : rho x_j == evalq rho e3 <-> rho x_i == evalq rho expr).
  { unfold e3. rewrite (evalq_e3 rho expr x_i x_j cf Hj Hz Nii). split; intro H.
    - assert (K : rho x_j * cf == ((evalq rho expr - cf * rho x_j) / - cf + 1 / cf * rho x_i) * cf) by (rewrite <- H; reflexivity).
      assert (K2 : ((evalq rho expr - cf * rho x_j) / - cf + 1 / cf * rho x_i) * cf == - (evalq rho expr - cf * rho x_j) + rho x_i) by (field; auto).
      rewrite K2 in K. lra.
    - rewrite H. field. auto. }
  assert (Hj' : sat_rows (pivot_tab T expr x_i x_j cf) rho \/ sat_rows T rho -> rho x_j == evalq rho e3).
  { intros [H | H]; [| apply Key]; apply H; apply trow_In; [rewrite RT, Nat.eqb_refl; auto | exact Hi]. }
  (* and then each other row holds before iff it holds after *)
  assert (Other : rho x_j == evalq rho e3 -> forall y l, evalq rho (pivot_row e3 x_j (y, l)) == evalq rho l).
  { intros E y l. rewrite evalq_pivot_row. simpl. destruct (coef x_j (lterms l)); rewrite <- ?E; ring. }
  destruct W as [S _]. split; intros H y m Hin.
  - destruct (Nat.eq_dec y x_i) as [-> | Ny].
    + rewrite (In_trow _ _ _ S Hin) in Hi. injection Hi as ->. apply Key, Hj'. auto.
    + rewrite <- (Other (Hj' (or_introl H)) y m). apply H, trow_In. rewrite RT.
      apply Nat.eqb_neq in Ny. rewrite Ny, (In_trow _ _ _ S Hin). destruct (Nat.eqb_spec y x_j) as [-> | _]; [| reflexivity].
      rewrite (In_trow _ _ _ S Hin) in Nj. discriminate.
  - apply (In_trow _ _ _ S') in Hin. rewrite RT in Hin. destruct (Nat.eqb_spec y x_j) as [-> | _].
    + injection Hin as <-. auto.
    + destruct (Nat.eqb y x_i); [discriminate |]. destruct (trow T y) as [l |] eqn:Ty; [| discriminate]. injection Hin as <-.
      rewrite (Other (Hj' (or_intror H))). apply H, trow_In, Ty.
Qed.

(* moving one non-basic variable x and every basic variable by its coefficient of x times the difference *)
Lemma rows_after_move n T rho rho' x :
  wf_tab n T -> sat_rows T rho ->
  (forall y l, trow T y = Some l -> rho' y == rho y + match coef x (lterms l) with Some a => a * (rho' x - rho x) | None => 0 end) ->
  (forall y, y <> x -> trow T y = None -> rho' y == rho y) ->
  sat_rows T rho'.
Proof.
  intros W R Hb Hn y l Hin. destruct W as [S W]. pose proof (In_trow _ _ _ S Hin) as Ty. destruct (W _ _ Hin) as [_ [Sy Vy]].
  rewrite (Hb _ _ Ty), (R _ _ Hin). unfold evalq.
  assert (E : forall ts, (forall v, In v (keys ts) -> In v (lkeys l)) -> ~ In x (keys ts) -> sumq rho' ts == sumq rho ts).
  { intros ts Sub Nin. apply sumq_ext. intros v Hv. apply Hn; [intros -> | apply Vy]; auto. }
  destruct (coef x (lterms l)) as [a |] eqn:C.
  - rewrite (coef_remove rho x _ a C), (coef_remove rho' x _ a C), E; [ring | apply keys_arem | apply arem_notin; exact Sy].
  - rewrite E; [ring | auto | apply alook_none; exact C].
Qed.

Definition vals_ok (s : state) : Prop := forall d, sat_rows (tableau s) (valq d (vals s)).

(* the same in Q_delta components: rational parts satisfy the row, infinitesimal parts its homogeneous part *)
Lemma vals_ok_components s x l :
  vals_ok s -> In (x, l) (tableau s) ->
  fst (vals s x) == evalq (fun v => fst (vals s v)) l /\ snd (vals s x) == sumq (fun v => snd (vals s v)) (lterms l).
Proof.
  intros V Hin. pose proof (V 0 x l Hin) as H0. pose proof (V 1 x l Hin) as H1. unfold valq, qd_at, evalq in *.
  assert (E0 : sumq (fun x0 => fst (vals s x0) + snd (vals s x0) * 0) (lterms l) == sumq (fun v => fst (vals s v)) (lterms l)).
  { apply sumq_ext. intros. ring. }
  assert (E1 : sumq (fun x0 => fst (vals s x0) + snd (vals s x0) * 1) (lterms l) == sumq (fun v => fst (vals s v)) (lterms l) + sumq (fun v => snd (vals s v)) (lterms l)).
  { clear. induction (lterms l) as [| [v c] t IH]; simpl; [ring | rewrite IH; ring]. }
  rewrite E0 in H0. rewrite E1 in H1. split; lra.
Qed.

Lemma vals_ok_update s x_i v :
  wf_tab (nvars s) (tableau s) -> vals_ok s -> trow (tableau s) x_i = None -> vals_ok (update s x_i v).
Proof.
  intros W V Ni d. unfold update; simpl.
  apply (rows_after_move (nvars s) (tableau s) (valq d (vals s)) _ x_i); auto; unfold valq; rewrite ?Nat.eqb_refl.
  - intros y l Ty. destruct (Nat.eqb_spec y x_i) as [-> | _]; [congruence |]. rewrite Ty.
    destruct (coef x_i (lterms l)); [rewrite qd_at_red, qd_at_add, qd_at_scale, qd_at_sub |]; ring.
  - intros y Ny Ty. apply Nat.eqb_neq in Ny. rewrite Ny, Ty. reflexivity.
Qed.

Lemma vals_ok_set_tableau s T : (forall d, sat_rows T (valq d (vals s))) -> vals_ok (set_tableau s T).
Proof. intros H d. simpl. apply H. Qed.

(* pivot_and_update: x_j moves by theta = (v - value of x_i) / a_ij, which puts x_i on v; then the tableau is pivoted *)
Lemma vals_ok_pivot_and_update s x_i x_j v ri aij :
  wf_tab (nvars s) (tableau s) -> vals_ok s -> trow (tableau s) x_i = Some ri -> coef x_j (lterms ri) = Some aij -> ~ aij == 0 ->
  vals_ok (pivot_and_update s x_i x_j v).
Proof.
  intros W V Hi Hj Hz. unfold pivot_and_update. rewrite Hi, Hj.
  match goal with |- vals_ok (pivot (set_vals s ?f) _ _) => set (vl := f) end.
  rewrite (pivot_unfold (set_vals s vl) x_i x_j ri aij) by (simpl; auto).
  apply vals_ok_set_tableau. simpl. intro d.
  apply (pivot_tab_equiv (nvars s) (tableau s) ri x_i x_j aij); auto.
  destruct (wf_tab_row _ _ _ _ W Hi) as [_ [_ Vi]]. destruct (Vi x_j (alook_keys _ _ _ Hj)) as [_ Nj].
  assert (Nji : Nat.eqb x_j x_i = false) by (apply Nat.eqb_neq; congruence).
  assert (Xj : valq d vl x_j - valq d (vals s) x_j == (qd_at d v - valq d (vals s) x_i) / aij).
  { unfold valq, vl. rewrite Nji, Nat.eqb_refl, qd_at_red, qd_at_add, qd_at_div, qd_at_sub by auto. ring. }
  apply (rows_after_move (nvars s) (tableau s) (valq d (vals s)) _ x_j); auto.
  - intros y l Ty. unfold valq at 1. unfold vl at 1. destruct (Nat.eqb_spec y x_i) as [-> | _].
    + assert (l = ri) by congruence. subst l. rewrite Hj, Xj. field. auto.
    + destruct (Nat.eqb_spec y x_j) as [-> | _]; [congruence |]. rewrite Ty.
      destruct (coef x_j (lterms l)); [| unfold valq; ring]. rewrite Xj, qd_at_red, qd_at_add, qd_at_scale, qd_at_div, qd_at_sub by auto. reflexivity.
  - intros y Ny Ty. unfold valq, vl. apply Nat.eqb_neq in Ny. rewrite Ny, Ty.
    destruct (Nat.eqb_spec y x_i) as [-> | _]; [congruence | reflexivity].
Qed.
