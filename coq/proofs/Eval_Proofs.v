(* Proofs about the evaluation model (lang/Eval.v), property C16:
     ev_sound          whatever an expression evaluates to MEANS what the expression denotes: an arithmetic expression
                       evaluates to a well-formed linear expression whose value under every valuation is the exact
                       rational the expression denotes (n-ary - and / folded from the left, * and / by constants);
                       a boolean expression to a formula with the truth-table value of the connectives
                       (-> is "not l or r", != the negation of ==, ^ exactly one)
     ev_const_exact    a constant arithmetic tree evaluates to the constant it denotes, exactly
     assigned_value    a variable constrained to equal a constant expression has exactly the denoted value
   The linear-expression arithmetic is the model of smt/arith/lin.cpp verified in Lin_Proofs.v (C15). *)
From Coq Require Import List String ZArith NArith QArith Bool Lia.
From ORatio Require Import gen.Gen_arith base.RatSpec base.Lin proofs.Rat_Proofs proofs.Lin_Proofs.
From ORatio Require Import lang.Token lang.Lexer lang.Ast lang.Eval proofs.Parser_Proofs.
Import ListNotations.

Lemma int_lit_spec ds : finite (rat_of_int ds) /\ (qval (rat_of_int ds) == lit_int ds)%Q.
Proof.
  unfold rat_of_int, rat_ctor_int, lit_int. split.
  - split; cbn; [lia|apply Z.gcd_1_r].
  - reflexivity.
Qed.

Lemma pow10_pos k : (0 < Z.of_N (10 ^ N.of_nat k))%Z.
Proof. assert (0 < 10 ^ N.of_nat k)%N by (apply N.neq_0_lt_0, N.pow_nonzero; discriminate). lia. Qed.

Lemma real_lit_spec ip dp : finite (rat_of_real ip dp) /\ (qval (rat_of_real ip dp) == lit_real ip dp)%Q.
Proof.
  unfold rat_of_real, lit_real. set (n := Z.of_N (digits_val (ip ++ dp))). set (d := Z.of_N (10 ^ N.of_nat (List.length dp))).
  assert (Hd : (0 < d)%Z) by apply pow10_pos.
  destruct (ctor2_spec n d ltac:(lia)) as [W V].
  apply wf_fin_val; [exact W|]. unfold val_frac in V. destruct (Z.eqb_spec d 0); [lia|].
  replace (n * Z.sgn d)%Z with n in V by (rewrite Z.sgn_pos by lia; lia). rewrite Z.abs_eq in V by lia. exact V.
Qed.

Lemma fold_plus l : forall a, (fold_left Qplus l a == a + fold_left Qplus l 0)%Q.
Proof. induction l as [|x r IH]; intros a; cbn; [ring|]. rewrite IH, (IH (0 + x)%Q). ring. Qed.
Lemma fold_mult l : forall a, (fold_left Qmult l a == a * fold_left Qmult l 1)%Q.
Proof. induction l as [|x r IH]; intros a; cbn; [ring|]. rewrite IH, (IH (1 * x)%Q). ring. Qed.
Lemma fold_minus l : forall a, (fold_left Qminus l a == a - fold_left Qplus l 0)%Q.
Proof. induction l as [|x r IH]; intros a; cbn; [ring|]. rewrite IH, (fold_plus r (0 + x)%Q). ring. Qed.
Lemma fold_div l : forall a, (fold_left Qdiv l a == a / fold_left Qmult l 1)%Q.
Proof.
  induction l as [|x r IH]; intros a; cbn; [unfold Qdiv; rewrite Qinv_1 || idtac; field|].
  rewrite IH, (fold_mult r (1 * x)%Q). unfold Qdiv. rewrite Qinv_mult_distr. ring_simplify.
  setoid_replace (/ (1 * x))%Q with (/ x)%Q by (apply Qinv_comp; ring). ring.
Qed.

Lemma eval_const av k : is_const k = true -> (eval av k == qval (lin_known k))%Q.
Proof. unfold is_const, eval. destruct (lin_vars k); [cbn; intros _; ring|discriminate]. Qed.

Lemma add_fold_spec ls : forall acc, lwf acc -> Forall lwf ls ->
  lwf (fold_left lin_addeq_lin ls acc) /\
  forall av, (eval av (fold_left lin_addeq_lin ls acc) == eval av acc + sum (map (eval av) ls))%Q.
Proof.
  induction ls as [|l r IH]; intros acc Ha HF; cbn [fold_left map].
  - split; [exact Ha|]. intros av. unfold sum; cbn. ring.
  - inversion HF as [|? ? Hl Hr]; subst. destruct (lin_add_lin_spec acc l Ha Hl) as (W & E & _).
    destruct (IH (lin_addeq_lin acc l) W Hr) as [W' E']. split; [exact W'|]. intros av.
    rewrite E', lin_addeq_lin_is_add, E. unfold sum. cbn [fold_left]. rewrite (fold_plus _ (0 + eval av l)%Q). ring.
Qed.

Lemma core_add_spec ls : Forall lwf ls ->
  lwf (core_add ls) /\ forall av, (eval av (core_add ls) == sum (map (eval av) ls))%Q.
Proof.
  intros HF. destruct lin_ctor_spec as (W0 & E0 & _). destruct (add_fold_spec ls lin_ctor W0 HF) as [W E].
  split; [exact W|]. intros av. unfold core_add. rewrite E, E0. ring.
Qed.

Lemma sub_fold_spec ls : forall acc, lwf acc -> Forall lwf ls ->
  lwf (fold_left lin_subeq_lin ls acc) /\
  forall av, (eval av (fold_left lin_subeq_lin ls acc) == fold_left Qminus (map (eval av) ls) (eval av acc))%Q.
Proof.
  induction ls as [|l r IH]; intros acc Ha HF; cbn [fold_left map].
  - split; [exact Ha|]. intros av. reflexivity.
  - inversion HF as [|? ? Hl Hr]; subst. destruct (lin_sub_lin_spec acc l Ha Hl) as (W & E & _).
    destruct (IH (lin_subeq_lin acc l) W Hr) as [W' E']. split; [exact W'|]. intros av.
    rewrite E', !fold_minus, lin_subeq_lin_is_sub, E. reflexivity.
Qed.

Lemma core_sub_spec ls : Forall lwf ls ->
  lwf (core_sub ls) /\ forall av, (eval av (core_sub ls) == lsub (map (eval av) ls))%Q.
Proof.
  intros HF. destruct lin_ctor_spec as (W0 & E0 & _). destruct ls as [|l0 r]; [split; [exact W0|intros av; rewrite E0; reflexivity]|].
  inversion HF as [|? ? H0 Hr]; subst. destruct (lin_add_lin_spec lin_ctor l0 W0 H0) as (W1 & E1 & _).
  destruct (sub_fold_spec r (lin_addeq_lin lin_ctor l0) W1 Hr) as [W E].
  split; [exact W|]. intros av. unfold core_sub, lsub. cbn [map]. rewrite E, !fold_minus, lin_addeq_lin_is_add, E1, E0. ring.
Qed.

Lemma prod_app a b : (prod (a ++ b) == prod a * prod b)%Q.
Proof. unfold prod. rewrite fold_left_app, fold_mult. reflexivity. Qed.
Lemma prod_cons x l : (prod (x :: l) == x * prod l)%Q.
Proof. unfold prod. cbn [fold_left]. rewrite fold_mult. ring. Qed.

Lemma scale_by_spec ks : forall l, lwf l -> Forall lwf ks -> Forall (fun k => is_const k = true) ks ->
  lwf (scale_by l ks) /\ forall av, (eval av (scale_by l ks) == eval av l * prod (map (eval av) ks))%Q.
Proof.
  induction ks as [|k r IH]; intros l Hl HF HC; unfold scale_by; cbn [fold_left map].
  - split; [exact Hl|]. intros av. unfold prod; cbn. ring.
  - inversion HF as [|? ? Hk Hr]; subst. inversion HC as [|? ? Ck Cr]; subst.
    destruct Hk as (_ & _ & Kk). destruct (lin_muleq_rat_spec l (lin_known k) Hl Kk) as (W & E & _).
    destruct (IH _ W Hr Cr) as [W' E']. split; [exact W'|]. intros av. unfold scale_by in E'.
    rewrite (E' av), (E av). cbn [map]. rewrite prod_cons, (eval_const av k Ck). ring.
Qed.

Lemma split_nonconst_spec ls : forall pre x post, split_nonconst ls = Some (pre, x, post) ->
  ls = pre ++ x :: post /\ Forall (fun k => is_const k = true) pre.
Proof.
  induction ls as [|l r IH]; intros pre x post H; cbn in H; [discriminate|].
  destruct (is_const l) eqn:C.
  - destruct (split_nonconst r) as [[[pre' x'] post']|]; [|discriminate]. inversion H; subst.
    destruct (IH _ _ _ eq_refl) as [-> F]. split; [reflexivity|constructor; assumption].
  - inversion H; subst. split; [reflexivity|constructor].
Qed.

Lemma split_nonconst_none ls : split_nonconst ls = None -> Forall (fun k => is_const k = true) ls.
Proof.
  induction ls as [|l r IH]; intros H; cbn in H; [constructor|].
  destruct (is_const l) eqn:C; [|discriminate]. destruct (split_nonconst r) as [[[? ?] ?]|]; [discriminate|].
  constructor; [exact C|apply IH; reflexivity].
Qed.

Lemma forallb_Forall {A} (p : A -> bool) l : forallb p l = true -> Forall (fun x => p x = true) l.
Proof. induction l as [|x r IH]; cbn; intros H; constructor; apply andb_true_iff in H; tauto. Qed.

Lemma core_mult_spec ls l : core_mult ls = Some l -> Forall lwf ls ->
  lwf l /\ forall av, (eval av l == prod (map (eval av) ls))%Q.
Proof.
  unfold core_mult. intros H HF. destruct (split_nonconst ls) as [[[pre x] post]|] eqn:S.
  - destruct (forallb is_const post) eqn:Cp; [|discriminate]. inversion H; subst; clear H.
    destruct (split_nonconst_spec _ _ _ _ S) as [-> Cpre]. apply forallb_Forall in Cp.
    apply Forall_app in HF. destruct HF as [Fpre Fx]. inversion Fx as [|? ? Hx Fpost]; subst.
    destruct (scale_by_spec (pre ++ post) x Hx) as [W E]; [apply Forall_app; tauto|apply Forall_app; tauto|].
    split; [exact W|]. intros av. rewrite E, !map_app, !prod_app. cbn [map]. rewrite prod_cons. ring.
  - destruct ls as [|l0 r]; [discriminate|]. inversion H; subst; clear H.
    apply split_nonconst_none in S. inversion S as [|? ? _ Cr]; subst. inversion HF as [|? ? H0 Hr]; subst.
    destruct (scale_by_spec r l0 H0 Hr Cr) as [W E]. split; [exact W|]. intros av. rewrite E. cbn [map]. rewrite prod_cons. reflexivity.
Qed.

Lemma knowns_prod r : forall c, finite c -> Forall lwf r -> Forall (fun k => is_const k = true) r ->
  finite (fold_left (fun c k => rat_muleq_rat c (lin_known k)) r c) /\
  forall av, (qval (fold_left (fun c k => rat_muleq_rat c (lin_known k)) r c) == qval c * prod (map (eval av) r))%Q.
Proof.
  induction r as [|k r IH]; intros c Hc HF HC; cbn [fold_left map].
  - split; [exact Hc|]. intros av. unfold prod; cbn. ring.
  - inversion HF as [|? ? Hk Hr]; subst. inversion HC as [|? ? Ck Cr]; subst. destruct Hk as (_ & _ & Kk).
    destruct (fin_mul c (lin_known k) Hc Kk) as [F E]. destruct (IH _ F Hr Cr) as [F' E'].
    split; [exact F'|]. intros av. rewrite (E' av), E, prod_cons, (eval_const av k Ck). ring.
Qed.

Lemma Qeq_bool_false a b : Qeq_bool a b = false <-> ~ (a == b)%Q.
Proof. split; [intros H E; apply Qeq_bool_iff in E; congruence|intros H; destruct (Qeq_bool a b) eqn:E; [apply Qeq_bool_iff in E; contradiction|reflexivity]]. Qed.

Lemma prod_nonzero l : ~ (prod l == 0)%Q -> existsb (fun d => Qeq_bool d 0) l = false.
Proof.
  induction l as [|x r IH]; intros H; cbn; [reflexivity|]. rewrite prod_cons in H. apply orb_false_iff. split.
  - apply Qeq_bool_false. intros E. apply H. rewrite E. ring.
  - apply IH. intros E. apply H. rewrite E. ring.
Qed.

Lemma core_div_spec ls l : core_div ls = Some l -> Forall lwf ls ->
  lwf l /\ forall av, exists q, ldiv (map (eval av) ls) = Some q /\ (eval av l == q)%Q.
Proof.
  unfold core_div. intros H HF. destruct ls as [|l0 [|l1 r]]; try discriminate.
  destruct (forallb is_const (l1 :: r)) eqn:C; [|discriminate]. apply forallb_Forall in C.
  set (c := fold_left (fun c k => rat_muleq_rat c (lin_known k)) r (lin_known l1)) in *.
  destruct (Z.eqb_spec (rat_num c) 0) as [|Hn]; [discriminate|]. inversion H; subst; clear H.
  inversion HF as [|? ? H0 HF1]; subst. inversion HF1 as [|? ? H1 Hr]; subst. inversion C as [|? ? C1 Cr]; subst.
  destruct H1 as (S1 & F1 & K1).
  destruct (knowns_prod r (lin_known l1) K1 Hr Cr) as [Fc Ec]. fold c in Fc, Ec.
  destruct (lin_div_rat_spec l0 c H0 Fc Hn) as (W & E & _). split; [exact W|]. intros av.
  assert (Hp : (qval c == prod (map (eval av) (l1 :: r)))%Q).
  { rewrite Ec. cbn [map]. rewrite prod_cons, (eval_const av l1 C1). reflexivity. }
  assert (Hnz : ~ (prod (map (eval av) (l1 :: r)) == 0)%Q).
  { rewrite <- Hp. intros Z0. apply (fin_num_zero c Fc) in Z0. contradiction. }
  exists (fold_left Qdiv (map (eval av) (l1 :: r)) (eval av l0)). split.
  - cbn [map ldiv]. change (eval av l1 :: map (eval av) r) with (map (eval av) (l1 :: r)). rewrite (prod_nonzero _ Hnz). reflexivity.
  - rewrite E, fold_div, Hp. reflexivity.
Qed.

Definition vmatch (bv : N -> bool) (av : var -> Q) (v : value) (d : dval) : Prop :=
  match v, d with
  | VArith l, DQ q => lwf l /\ (eval av l == q)%Q
  | VBool f, DB b => beval bv av f = b
  | VStr s, DS t => s = t
  | _, _ => False
  end.
Definition env_wf (rho : env) : Prop := forall q l, rho q = Some (VArith l) -> lwf l.

Lemma rel_holds_compat r a a' b b' : (a == a')%Q -> (b == b')%Q -> rel_holds r a b = rel_holds r a' b'.
Proof. intros Ha Hb. destruct r; unfold rel_holds, Qltb; rewrite Ha, Hb; reflexivity. Qed.

(* what e evaluates to means what e denotes *)
Definition ev_means bv av (rho : env) (e : expr) : Prop :=
  forall v, ev rho e = Some v -> exists d, den bv av rho e = Some d /\ vmatch bv av v d.

Lemma ariths_sound bv av rho es ls :
  Forall (ev_means bv av rho) es ->
  ariths (map (ev rho) es) = Some ls ->
  exists qs_, qs (map (den bv av rho) es) = Some qs_ /\ Forall lwf ls /\ Forall2 (fun l q => (eval av l == q)%Q) ls qs_.
Proof.
  intros HF. revert ls. induction HF as [|e r He _ IH]; intros ls H; cbn in H.
  - inversion H; subst. exists []. repeat split; constructor.
  - unfold ariths in H. cbn [map all_some] in H. destruct (ev rho e) as [v|] eqn:Ev; [|discriminate].
    destruct (as_arith v) as [l|] eqn:Ea; [|discriminate]. destruct v; try discriminate. cbn in Ea. inversion Ea; subst.
    destruct (all_some _) as [ls'|] eqn:Er; [|discriminate]. inversion H; subst.
    destruct (He _ Ev) as (d & Hd & Hm). destruct d; cbn in Hm; try contradiction. destruct Hm as [Wl El].
    destruct (IH ls' Er) as (qs' & Hq & Wf & F2). exists (q :: qs'). unfold qs in *. cbn [map all_some]. rewrite Hd. cbn [dq]. rewrite Hq.
    repeat split; constructor; assumption.
Qed.

Lemma bools_sound bv av rho es fs :
  Forall (ev_means bv av rho) es ->
  bools (map (ev rho) es) = Some fs ->
  bs (map (den bv av rho) es) = Some (map (beval bv av) fs).
Proof.
  intros HF. revert fs. induction HF as [|e r He _ IH]; intros fs H; cbn in H.
  - inversion H; subst. reflexivity.
  - unfold bools in H. cbn [map all_some] in H. destruct (ev rho e) as [v|] eqn:Ev; [|discriminate].
    destruct (as_bool v) as [f|] eqn:Ea; [|discriminate]. destruct v; try discriminate. cbn in Ea. inversion Ea; subst.
    destruct (all_some _) as [fs'|] eqn:Er; [|discriminate]. inversion H; subst.
    destruct (He _ Ev) as (d & Hd & Hm). destruct d; cbn in Hm; try contradiction. subst b.
    unfold bs in *. cbn [map all_some]. rewrite Hd. cbn [db]. rewrite (IH fs' Er). reflexivity.
Qed.

Lemma Forall2_map_eval av ls qs_ : Forall2 (fun l q => (eval av l == q)%Q) ls qs_ ->
  (sum (map (eval av) ls) == sum qs_)%Q /\ (lsub (map (eval av) ls) == lsub qs_)%Q /\ (prod (map (eval av) ls) == prod qs_)%Q.
Proof.
  induction 1 as [|l q ls' qs' E _ IH]; [repeat split; reflexivity|]. destruct IH as (I1 & I2 & I3). cbn [map]. repeat split.
  - unfold sum in *. cbn [fold_left]. rewrite (fold_plus _ (0 + eval av l)%Q), (fold_plus _ (0 + q)%Q), I1, E. reflexivity.
  - unfold lsub. rewrite !fold_minus. unfold sum in I1. rewrite I1, E. reflexivity.
  - rewrite !prod_cons, I3, E. reflexivity.
Qed.

Lemma Forall2_ldiv av ls qs_ q : Forall2 (fun l q => (eval av l == q)%Q) ls qs_ -> ldiv (map (eval av) ls) = Some q ->
  exists q', ldiv qs_ = Some q' /\ (q == q')%Q.
Proof.
  intros F H. destruct F as [|l0 q0 ls' qs' E0 F]; [discriminate|]. cbn [map ldiv] in *.
  destruct (existsb _ (map (eval av) ls')) eqn:Ex; [discriminate|]. inversion H; subst; clear H.
  assert (Ex' : existsb (fun d => Qeq_bool d 0) qs' = false).
  { clear E0. induction F as [|l q ls'' qs'' E _ IH]; [reflexivity|]. cbn in *. apply orb_false_iff in Ex. destruct Ex as [X1 X2].
    apply orb_false_iff. split; [rewrite <- E; exact X1|apply IH; exact X2]. }
  rewrite Ex'. eexists. split; [reflexivity|]. rewrite !fold_div, E0.
  destruct (Forall2_map_eval av ls' qs' F) as (_ & _ & P). unfold prod in P. rewrite P. reflexivity.
Qed.

Lemma existsb_map {A} (f : A -> bool) l : existsb (fun b => b) (map f l) = existsb f l.
Proof. induction l; cbn; congruence. Qed.
Lemma forallb_map {A} (f : A -> bool) l : forallb (fun b => b) (map f l) = forallb f l.
Proof. induction l; cbn; congruence. Qed.

(* core::exct_one: the disjunction of "this one and none of the others" holds iff exactly one operand holds *)
Lemma forallb_negb_count bs_ : forallb negb bs_ = Nat.eqb (count_true bs_) 0.
Proof. induction bs_ as [|b r IH]; [reflexivity|]. destruct b; cbn; [reflexivity|exact IH]. Qed.

Lemma all_not_truth bv av l : forallb (beval bv av) (map FNot l) = forallb negb (map (beval bv av) l).
Proof. induction l as [|x r IH]; cbn; [reflexivity|]. rewrite IH. reflexivity. Qed.

Lemma xor_cases_truth bv av post : forall pre,
  existsb (beval bv av) (xor_cases pre post) =
  forallb negb (map (beval bv av) pre) && Nat.eqb (count_true (map (beval bv av) post)) 1.
Proof.
  induction post as [|x r IH]; intros pre; cbn [xor_cases existsb map].
  - rewrite andb_false_r. reflexivity.
  - rewrite IH. cbn [beval]. rewrite forallb_app. cbn [forallb]. rewrite !all_not_truth.
    rewrite map_app, forallb_app. cbn [map forallb]. rewrite andb_true_r, (forallb_negb_count (map (beval bv av) r)).
    destruct (forallb negb (map (beval bv av) pre)); cbn [andb orb]; [|reflexivity].
    unfold count_true. cbn [filter]. destruct (beval bv av x); cbn [negb andb orb List.length].
    + fold (count_true (map (beval bv av) r)). destruct (count_true (map (beval bv av) r)) as [|[|n]]; reflexivity.
    + reflexivity.
Qed.

Lemma exct_one_truth bv av fs : beval bv av (core_exct_one fs) = Nat.eqb (count_true (map (beval bv av) fs)) 1.
Proof. unfold core_exct_one. cbn [beval]. rewrite xor_cases_truth. reflexivity. Qed.

(* `l < r | l > r` is the negation of `l == r` *)
Lemma lt_or_gt_neq a b : Qltb a b || Qltb b a = negb (Qeq_bool a b).
Proof.
  unfold Qltb. destruct (Qeq_bool a b) eqn:E.
  - apply Qeq_bool_iff in E. assert (L1 : Qle_bool b a = true) by (apply Qle_bool_iff; rewrite E; apply Qle_refl).
    assert (L2 : Qle_bool a b = true) by (apply Qle_bool_iff; rewrite E; apply Qle_refl). rewrite L1, L2. reflexivity.
  - destruct (Qle_bool b a) eqn:L1, (Qle_bool a b) eqn:L2; try reflexivity.
    apply Qle_bool_iff in L1. apply Qle_bool_iff in L2. assert (a == b)%Q by (apply Qle_antisym; assumption).
    apply Qeq_bool_iff in H. congruence.
Qed.

(* the four order relations are evaluated, and denote, alike *)
Lemma ev_rel rho o rl l r : rel_of o = Some rl ->
  ev rho (EBin o l r) = match ev rho l, ev rho r with Some (VArith a), Some (VArith b) => Some (VBool (FRel rl a b)) | _, _ => None end.
Proof. destruct o; try discriminate; intros [= <-]; reflexivity. Qed.
Lemma den_rel bv av rho o rl l r : rel_of o = Some rl ->
  den bv av rho (EBin o l r) = match den bv av rho l, den bv av rho r with Some (DQ a), Some (DQ b) => Some (DB (rel_holds rl a b)) | _, _ => None end.
Proof. destruct o; try discriminate; intros [= <-]; reflexivity. Qed.

Theorem ev_sound bv av rho : env_wf rho -> forall e v, ev rho e = Some v ->
  exists d, den bv av rho e = Some d /\ vmatch bv av v d.
Proof.
  intros Hrho. induction e using expr_ind'; intros v Hev; cbn [ev] in Hev.
  - inversion Hev; subst. eexists. split; [reflexivity|reflexivity].
  - inversion Hev; subst. eexists. split; [reflexivity|]. cbn. destruct (int_lit_spec ds) as [F E].
    destruct (lin_ctor_rat_spec _ F) as (W & Ev & _). split; [exact W|]. rewrite Ev. exact E.
  - inversion Hev; subst. eexists. split; [reflexivity|]. cbn. destruct (real_lit_spec ip dp) as [F E].
    destruct (lin_ctor_rat_spec _ F) as (W & Ev & _). split; [exact W|]. rewrite Ev. exact E.
  - inversion Hev; subst. eexists. split; [reflexivity|reflexivity].
  - (* cast *) cbn [den]. apply IHe. exact Hev.
  - (* unary *)
    destruct o; cbn [den].
    + apply IHe. exact Hev.
    + destruct (ev rho e) as [[l| |]|] eqn:Ee; try discriminate. inversion Hev; subst.
      destruct (IHe _ eq_refl) as (d & Hd & Hm). destruct d; cbn in Hm; try contradiction. destruct Hm as [W E].
      rewrite Hd. eexists. split; [reflexivity|]. cbn. destruct (lin_neg_spec l W) as (W' & E' & _). split; [exact W'|].
      unfold core_minus. rewrite E', E. reflexivity.
    + destruct (ev rho e) as [[| f|]|] eqn:Ee; try discriminate. inversion Hev; subst.
      destruct (IHe _ eq_refl) as (d & Hd & Hm). destruct d; cbn in Hm; try contradiction. subst.
      rewrite Hd. eexists. split; reflexivity.
  - discriminate.
  - (* binary *)
    change (ev rho (EBin o e1 e2) = Some v) in Hev.
    assert (Heq : forall a b f, ev rho e1 = Some a -> ev rho e2 = Some b -> core_eq a b = Some f ->
              exists da db_ t, den bv av rho e1 = Some da /\ den bv av rho e2 = Some db_ /\ deq da db_ = Some t /\ beval bv av f = t).
    { intros a b f Ha Hb Hf. destruct (IHe1 _ Ha) as (da & Hda & Ma). destruct (IHe2 _ Hb) as (db_ & Hdb & Mb).
      exists da, db_. destruct a, b; cbn in Hf; try discriminate; inversion Hf; subst;
        destruct da, db_; cbn in Ma, Mb; try contradiction; eexists; repeat split; try eassumption; cbn.
      - destruct Ma as [_ Ea], Mb as [_ Eb]. rewrite Ea, Eb. reflexivity.
      - subst. reflexivity.
      - subst. reflexivity. }
    destruct (rel_of o) as [rl|] eqn:Er.
    { rewrite (den_rel _ _ _ _ _ _ _ Er). rewrite (ev_rel _ _ _ _ _ Er) in Hev.
      destruct (ev rho e1) as [[a| |]|] eqn:E1; try discriminate. destruct (ev rho e2) as [[b| |]|] eqn:E2; try discriminate.
      inversion Hev; subst. destruct (IHe1 _ eq_refl) as (da & -> & Ma). destruct (IHe2 _ eq_refl) as (db_ & -> & Mb).
      destruct da, db_; cbn in Ma, Mb; try contradiction. destruct Ma as [_ Ea], Mb as [_ Eb].
      eexists. split; [reflexivity|]. cbn [vmatch beval]. apply rel_holds_compat; assumption. }
    destruct o; try discriminate Er; cbn [ev den] in *.
    + destruct (ev rho e1) as [a|] eqn:E1; [|discriminate]. destruct (ev rho e2) as [b|] eqn:E2; [|discriminate].
      destruct (core_eq a b) as [f|] eqn:Ef; [|discriminate]. inversion Hev; subst.
      destruct (Heq _ _ _ eq_refl eq_refl Ef) as (da & db_ & t & -> & -> & -> & Ht). eexists. split; [reflexivity|exact Ht].
    + destruct (ev rho e1) as [a|] eqn:E1; [|discriminate]. destruct (ev rho e2) as [b|] eqn:E2; [|destruct a; discriminate].
      assert (Hgen : forall f, core_eq a b = Some f -> exists d, match den bv av rho e1, den bv av rho e2 with
                | Some a0, Some b0 => match deq a0 b0 with Some t => Some (DB (negb t)) | None => None end | _, _ => None end = Some d
                /\ vmatch bv av (VBool (FNot f)) d).
      { intros f Ef. destruct (Heq _ _ _ eq_refl eq_refl Ef) as (da & db_ & t & -> & -> & -> & Ht). eexists. split; [reflexivity|]. cbn. rewrite Ht. reflexivity. }
      destruct a as [la|fa|sa], b as [lb|fb|sb]; cbn [core_eq] in Hev, Hgen; try discriminate Hev;
        try (inversion Hev; subst; apply Hgen; reflexivity).
      inversion Hev; subst. destruct (Heq _ _ _ eq_refl eq_refl eq_refl) as (da & db_ & t & -> & -> & -> & Ht).
      eexists. split; [reflexivity|]. cbn [vmatch beval existsb] in *. cbn [beval rel_holds] in Ht. rewrite orb_false_r, <- Ht.
      apply lt_or_gt_neq.
    + destruct (ev rho e1) as [[| a|]|] eqn:E1; try discriminate. destruct (ev rho e2) as [[| b|]|] eqn:E2; try discriminate.
      inversion Hev; subst. destruct (IHe1 _ eq_refl) as (da & -> & Ma). destruct (IHe2 _ eq_refl) as (db_ & -> & Mb).
      destruct da, db_; cbn in Ma, Mb; try contradiction. subst.
      eexists. split; [reflexivity|]. cbn. destruct (beval bv av a), (beval bv av b); reflexivity.
  - discriminate.
  - (* identifier *)
    cbn [den]. unfold denv. rewrite Hev. destruct v; eexists; (split; [reflexivity|]); cbn; try reflexivity.
    split; [eapply Hrho; exact Hev|reflexivity].
  - (* n-ary *)
    destruct o; cbn [den].
    + destruct (bools (map (ev rho) es)) as [fs|] eqn:Eb; [|discriminate]. inversion Hev; subst.
      rewrite (bools_sound bv av rho es fs H Eb). eexists. split; [reflexivity|]. cbn. rewrite existsb_map. reflexivity.
    + destruct (bools (map (ev rho) es)) as [fs|] eqn:Eb; [|discriminate]. inversion Hev; subst.
      rewrite (bools_sound bv av rho es fs H Eb). eexists. split; [reflexivity|]. cbn. rewrite forallb_map. reflexivity.
    + destruct (bools (map (ev rho) es)) as [fs|] eqn:Eb; [|discriminate]. inversion Hev; subst.
      rewrite (bools_sound bv av rho es fs H Eb). eexists. split; [reflexivity|]. cbn [vmatch]. apply exct_one_truth.
    + destruct (ariths (map (ev rho) es)) as [ls|] eqn:Ea; [|discriminate]. inversion Hev; subst.
      destruct (ariths_sound bv av rho es ls H Ea) as (qs_ & -> & Wf & F2). eexists. split; [reflexivity|]. cbn.
      destruct (core_add_spec ls Wf) as [W E]. split; [exact W|]. rewrite E. apply (Forall2_map_eval av ls qs_ F2).
    + destruct (ariths (map (ev rho) es)) as [ls|] eqn:Ea; [|discriminate]. inversion Hev; subst.
      destruct (ariths_sound bv av rho es ls H Ea) as (qs_ & -> & Wf & F2). eexists. split; [reflexivity|]. cbn.
      destruct (core_sub_spec ls Wf) as [W E]. split; [exact W|]. rewrite E. apply (Forall2_map_eval av ls qs_ F2).
    + destruct (ariths (map (ev rho) es)) as [ls|] eqn:Ea; [|discriminate].
      destruct (core_mult ls) as [l|] eqn:Em; [|discriminate]. inversion Hev; subst.
      destruct (ariths_sound bv av rho es ls H Ea) as (qs_ & -> & Wf & F2). eexists. split; [reflexivity|]. cbn.
      destruct (core_mult_spec ls l Em Wf) as [W E]. split; [exact W|]. rewrite E. apply (Forall2_map_eval av ls qs_ F2).
    + destruct (ariths (map (ev rho) es)) as [ls|] eqn:Ea; [|discriminate].
      destruct (core_div ls) as [l|] eqn:Em; [|discriminate]. inversion Hev; subst.
      destruct (ariths_sound bv av rho es ls H Ea) as (qs_ & -> & Wf & F2).
      destruct (core_div_spec ls l Em Wf) as [W E]. destruct (E av) as (q & Hq & Eq).
      destruct (Forall2_ldiv av ls qs_ q F2 Hq) as (q' & -> & Eq'). eexists. split; [reflexivity|]. cbn.
      split; [exact W|]. rewrite Eq. exact Eq'.
Qed.

Definition no_env : env := fun _ => None.

Lemma all_some_ext {A B} (f g : A -> option B) l : Forall (fun x => f x = g x) l -> all_some (map f l) = all_some (map g l).
Proof. induction 1 as [|x r E _ IH]; cbn; [reflexivity|]. rewrite E, IH. reflexivity. Qed.

Lemma den_no_env bv av bv' av' e : den bv av no_env e = den bv' av' no_env e.
Proof.
  induction e using expr_ind'; cbn [den]; try reflexivity.
  - exact IHe.
  - destruct o; rewrite IHe; reflexivity.
  - rewrite IHe1, IHe2. reflexivity.
  - assert (Eq : qs (map (den bv av no_env) es) = qs (map (den bv' av' no_env) es)).
    { unfold qs. rewrite !map_map. apply all_some_ext. eapply Forall_impl; [|exact H]. cbn beta. intros a Ha. rewrite Ha. reflexivity. }
    assert (Eb : bs (map (den bv av no_env) es) = bs (map (den bv' av' no_env) es)).
    { unfold bs. rewrite !map_map. apply all_some_ext. eapply Forall_impl; [|exact H]. cbn beta. intros a Ha. rewrite Ha. reflexivity. }
    destruct o; rewrite ?Eq, ?Eb; reflexivity.
Qed.

(* a constant arithmetic tree evaluates to an expression whose value, under EVERY valuation, is the rational it denotes *)
Theorem ev_const_exact e l : ev no_env e = Some (VArith l) ->
  exists q, (forall bv av, den bv av no_env e = Some (DQ q)) /\ lwf l /\ forall av, (eval av l == q)%Q.
Proof.
  intros H. assert (Hw : env_wf no_env) by (intros q0 l0 E; discriminate E).
  destruct (ev_sound (fun _ => false) (fun _ => 0%Q) no_env Hw e _ H) as (d & Hd & Hm).
  destruct d as [q| |]; cbn in Hm; try contradiction. exists q. split; [|split; [tauto|]].
  - intros bv av. rewrite (den_no_env bv av (fun _ => false) (fun _ => 0%Q)). exact Hd.
  - intros av. destruct (ev_sound (fun _ => false) av no_env Hw e _ H) as (d' & Hd' & Hm').
    rewrite (den_no_env _ av (fun _ => false) (fun _ => 0%Q)) in Hd'. rewrite Hd in Hd'. inversion Hd'; subst. cbn in Hm'. tauto.
Qed.

(* "a variable constrained to equal a constant expression receives exactly the value that expression denotes":
   in every valuation satisfying the asserted equality  v == e  the variable has the denoted value *)
Theorem assigned_value e l v : ev no_env e = Some (VArith l) ->
  exists q, (forall bv av, den bv av no_env e = Some (DQ q)) /\
            forall bv av, beval bv av (FRel REq (lin_ctor_var v rat_ONE) l) = true -> (av v == q)%Q.
Proof.
  intros H. destruct (ev_const_exact e l H) as (q & Hd & _ & He). exists q. split; [exact Hd|].
  intros bv av Hb. cbn [beval rel_holds] in Hb. apply Qeq_bool_iff in Hb. rewrite He in Hb.
  assert (F1 : finite rat_ONE) by (split; cbn; [lia|reflexivity]).
  destruct (lin_ctor_var_spec v rat_ONE F1) as (_ & E & _). rewrite E in Hb. rewrite <- Hb.
  change (qval rat_ONE) with (1 # 1)%Q. ring.
Qed.

Lemma impl_truth bv av a b : beval bv av (FOr [FNot a; b]) = implb (beval bv av a) (beval bv av b).
Proof. cbn. destruct (beval bv av a), (beval bv av b); reflexivity. Qed.
Lemma xor_truth bv av fs : beval bv av (core_exct_one fs) = true <-> count_true (map (beval bv av) fs) = 1%nat.
Proof. rewrite exct_one_truth. apply Nat.eqb_eq. Qed.
Lemma sub_left_assoc a b c : lsub [a; b; c] = (a - b - c)%Q.  Proof. reflexivity. Qed.
Lemma div_left_assoc a b c : ~ (b == 0)%Q -> ~ (c == 0)%Q -> ldiv [a; b; c] = Some (a / b / c)%Q.
Proof. intros Hb Hc. cbn. apply Qeq_bool_false in Hb. apply Qeq_bool_false in Hc. rewrite Hb, Hc. reflexivity. Qed.

Definition ex_r (a b : String.string) := EReal (la a) (la b).
Definition ex_i (a : String.string) := EInt (la a).
(* (3.0 + 1.0) * 2.0 - 7 / 2 - 1  =  7/2 ;   8 / 2 / 2 = 2 ;   3 - 2 - 1 = 0 *)
Example ev_example :
  ev no_env (ENary NSub [ENary NMul [ENary NAdd [ex_r "3" "0"; ex_r "1" "0"]; ex_r "2" "0"]; ENary NDiv [ex_i "7"; ex_i "2"]; ex_i "1"])
    = Some (VArith (mk_lin [] (mk_rat 7 2))) /\
  ev no_env (ENary NDiv [ex_i "8"; ex_i "2"; ex_i "2"]) = Some (VArith (mk_lin [] (mk_rat 2 1))) /\
  ev no_env (ENary NSub [ex_i "3"; ex_i "2"; ex_i "1"]) = Some (VArith (mk_lin [] (mk_rat 0 1))) /\
  ev no_env (ENary NDiv [ex_i "1"; ex_i "0"]) = None.
Proof. vm_compute. repeat split; reflexivity. Qed.
