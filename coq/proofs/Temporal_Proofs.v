(* C06: (i) soundness of check_temporal; (ii) from the GENERATED INIT_STRING (gen/Gen_init.v): an atom to which the
   Interval (Impulse) rule has been applied is temporally well-formed; (iii) the rule is applied to every fact of
   an interval / impulse predicate (model of the smart types' new_atom in plan/Temporal.v; nothing here is about goals). *)
From Coq Require Import List QArith Lqa.
From ORatio Require Import plan.Ast plan.Sem plan.Check gen.Gen_init plan.Temporal proofs.Check_Proofs.
Import ListNotations.

Section Sound.
  Variable prog : program.
  Variable sol : solution.

  Lemma get_num_sound : forall e x q, get_num sol e x = Some q -> num_of sol e x q.
  Proof.
    intros e x q H. unfold get_num in H. unfold num_of.
    destruct (own sol e x) as [[ | p | | | ]|]; try discriminate. inversion H. reflexivity.
  Qed.

  Lemma interval_okb_sound : forall a, interval_okb sol a = true -> interval_ok sol a.
  Proof.
    intros a H. unfold interval_okb in H.
    destruct (get_num sol id_core id_origin) as [o|] eqn:Eo; [|discriminate].
    destruct (get_num sol id_core id_horizon) as [h|] eqn:Eh; [|discriminate].
    destruct (get_num sol a id_start) as [s|] eqn:Es; [|discriminate].
    destruct (get_num sol a id_end) as [e|] eqn:Ee; [|discriminate].
    destruct (get_num sol a id_duration) as [d|] eqn:Ed; [|discriminate].
    apply andb_true_iff in H as [H H5]. apply andb_true_iff in H as [H H4].
    apply andb_true_iff in H as [H H3]. apply andb_true_iff in H as [H1 H2].
    exists o, h, s, e, d. repeat (split; [apply get_num_sound; assumption|]).
    split; [apply qd_leb_iff; exact H1|]. split; [apply qd_leb_iff; exact H2|]. split; [apply qd_leb_iff; exact H3|].
    split; [apply qd_eqb_iff; exact H4 | apply qd_leb_iff; exact H5].
  Qed.

  Lemma impulse_okb_sound : forall a, impulse_okb sol a = true -> impulse_ok sol a.
  Proof.
    intros a H. unfold impulse_okb in H.
    destruct (get_num sol id_core id_origin) as [o|] eqn:Eo; [|discriminate].
    destruct (get_num sol id_core id_horizon) as [h|] eqn:Eh; [|discriminate].
    destruct (get_num sol a id_at) as [t|] eqn:Et; [|discriminate].
    apply andb_true_iff in H as [H1 H2].
    exists o, h, t. repeat (split; [apply get_num_sound; assumption|]). split; apply qd_leb_iff; assumption.
  Qed.

  (* C06: soundness of the checker, for every program and every solution *)
  Theorem check_temporal_sound : check_temporal prog sol = true -> temporal prog sol.
  Proof.
    intros H ar Hin Hact. unfold check_temporal in H. rewrite forallb_forall in H. specialize (H ar Hin).
    unfold is_active in H. rewrite Hact in H.
    destruct (rule_chain (pfuel prog) prog (a_pred ar)) as [ch|] eqn:Ech; [|discriminate].
    assert (Hmem : forall q, PSub prog (a_pred ar) q -> mem q (map pd_name ch) = true).
    { intros q HP. apply mem_In. exact (rule_chain_complete _ _ _ HP _ _ Ech). }
    apply andb_true_iff in H as [H1 H2]. split; intros HP; rewrite (Hmem _ HP) in *.
    - apply interval_okb_sound. exact H1.
    - apply impulse_okb_sound. exact H2.
  Qed.
End Sound.

Definition init_pred (p : ident) : option pred_decl := find (fun d => N.eqb (pd_name d) p) init_preds.

Lemma eval_id1 : forall sol e x q, lookup sol e x = Some (VNum q) -> eval sol e (EId [x]) = Some (VNum q).
Proof. intros sol e x q H. simpl. unfold eval_path. rewrite H. reflexivity. Qed.

Lemma qd_le_of_sub : forall s e d, qd_eq d (qd_sub e s) -> qd_le qd_zero d -> qd_le s e.
Proof.
  intros [s1 s2] [e1 e2] [d1 d2] [H1 H2] [H | [H3 H4]]; unfold qd_le, qd_sub, qd_zero in *; simpl in *.
  - left. lra.
  - right. split; lra.
Qed.

(* In the three theorems below the statements of INIT_STRING are taken by position; `id_start` and the numeral it abbreviates
   are identified by conversion when holds_cmp_num is applied. *)
Section InitRules.
  Variable sol : solution.
  Variable re : ident.             (* the environment in which the rule body has been executed *)
  Variables o h : qd.
  Hypothesis Horigin : lookup sol re id_origin = Some (VNum o).
  Hypothesis Hhorizon : lookup sol re id_horizon = Some (VNum h).

  Theorem interval_rule_wellformed : forall prog pd s e d,
    init_pred id_Interval = Some pd ->
    lookup sol re id_start = Some (VNum s) -> lookup sol re id_end = Some (VNum e) -> lookup sol re id_duration = Some (VNum d) ->
    sat_list prog sol (pd_body pd) re ->
    qd_le o s /\ qd_le s e /\ qd_le e h /\ qd_eq d (qd_sub e s) /\ qd_le qd_zero d.
  Proof.
    intros prog pd s e d Hpd Hs He Hd Hsat. injection Hpd as <-. destruct Hsat as [C1 [C2 [C3 [C4 _]]]].
    apply eval_id1 in Hs, He, Hd.
    (* start >= origin, end <= horizon, duration >= 0 *)
    pose proof (holds_cmp_num _ _ CGe _ _ _ _ Hs (eval_id1 _ _ _ _ Horigin) C1) as L1.
    pose proof (holds_cmp_num _ _ CLe _ _ _ _ He (eval_id1 _ _ _ _ Hhorizon) C2) as L2.
    pose proof (holds_cmp_num _ _ CGe _ (ENum 0) _ qd_zero Hd eq_refl C4) as L4.
    (* duration == end - start *)
    assert (E3 : eval sol re (ESub [EId [id_end]; EId [id_start]]) = Some (VNum (qd_sub e s))).
    { cbn [eval nums_of]. cbn [eval] in He, Hs. rewrite He, Hs. reflexivity. }
    destruct (holds_eq_num _ _ _ _ _ C3 Hd) as [q3 [B3 L3]]. rewrite E3 in B3. injection B3 as <-.
    split; [exact L1|]. split; [exact (qd_le_of_sub _ _ _ L3 L4)|]. split; [exact L2|]. split; [exact L3 | exact L4].
  Qed.

  Theorem impulse_rule_wellformed : forall prog pd t,
    init_pred id_Impulse = Some pd ->
    lookup sol re id_at = Some (VNum t) ->
    sat_list prog sol (pd_body pd) re ->
    qd_le o t /\ qd_le t h.
  Proof.
    intros prog pd t Hpd Ht Hsat. injection Hpd as <-. destruct Hsat as [C1 [C2 _]].
    apply eval_id1 in Ht.
    split; [exact (holds_cmp_num _ _ CGe _ _ _ _ Ht (eval_id1 _ _ _ _ Horigin) C1)
           | exact (holds_cmp_num _ _ CLe _ _ _ _ Ht (eval_id1 _ _ _ _ Hhorizon) C2)].
  Qed.
End InitRules.

(* origin and horizon themselves: 0 <= origin <= horizon (top-level statements of INIT_STRING) *)
Theorem init_main_wellformed : forall prog sol o h,
  lookup sol id_core id_origin = Some (VNum o) -> lookup sol id_core id_horizon = Some (VNum h) ->
  sat_list prog sol init_main id_core -> qd_le qd_zero o /\ qd_le o h.
Proof.
  intros prog sol o h Ho Hh [_ [_ [C1 [C2 _]]]]. apply eval_id1 in Ho, Hh.
  split; [exact (holds_cmp_num _ _ CGe _ (ENum 0) _ qd_zero Ho eq_refl C1) | exact (holds_cmp_num _ _ CLe _ _ _ _ Ho Hh C2)].
Qed.

Lemma fact_rules_interval : forall prog pd names,
  In id_Interval names ->
  In id_Interval (fact_rules prog pd names) \/ In id_Use (fact_rules prog pd names).
Proof.
  intros prog pd names Hi. unfold fact_rules. apply mem_In in Hi. rewrite Hi.
  destruct (owner_kind_of prog pd); [left | right | left | left]; apply in_or_app; right; left; reflexivity.
Qed.

Lemma fact_rules_impulse : forall prog pd names,
  In id_Impulse names -> In id_Impulse (fact_rules prog pd names).
Proof.
  intros prog pd names Hi. unfold fact_rules. apply mem_In in Hi. rewrite Hi.
  destruct (owner_kind_of prog pd); left; reflexivity.
Qed.

(* the rule of Use (hand model of reusable_resource::use_predicate) extends Interval: its chain contains Interval *)
Lemma use_chain_has_interval : forall u fuel ch,
  rule_chain fuel (full_program u) id_Use = Some ch -> In id_Interval (map pd_name ch).
Proof.
  intros u fuel ch H. eapply rule_chain_complete; [|exact H].
  (* the lookup of Use stops in builtin_preds, before the user's predicates; Interval is its first super-predicate *)
  eapply PSub_step; [reflexivity | left; reflexivity | apply PSub_refl].
Qed.

(* a fact of a PLAIN predicate (global scope or a class that is no smart type) that reaches both Impulse and Interval gets BOTH
   rules (solver::new_atom: two independent tests), the Impulse one first *)
Lemma fact_rules_plain_both : forall prog pd names,
  owner_kind_of prog pd = OwnPlain -> In id_Impulse names -> In id_Interval names ->
  fact_rules prog pd names = [id_Impulse; id_Interval].
Proof.
  intros prog pd names Hk Hi Hv. unfold fact_rules. rewrite Hk.
  apply mem_In in Hi. apply mem_In in Hv. rewrite Hi, Hv. reflexivity.
Qed.
