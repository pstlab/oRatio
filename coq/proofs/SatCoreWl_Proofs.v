(* The two-watched-literal discipline of sat_core (clause.cpp / sat_core::propagate), as an invariant of the model:
   STRUCTURE  every attached clause has at least two literals over distinct variables and sits exactly in the two
              watch lists of the negations of its first two literals, once in each; every live clause is attached;
   MEANING    if a watched literal is false and its falsification has already been propagated through this clause, then
              the other watched literal is true and was assigned at a level not above it.
   "Already propagated" is made precise by the exemptions: literals still in the queue, and - for the clauses not yet
   visited - the literal currently being propagated ([pd]).  Inside conflict analysis only the levels below the
   current one are covered ([WL L] with L = decision level - 1). *)
From Coq Require Import List Arith Bool ZArith Lia Permutation Sorted.
From ORatio Require Import smt.SatCoreBase smt.SatCoreSpec smt.SatCore proofs.SatCoreBase_Proofs proofs.SatCoreInv_Proofs
  proofs.SatCorePrim_Proofs proofs.SatCoreStep_Proofs proofs.SatCoreAnalyze_Proofs.
Import ListNotations.

Section Wl.
  Context {TS : Type}.
  Variable T : asg -> Prop.
  Notation state := (@state TS).
  Notation lvl := (@lvl TS).

  Definition pending := option (lit * list nat).
  (* the watch list of index i, including the detached tail of the list being traversed *)
  Definition vw (s : state) (pd : pending) (i : nat) : list nat :=
    nth i (watches s) [] ++
    match pd with Some (p, rest) => if Nat.eqb i (index p) then rest else [] | None => [] end.
  Definition attached (s : state) (pd : pending) (c : nat) : Prop := exists i, In c (vw s pd i).
  (* the falsification of w has not yet been propagated through clause c *)
  Definition exempt (s : state) (pd : pending) (w : lit) (c : nat) : Prop :=
    In (lneg w) (prop_q s) \/ exists rest, pd = Some (lneg w, rest) /\ In c rest.

  Definition watch_ok (s : state) (pd : pending) (L : nat) (c : nat) (w o : lit) : Prop :=
    value_lit s w = LF -> lvl s w <= L -> ~ exempt s pd w c -> value_lit s o = LT /\ lvl s o <= lvl s w.

  Record WL (L : nat) (pd : pending) (s : state) : Prop := {
    wl_len : length (watches s) = 2 * length (assigns s);
    wl_shape : forall i c, In c (vw s pd i) ->
               exists l0 l1 r, lits_of s c = l0 :: l1 :: r /\ (i = index (lneg l0) \/ i = index (lneg l1));
    wl_both : forall c l0 l1 r, attached s pd c -> lits_of s c = l0 :: l1 :: r ->
              In c (vw s pd (index (lneg l0))) /\ In c (vw s pd (index (lneg l1)));
    wl_nodup : forall i, NoDup (vw s pd i);
    wl_live : forall c, In c (constrs s) -> attached s pd c;
    wl_vars : forall c, attached s pd c -> NoDup (map fst (lits_of s c));
    wl_sem : forall c l0 l1 r, attached s pd c -> lits_of s c = l0 :: l1 :: r ->
             watch_ok s pd L c l0 l1 /\ watch_ok s pd L c l1 l0
  }.

  (* The structural part of WL only sees the virtual watch lists, the literals of the clauses, the live list and the
     number of variables: a state change that keeps them and maps every watch_ok fact to one of the new state keeps WL. *)
  Lemma WL_transfer : forall L L' pd pd' (s s' : state),
    length (watches s') = 2 * length (assigns s') ->
    (forall i, vw s' pd' i = vw s pd i) -> (forall c, lits_of s' c = lits_of s c) -> constrs s' = constrs s ->
    (forall c w o, In c (vw s pd (index (lneg w))) -> watch_ok s pd L c w o -> watch_ok s' pd' L' c w o) ->
    WL L pd s -> WL L' pd' s'.
  Proof.
    intros L L' pd pd' s s' Hlen Hvw Hlits Hk Hok [W0 W1 W2 W3 W4 W5 W6].
    assert (Hatt : forall c, attached s' pd' c <-> attached s pd c).
    { intros c. unfold attached. split; intros [i Hi]; exists i; [rewrite <- Hvw|rewrite Hvw]; auto. }
    constructor.
    - exact Hlen.
    - intros i c. rewrite Hvw, Hlits. apply W1.
    - intros c l0 l1 r. rewrite Hatt, Hlits, !Hvw. apply W2.
    - intros i. rewrite Hvw. apply W3.
    - intros c. rewrite Hk, Hatt. apply W4.
    - intros c. rewrite Hatt, Hlits. apply W5.
    - intros c l0 l1 r. rewrite Hatt, Hlits. intros Ha El. destruct (W6 c l0 l1 r Ha El) as [H1 H2].
      destruct (W2 c l0 l1 r Ha El) as [B0 B1]. split; apply Hok; assumption.
  Qed.

  Lemma vw_none : forall (s : state) i, vw s None i = nth i (watches s) [].
  Proof. intros. unfold vw. now rewrite app_nil_r. Qed.

  (* weakening the level bound *)
  Lemma WL_level_mono : forall L L' pd s, L' <= L -> WL L pd s -> WL L' pd s.
  Proof.
    intros L L' pd s Hle W. apply (WL_transfer L L' pd pd s s); auto. apply W.
    intros c w o _ H Hv Hl He. apply H; auto. lia.
  Qed.
  (* when every assigned literal is at level <= L, the bound is immaterial *)
  Lemma WL_level_all : forall L L' pd (s : state), Inv0 T s -> decision_level s <= L -> WL L pd s -> WL L' pd s.
  Proof.
    intros L L' pd s I Hdl W. apply (WL_transfer L L' pd pd s s); auto. apply W.
    intros c w o _ H Hv _ He. apply H; auto. destruct (value_lit_false T s w I Hv) as [Hin| ->].
    - pose proof (lvl_le_dl T s (lneg w) I Hin). unfold SatCoreAnalyze_Proofs.lvl in *. simpl in *. lia.
    - unfold SatCoreAnalyze_Proofs.lvl. simpl. rewrite (lvl_var0 T s I). lia.
  Qed.

  (* frame: only watches, clause store, live list, assignment, levels and queue matter *)
  Lemma WL_frame : forall L pd (s s' : state),
    watches s' = watches s -> cls s' = cls s -> constrs s' = constrs s -> assigns s' = assigns s ->
    level s' = level s -> prop_q s' = prop_q s -> WL L pd s -> WL L pd s'.
  Proof.
    intros L pd s s' Hw Hc Hk Ha Hl Hq W. apply (WL_transfer L L pd pd s s'); auto.
    - rewrite Hw, Ha. apply W.
    - intros; unfold vw; now rewrite Hw.
    - intros; unfold lits_of; now rewrite Hc.
    - intros c w o _ H. unfold watch_ok, exempt, value_lit, value_var, SatCoreAnalyze_Proofs.lvl in *. rewrite Ha, Hl, Hq. exact H.
  Qed.

  (* enqueue of an unassigned literal *)
  Lemma WL_enqueue : forall L pd (s : state) p c s' b, Inv0 T s -> WL L pd s -> enqueue s p c = (s', b) -> WL L pd s'.
  Proof.
    intros L pd s p c s' b I W E. unfold enqueue in E. destruct (value_lit s p) eqn:V; inversion E; subst; auto.
    destruct (value_lit_undef T s p I V) as [Hp0 Hnin].
    set (s' := mkst (constrs s) (cls s) (watches s) (upd (assigns s) (fst p) (lbool_of_bool (snd p))) (prop_q s ++ [p])
                    (p :: trail s) (trail_lim s) (decisions s) (upd (reason s) (fst p) c) (upd (level s) (fst p) (decision_level s))
                    (thst s) (log s) (ub s)) in *.
    assert (Hother : forall x, fst x <> fst p -> value_lit s' x = value_lit s x /\ lvl s' x = lvl s x).
    { intros x Hx. unfold value_lit, value_var, SatCoreAnalyze_Proofs.lvl, s'. simpl. rewrite !nth_upd_neq by auto. auto. }
    assert (Hund : forall x, fst x = fst p -> value_lit s x = LU).
    { intros x Hx. unfold value_lit, value_var in *. rewrite Hx. destruct (nth (fst p) (assigns s) LU); auto;
        destruct (snd p); discriminate. }
    apply (WL_transfer L L pd pd s s'); auto. { simpl. rewrite upd_length. apply W. }
    intros c0 w o _ H Hv Hl He. destruct (Nat.eq_dec (fst w) (fst p)) as [Ew|Ew].
    - (* w is over the variable of p: false now means w = lneg p, whose falsification is still in the queue *)
      exfalso. apply He. left. simpl. apply in_or_app. right. simpl. left.
      destruct (same_var p w (eq_sym Ew)) as [->| ->]; [|now rewrite lneg_invol].
      exfalso. unfold value_lit, value_var, s' in Hv. simpl in Hv. rewrite nth_upd, Nat.eqb_refl in Hv.
      destruct (Nat.ltb (fst p) (length (assigns s))).
      + destruct (snd p); discriminate.
      + unfold value_lit, value_var in V. destruct (nth (fst p) (assigns s) LU); destruct (snd p); discriminate.
    - destruct (Hother w Ew) as [G1 G2]. rewrite G1 in Hv. rewrite G2 in Hl.
      destruct (H Hv Hl) as [K1 K2].
      { intros [Hx|Hx]; apply He; [left; simpl; apply in_or_app; auto|right; exact Hx]. }
      assert (Eo : fst o <> fst p). { intros Eo. rewrite (Hund o Eo) in K1. discriminate. }
      destruct (Hother o Eo) as [G3 G4]. rewrite G3, G4, G2. auto.
  Qed.

  (* pop_one of a literal above the covered levels *)
  Lemma WL_pop_one : forall L (s : state) x t, Inv0 T s -> WL L None s -> trail s = x :: t -> prop_q s = [] -> L < lvl s x ->
    WL L None (pop_one s).
  Proof.
    intros L s x t I W Et Hq Hlx. unfold pop_one. rewrite Et.
    set (s' := mkst (constrs s) (cls s) (watches s) (upd (assigns s) (fst x) LU) (prop_q s) t (trail_lim s) (decisions s)
                    (upd (reason s) (fst x) None) (upd (level s) (fst x) 0) (thst s) (log s) (ub s)).
    assert (Hother : forall y, fst y <> fst x -> value_lit s' y = value_lit s y /\ lvl s' y = lvl s y).
    { intros y Hy. unfold value_lit, value_var, SatCoreAnalyze_Proofs.lvl, s'. simpl. rewrite !nth_upd_neq by auto. auto. }
    assert (Hxin : In x (trail s)) by (rewrite Et; simpl; auto).
    assert (Hsame : forall y, fst y = fst x -> value_lit s' y = LU).
    { intros y Hy. unfold value_lit, value_var, s'. simpl. rewrite Hy, nth_upd, Nat.eqb_refl.
      destruct (Nat.ltb_spec (fst x) (length (assigns s))); auto. exfalso. pose proof (i_range T s I x Hxin). lia. }
    assert (Hlvx : forall y, fst y = fst x -> lvl s y = lvl s x) by (intros y Hy; unfold SatCoreAnalyze_Proofs.lvl; now rewrite Hy).
    apply (WL_transfer L L None None s s'); auto. { simpl. rewrite upd_length. apply W. }
    intros c w o _ H Hv Hl He. destruct (Nat.eq_dec (fst w) (fst x)) as [Ew|Ew]. rewrite (Hsame w Ew) in Hv. discriminate.
    destruct (Hother w Ew) as [G1 G2]. rewrite G1 in Hv. rewrite G2 in Hl.
    destruct (H Hv Hl) as [K1 K2]. { intros [Hx|[rest [Hx _]]]. rewrite Hq in Hx. destruct Hx. discriminate. }
    assert (Eo : fst o <> fst x). { intros Eo. rewrite (Hlvx o Eo) in K2. lia. }
    destruct (Hother o Eo) as [G3 G4]. rewrite G3, G4, G2. auto.
  Qed.

  Lemma WL_new_var : forall L pd (s : state), WL L pd s -> WL L pd (fst (new_var s)).
  Proof.
    intros L pd s W. unfold new_var. simpl.
    set (s' := mkst (constrs s) (cls s) (watches s ++ [[]; []]) (assigns s ++ [LU]) (prop_q s) (trail s) (trail_lim s)
                    (decisions s) (reason s ++ [None]) (level s ++ [0]) (thst s) (log s) (ub s)).
    apply (WL_transfer L L pd pd s s'); auto.
    - unfold s'. simpl. rewrite !app_length, (wl_len _ _ _ W). simpl. lia.
    - intros i. unfold vw, s'. simpl. rewrite nth_app_default; auto. intros x [<-|[<-|[]]]; auto.
    - intros c w o _ H. unfold watch_ok, value_lit, value_var, SatCoreAnalyze_Proofs.lvl, s' in *. simpl.
      rewrite !(nth_app_default lbool), !(nth_app_default nat); try (intros x [<-|[]]; auto). exact H.
  Qed.

  (* dequeue p and detach its watch list: the virtual lists do not change, the exemption moves from the queue to pd *)
  Lemma WL_detach : forall L (s : state) p q, WL L None s -> prop_q s = p :: q -> index p < length (watches s) ->
    WL L (Some (p, nth (index p) (watches s) [])) (set_watches (set_prop_q s q) (upd (watches s) (index p) [])).
  Proof.
    intros L s p q W Eq Hlt. apply (WL_transfer L L None _ s); auto.
    - simpl. rewrite upd_length. apply W.
    - intros i. unfold vw. simpl. rewrite nth_upd, app_nil_r. rewrite (Nat.eqb_sym i (index p)).
      destruct (Nat.eqb_spec (index p) i) as [<-|]; auto. destruct (Nat.ltb_spec (index p) (length (watches s))); [|lia]. reflexivity.
      now rewrite app_nil_r.
    - intros c w o Hin H Hv Hl He. rewrite vw_none in Hin. apply H; auto. intros [Hx|[rest [Hx _]]]; [|discriminate].
      rewrite Eq in Hx. destruct Hx as [Hx|Hx].
      + apply He. right. exists (nth (index p) (watches s) []). rewrite Hx. split; auto.
      + apply He. left. exact Hx.
  Qed.

  (* transfer of the semantic condition of one watch *)
  Lemma watch_ok_transfer : forall (s s' : state) pd pd' L c w o,
    (forall y, value_lit s y <> LU -> value_lit s' y = value_lit s y /\ lvl s' y = lvl s y) ->
    (value_lit s' w = LF -> value_lit s w = LF \/ exempt s' pd' w c) ->
    (exempt s pd w c -> exempt s' pd' w c) ->
    watch_ok s pd L c w o -> watch_ok s' pd' L c w o.
  Proof.
    intros s s' pd pd' L c w o Hst Hnew Hex H Hv Hl He.
    destruct (Hnew Hv) as [Hv0|Hx]; [|contradiction].
    destruct (Hst w) as [G1 G2]. rewrite Hv0. discriminate.
    rewrite G2 in Hl. destruct (H Hv0 Hl) as [K1 K2]. intros Hx. apply He. apply Hex. exact Hx.
    destruct (Hst o) as [G3 G4]. rewrite K1. discriminate. rewrite G3, G4, G2. auto.
  Qed.

  Lemma index_lneg_inj : forall a b, index (lneg a) = index (lneg b) -> a = b.
  Proof. intros a b H. apply index_inj in H. now apply lneg_inj. Qed.
  Lemma var_neq_index : forall a b : lit, fst a <> fst b -> index a <> index b.
  Proof. intros a b H E. apply index_inj in E. subst. auto. Qed.
End Wl.
