(* The invariant of the LRA model and its preservation by every operation (C09 / C11). *)
From Coq Require Import QArith List Lia Lqa Permutation.
From ORatio Require Import smt.Lra smt.LraSem proofs.LraBase_Proofs proofs.LraTab_Proofs.
Import ListNotations.
Local Open Scope Q_scope.
Ltac lra_proj := cbn [nvars cb vals tableau exprs asrts conjs layers trail snaps fst snd].
#[local] Arguments Qred : simpl never.
#[local] Arguments Qplus : simpl never.
#[local] Arguments Qmult : simpl never.
#[local] Arguments Qopp : simpl never.
#[local] Arguments Qminus : simpl never.
#[local] Arguments Qdiv : simpl never.
#[local] Arguments Qinv : simpl never.
#[local] Arguments Qeq_bool : simpl never.
#[local] Arguments Qle_bool : simpl never.

Definition tighter (d : dir) (old new : qd) : Prop := match d with Lower => qd_le old new | Upper => qd_le new old end.

Definition root_just (E : list (lin * var)) (R : list atom) (a : atom) : Prop :=
  forall rho, sat_defs E rho -> (forall r, In r R -> sat_atom rho r) -> sat_atom rho a.

(* every finite bound is either a root-level consequence (reason TRUE) or the atom of its reason literal, asserted in tr *)
Definition good (E : list (lin * var)) (A : list assertion) (R : list atom) (cb : nat -> bound) (tr : list atom) : Prop :=
  forall x d v, bval (cb (idx x d)) = Some v ->
    (breason (cb (idx x d)) = TRUE_lit /\ root_just E R (x, d, v)) \/
    (exists a sg, In a A /\ breason (cb (idx x d)) = (a_b a, sg) /\ asrt_atom a sg = (x, d, v) /\ In (x, d, v) tr).
(* every asserted atom is implied by the current bound *)
Definition covers (cb : nat -> bound) (tr : list atom) : Prop :=
  forall x d b, In (x, d, b) tr -> exists v, bval (cb (idx x d)) = Some v /\ tighter d b v.
Definition consistent (cb : nat -> bound) : Prop :=
  forall x l u, bval (cb (lb_index x)) = Some l -> bval (cb (ub_index x)) = Some u -> qd_le l u.
Definition dflt_bound : bound := mkB None TRUE_lit.
Definition default_from (n : nat) (cb : nat -> bound) : Prop := forall i, (2 * n <= i)%nat -> cb i = dflt_bound.
Definition level_inv (n : nat) E A R cb (tr : list atom) : Prop :=
  consistent cb /\ good E A R cb tr /\ covers cb tr /\ default_from n cb.
Definition looser (B cb : nat -> bound) : Prop :=
  forall x d b, bval (B (idx x d)) = Some b -> exists c, bval (cb (idx x d)) = Some c /\ tighter d b c.

Fixpoint stack_inv (n : nat) E A R (cb : nat -> bound) (layers : list (list (nat * bound))) (snaps : list (nat -> bound)) (trail : list (list atom)) : Prop :=
  level_inv n E A R cb (concat trail) /\
  match layers, snaps, trail with
  | [], [], [t0] => R = t0
  | L :: Ls, B :: Bs, _ :: ts => (forall i, restore L cb i = B i) /\ looser B cb /\ stack_inv n E A R B Ls Bs ts
  | _, _, _ => False
  end.

Definition within (cb : nat -> bound) (x : var) (v : qd) : Prop :=
  (forall l, bval (cb (lb_index x)) = Some l -> qd_le l v) /\ (forall u, bval (cb (ub_index x)) = Some u -> qd_le v u).

Definition eps_ok (a : assertion) : Prop :=
  match a_o a with
  | Leq => snd (a_v a) == 0 \/ snd (a_v a) == -1
  | Geq => snd (a_v a) == 0 \/ snd (a_v a) == 1
  end.
Definition sign_ok (a : atom) : Prop := match a with (_, Lower, b) => 0 <= snd b | (_, Upper, b) => snd b <= 0 end.

Record wf (s : state) : Prop := mkWf {
  wf_tabl : wf_tab (nvars s) (tableau s);
  wf_vals : vals_ok s;
  wf_defs : forall rho, sat_rows (tableau s) rho <-> sat_defs (exprs s) rho;
  wf_exprs : forall l x, In (l, x) (exprs s) -> (x < nvars s)%nat /\ forall v, In v (lkeys l) -> (v < nvars s)%nat;
  wf_asrts_nodup : NoDup (map a_b (asrts s));
  wf_asrts : forall a, In a (asrts s) -> a_b a <> 0%nat /\ (a_x a < nvars s)%nat /\ eps_ok a;
  wf_conjs : forall p q c, In (p, q, c) (conjs s) -> fst c <> 0%nat /\ ~ In (fst c) (map a_b (asrts s));
  wf_nonbasic : forall x, (x < nvars s)%nat -> trow (tableau s) x = None -> within (cb s) x (vals s x);
  wf_signs : forall a, In a (all_atoms s) -> sign_ok a;
  wf_atoms_rng : forall x d b, In (x, d, b) (all_atoms s) -> (x < nvars s)%nat;
  wf_stack : stack_inv (nvars s) (exprs s) (asrts s) (root_atoms s) (cb s) (layers s) (snaps s) (trail s)
}.

Definition opp (d : dir) : dir := match d with Lower => Upper | Upper => Lower end.
(* the model's loops over rows take the direction as a flag `lower` *)
Definition bdir (lower : bool) : dir := if lower then Lower else Upper.

Lemma idx_inj x d y e : idx x d = idx y e -> x = y /\ d = e.
Proof. destruct d, e; unfold idx, lb_index, ub_index; intro H; split; try lia; auto; exfalso; lia. Qed.
Lemma idx_neq x d y e : y <> x \/ e = opp d -> idx y e <> idx x d.
Proof. intros H E. apply idx_inj in E. destruct E as [-> ->]. destruct H as [H | H]; [auto | destruct d; discriminate]. Qed.
Lemma idx_lt x d n : (x < n)%nat -> (idx x d < 2 * n)%nat.
Proof. destruct d; unfold idx, lb_index, ub_index; lia. Qed.
Lemma idx_cases i : exists x d, i = idx x d.
Proof.
  destruct (Nat.Even_or_Odd i) as [[k ->] | [k ->]].
  - exists k, Lower. reflexivity.
  - exists k, Upper. reflexivity.
Qed.
Lemma fupd_same {A} (f : nat -> A) i a : fupd f i a i = a.
Proof. unfold fupd. rewrite Nat.eqb_refl. reflexivity. Qed.
Lemma fupd_other {A} (f : nat -> A) i a j : j <> i -> fupd f i a j = f j.
Proof. unfold fupd. intro H. apply Nat.eqb_neq in H. rewrite H. reflexivity. Qed.

Lemma tighter_refl d v : tighter d v v.
Proof. destruct d; apply qd_le_refl. Qed.
Lemma tighter_trans d a b c : tighter d a b -> tighter d b c -> tighter d a c.
Proof. destruct d; simpl; intros; eapply qd_le_trans; eauto. Qed.
Lemma tighter_opp d a b : tighter (opp d) a b <-> tighter d b a.
Proof. destruct d; reflexivity. Qed.

(* the comparisons assert_lower / assert_upper make, by direction *)
Definition tighter_b (d : dir) (a b : qd) : bool := match d with Lower => qd_leb a b | Upper => qd_leb b a end.
Definition stricter_b (d : dir) (a b : qd) : bool := match d with Lower => qd_ltb a b | Upper => qd_ltb b a end.
Lemma tighter_b_true d a b : tighter_b d a b = true <-> tighter d a b.
Proof. destruct d; apply qd_leb_true. Qed.
Lemma tighter_b_false d a b : tighter_b d a b = false -> tighter d b a.
Proof. destruct d; simpl; intro H; apply qd_lt_le, qd_leb_false, H. Qed.
Lemma stricter_b_false d a b : stricter_b d a b = false <-> tighter d b a.
Proof. destruct d; apply qd_ltb_false. Qed.
Lemma stricter_b_true d a b : stricter_b d a b = true -> ~ tighter d b a.
Proof. destruct d; simpl; intro H; apply qd_lt_not_le, qd_ltb_true, H. Qed.

Lemma within_dir cb x v : within cb x v <-> forall d o, bval (cb (idx x d)) = Some o -> tighter d o v.
Proof.
  split.
  - intros [L U] d o Ho. destruct d; [apply L | apply U]; exact Ho.
  - intro H. split; intros o Ho; [apply (H Lower) | apply (H Upper)]; exact Ho.
Qed.

(* a rational satisfies a bound in direction d; `sat_atom rho (x, d, b)` is `sat_dir d (rho x) b` *)
Definition dle (d : dir) (a b : Q) : Prop := match d with Lower => a <= b | Upper => b <= a end.
Definition sat_dir (d : dir) (y : Q) (b : qd) : Prop := match d with Lower => sat_lower y b | Upper => sat_upper y b end.
Lemma sat_dir_ev d y b : sat_dir d y b <-> ev (fun e => dle d (qd_at e b) y).
Proof. destruct d; reflexivity. Qed.
Lemma tighter_ev d a b : tighter d a b <-> ev (fun e => dle d (qd_at e a) (qd_at e b)).
Proof. destruct d; simpl; split; first [apply ev_le_of_qd_le | apply qd_le_of_ev]. Qed.
Lemma sat_dir_opp d y b b' : sat_dir d y b -> sat_dir (opp d) y b' -> tighter d b b'.
Proof. destruct d; simpl; intros H K; eapply sat_lower_upper; eauto. Qed.
Lemma sat_dir_eq d y y' b b' : y == y' -> qd_eq b b' -> sat_dir d y b -> sat_dir d y' b'.
Proof. destruct d; [apply sat_lower_eq | apply sat_upper_eq]. Qed.

Lemma level_inv_ext n E A R cb cb' tr : (forall i, cb i = cb' i) -> level_inv n E A R cb tr -> level_inv n E A R cb' tr.
Proof.
  intros X [C [G [V D]]]. split; [| split; [| split]].
  - intros x l u. rewrite <- !X. apply C.
  - intros x d v. rewrite <- !X. apply G.
  - intros x d b H. destruct (V x d b H) as [v [K1 K2]]. exists v. rewrite <- X. auto.
  - intros i H. rewrite <- X. apply D. auto.
Qed.
Lemma looser_ext B B' cb cb' : (forall i, B i = B' i) -> (forall i, cb i = cb' i) -> looser B cb -> looser B' cb'.
Proof. intros X Y H x d b. rewrite <- X, <- Y. apply H. Qed.
Lemma restore_ext L b b' i : (forall j, b j = b' j) -> restore L b i = restore L b' i.
Proof.
  intro X. induction L as [| [j old] t IH]; simpl; auto. unfold fupd. destruct (Nat.eqb i j); auto.
Qed.
Lemma stack_inv_ext n E A R cb cb' layers snaps trail :
  (forall i, cb i = cb' i) -> stack_inv n E A R cb layers snaps trail -> stack_inv n E A R cb' layers snaps trail.
Proof.
  intros X H. destruct layers as [| L Ls], snaps as [| B Bs], trail as [| t ts]; simpl in *; try tauto.
  - destruct H as [H1 H2]. split; auto. eapply level_inv_ext; eauto.
  - destruct H as [H1 [H2 [H3 H4]]]. split; [eapply level_inv_ext; eauto | split; [| split]]; auto.
    + intro i. rewrite <- H2. apply restore_ext. auto.
    + apply (looser_ext B B cb cb'); auto.
Qed.

Lemma root_just_mono E E' R R' a : (forall rho, sat_defs E' rho -> sat_defs E rho) -> incl R R' -> root_just E R a -> root_just E' R' a.
Proof. intros HE HR H rho D K. apply H; auto. Qed.
Lemma good_mono E E' A A' R R' cb tr tr' :
  (forall rho, sat_defs E' rho -> sat_defs E rho) -> incl A A' -> incl R R' -> incl tr tr' ->
  good E A R cb tr -> good E' A' R' cb tr'.
Proof.
  intros HE HA HR HT G x d v H. destruct (G x d v H) as [[K1 K2] | [a [sg [K1 [K2 [K3 K4]]]]]].
  - left. split; auto. eapply root_just_mono; eauto.
  - right. exists a, sg. auto.
Qed.

Lemma restore_notin L b j : layer_has L j = false -> restore L b j = b j.
Proof.
  induction L as [| [i old] t IH]; simpl; auto. rewrite orb_false_iff. intros [H1 H2].
  rewrite fupd_other; auto. apply Nat.eqb_neq in H1. auto.
Qed.
(* a bound that is overwritten is not seen through a layer that has saved it, nor at any other index *)
Lemma restore_fupd L b i new j : j <> i \/ layer_has L i = true -> restore L (fupd b i new) j = restore L b j.
Proof.
  induction L as [| [k old] t IH]; simpl; intro H.
  - destruct H as [H | H]; [apply fupd_other, H | discriminate].
  - unfold fupd at 1 3. destruct (Nat.eqb_spec j k) as [-> | N]; auto. apply IH.
    destruct H as [H | H]; auto. apply orb_true_iff in H. destruct H as [H | H]; auto. apply Nat.eqb_eq in H. left. congruence.
Qed.

(* Lra.save_bound on the two fields it reads, so that stack_inv_set can be stated without a state *)
Definition save_layers (layers : list (list (nat * bound))) (cb : nat -> bound) (i : nat) : list (list (nat * bound)) :=
  match layers with
  | [] => []
  | L :: Ls => if layer_has L i then L :: Ls else ((i, cb i) :: L) :: Ls
  end.
Lemma save_bound_eq s i : save_bound s i = save_layers (layers s) (cb s) i.
Proof. reflexivity. Qed.

(* the reason literal r of a bound is a theory literal whose atom is the bound *)
Definition by_asrt (A : list assertion) (r : lit) (a : atom) : Prop :=
  exists a0 sg, In a0 A /\ r = (a_b a0, sg) /\ asrt_atom a0 sg = a.

(* tightening one bound: v is at least as tight as the old bound and does not cross the opposite one *)
Lemma level_inv_set n E A R cb tr x d v r :
  level_inv n E A R cb tr ->
  (forall o, bval (cb (idx x d)) = Some o -> tighter d o v) ->
  (forall o, bval (cb (idx x (opp d))) = Some o -> tighter d v o) ->
  (by_asrt A r (x, d, v) \/ (r = TRUE_lit /\ root_just E R (x, d, v))) ->
  (x < n)%nat ->
  level_inv n E A R (fupd cb (idx x d) (mkB (Some v) r)) ((x, d, v) :: tr).
Proof.
  intros [C [G [V D]]] HT HC HJ Hx. split; [| split; [| split]].
  - intros y l u Hl Hu. destruct (Nat.eq_dec y x) as [-> | N].
    + destruct d; cbn [idx opp] in *.
      * rewrite fupd_same in Hl. injection Hl as <-. rewrite fupd_other in Hu by (apply (idx_neq x Lower x Upper); auto). exact (HC u Hu).
      * rewrite fupd_same in Hu. injection Hu as <-. rewrite fupd_other in Hl by (apply (idx_neq x Upper x Lower); auto). exact (HC l Hl).
    + rewrite fupd_other in Hl by (apply (idx_neq x d y Lower); auto).
      rewrite fupd_other in Hu by (apply (idx_neq x d y Upper); auto). eapply C; eauto.
  - intros y e w H. destruct (Nat.eq_dec (idx y e) (idx x d)) as [Eq | N].
    + destruct (idx_inj _ _ _ _ Eq) as [-> ->]. rewrite fupd_same in *. simpl in H. injection H as <-.
      destruct HJ as [[a [sg [Ha [Hr Hat]]]] | [Hr Hj]]; [right; exists a, sg; simpl; repeat split; auto | left; simpl; auto].
    + rewrite fupd_other in * by auto. destruct (G y e w H) as [K | [a' [sg' [K1 [K2 [K3 K4]]]]]]; [left; auto |].
      right. exists a', sg'. repeat split; auto. right. auto.
  - intros y e b [H | H].
    + injection H as <- <- <-. exists v. rewrite fupd_same. split; auto. apply tighter_refl.
    + destruct (V y e b H) as [w [K1 K2]]. destruct (Nat.eq_dec (idx y e) (idx x d)) as [Eq | N].
      * destruct (idx_inj _ _ _ _ Eq) as [-> ->]. exists v. rewrite fupd_same. split; auto.
        eapply tighter_trans; eauto.
      * exists w. rewrite fupd_other by auto. auto.
  - intros i Hi. rewrite fupd_other; [apply D; auto |]. pose proof (idx_lt x d n Hx). lia.
Qed.

Lemma level_inv_incl n E A R cb tr tr' : (forall z, In z tr' <-> In z tr) -> level_inv n E A R cb tr -> level_inv n E A R cb tr'.
Proof.
  intros X [C [G [V D]]]. split; [auto | split; [| split; auto]].
  - eapply good_mono; eauto; try apply incl_refl. intros z Hz. apply X. auto.
  - intros x d b H. apply V. apply X. auto.
Qed.

Lemma root_of_push n layers snaps trail E A R cb a :
  stack_inv n E A R cb layers snaps trail -> layers <> [] -> last (push_atom trail a) [] = last trail [].
Proof.
  destruct layers as [| L Ls]; [congruence |]. destruct snaps as [| B Bs], trail as [| t ts]; simpl; try tauto.
  intros [_ [_ [_ H]]] _. destruct ts as [| t2 ts2]; auto. destruct Ls, Bs; simpl in H; tauto.
Qed.

(* the variables, definitions, assertions and root atoms may grow *)
Lemma level_inv_mono n n' E E' A A' R R' cb tr :
  (n <= n')%nat -> (forall rho, sat_defs E' rho -> sat_defs E rho) -> incl A A' -> incl R R' ->
  level_inv n E A R cb tr -> level_inv n' E' A' R' cb tr.
Proof.
  intros Hn HE HA HR [C [G [V D]]]. split; [auto | split; [| split; auto]].
  - eapply good_mono; eauto; apply incl_refl.
  - intros i Hi. apply D. lia.
Qed.
Lemma level_inv_root n E A R cb tr a : level_inv n E A R cb tr -> level_inv n E A (a :: R) cb tr.
Proof. apply level_inv_mono; auto; try apply incl_refl. apply incl_tl, incl_refl. Qed.

Lemma stack_inv_set n E A R cb layers snaps trail x d v r :
  stack_inv n E A R cb layers snaps trail ->
  (forall o, bval (cb (idx x d)) = Some o -> tighter d o v) ->
  (forall o, bval (cb (idx x (opp d))) = Some o -> tighter d v o) ->
  (by_asrt A r (x, d, v) \/ (r = TRUE_lit /\ layers = [])) ->
  (x < n)%nat ->
  stack_inv n E A (match layers with [] => (x, d, v) :: R | _ => R end)
            (fupd cb (idx x d) (mkB (Some v) r)) (save_layers layers cb (idx x d)) snaps (push_atom trail (x, d, v)).
Proof.
  intros H HT HC HA Hx.
  destruct layers as [| L Ls], snaps as [| B Bs], trail as [| t ts]; simpl in H; try tauto.
  - (* root level *)
    destruct ts as [| t2 ts2]; [| tauto]. destruct H as [LI ->]. simpl. split; auto.
    simpl in LI. rewrite app_nil_r in *.
    apply (level_inv_set n E A ((x, d, v) :: t) cb t x d v r (level_inv_root _ _ _ _ _ _ _ LI) HT HC); auto.
    destruct HA as [HA | [Hr _]]; [left; exact HA | right; split; auto]. intros rho _ Hroot. apply Hroot. left. reflexivity.
  - destruct H as [LI [HR [HL HS]]]. simpl.
    assert (LI' : level_inv n E A R (fupd cb (idx x d) (mkB (Some v) r)) (concat (((x, d, v) :: t) :: ts))).
    { simpl. apply (level_inv_set n E A R cb (t ++ concat ts) x d v r); auto. destruct HA as [HA | [_ K]]; [left; exact HA | discriminate]. }
    assert (HL' : looser B (fupd cb (idx x d) (mkB (Some v) r))).
    { intros y e b Hb. destruct (HL y e b Hb) as [c [K1 K2]]. destruct (Nat.eq_dec (idx y e) (idx x d)) as [Eq | N].
      - destruct (idx_inj _ _ _ _ Eq) as [-> ->]. exists v. rewrite fupd_same. split; auto.
        eapply tighter_trans; eauto.
      - exists c. rewrite fupd_other by auto. auto. }
    destruct (layer_has L (idx x d)) eqn:LH; simpl.
    + split; [exact LI' | split; [| split; auto]]. intro i. rewrite restore_fupd by auto. apply HR.
    + split; [exact LI' | split; [| split; auto]]. intro i. unfold fupd at 1. destruct (Nat.eqb_spec i (idx x d)) as [-> | Ei].
      * rewrite <- HR. rewrite restore_notin by auto. reflexivity.
      * rewrite restore_fupd by auto. apply HR.
Qed.

(* adding an atom that the current bound already implies *)
Lemma stack_inv_noop n E A R cb layers snaps trail x d v :
  stack_inv n E A R cb layers snaps trail ->
  (exists o, bval (cb (idx x d)) = Some o /\ tighter d v o) ->
  stack_inv n E A (match layers with [] => (x, d, v) :: R | _ => R end) cb layers snaps (push_atom trail (x, d, v)).
Proof.
  intros H [o [Ho Ht]].
  assert (LI : forall R tr, level_inv n E A R cb tr -> level_inv n E A R cb ((x, d, v) :: tr)).
  { intros R0 tr [C [G [V D]]]. split; [auto | split; [| split; auto]].
    - eapply good_mono; eauto; try apply incl_refl. apply incl_tl, incl_refl.
    - intros y e b [K | K]; [| apply V; auto]. injection K as <- <- <-. exists o. auto. }
  destruct layers as [| L Ls], snaps as [| B Bs], trail as [| t ts]; simpl in H; try tauto.
  - destruct ts as [| t2 ts2]; [| tauto]. destruct H as [H ->]. simpl in *. rewrite app_nil_r in *. split; auto.
    apply LI, level_inv_root, H.
  - destruct H as [H1 [H2 [H3 H4]]]. simpl. split; [apply (LI R (t ++ concat ts)); auto | split; [| split]]; auto.
Qed.

Lemma stack_inv_mono n n' E E' A A' R cb layers snaps trail :
  (n <= n')%nat -> (forall rho, sat_defs E' rho -> sat_defs E rho) -> incl A A' ->
  stack_inv n E A R cb layers snaps trail -> stack_inv n' E' A' R cb layers snaps trail.
Proof.
  intros Hn HE HA. revert cb snaps trail. induction layers as [| L Ls IH]; intros cb snaps trail H.
  - destruct snaps, trail as [| t ts]; simpl in *; try tauto. destruct H as [H1 H2]. split; auto.
    eapply level_inv_mono; eauto; apply incl_refl.
  - destruct snaps as [| B Bs], trail as [| t ts]; simpl in *; try tauto. destruct H as [H1 [H2 [H3 H4]]].
    split; [eapply level_inv_mono; eauto; apply incl_refl | split; [| split]]; auto.
Qed.

Lemma stack_inv_trail_nonempty n E A R cb layers snaps trail : stack_inv n E A R cb layers snaps trail -> trail <> [].
Proof. destruct layers, snaps, trail; simpl; try tauto; congruence. Qed.
Lemma stack_inv_level n E A R cb layers snaps trail : stack_inv n E A R cb layers snaps trail -> level_inv n E A R cb (concat trail).
Proof. destruct layers, snaps, trail; simpl; tauto. Qed.
Lemma stack_inv_root n E A R cb layers snaps trail : stack_inv n E A R cb layers snaps trail -> R = last trail [].
Proof.
  revert cb snaps trail. induction layers as [| L Ls IH]; intros cb snaps trail H.
  - destruct snaps, trail as [| t ts]; simpl in *; try tauto. destruct ts; simpl in *; tauto.
  - destruct snaps as [| B Bs], trail as [| t ts]; simpl in *; try tauto. destruct H as [_ [_ [_ H]]].
    pose proof (IH _ _ _ H) as K. pose proof (stack_inv_trail_nonempty _ _ _ _ _ _ _ _ H) as N.
    destruct ts; [congruence | exact K].
Qed.
Lemma stack_inv_lengths n E A R cb layers snaps trail :
  stack_inv n E A R cb layers snaps trail -> length snaps = length layers /\ length trail = S (length layers).
Proof.
  revert cb snaps trail. induction layers as [| L Ls IH]; intros cb snaps trail H.
  - destruct snaps, trail as [| t ts]; simpl in *; try tauto. destruct ts; simpl in *; tauto.
  - destruct snaps as [| B Bs], trail as [| t ts]; simpl in *; try tauto. destruct H as [_ [_ [_ H]]].
    destruct (IH _ _ _ H). split; lia.
Qed.

Lemma good_sound E A R cb tr rho :
  good E A R cb tr -> sat_defs E rho -> (forall r, In r R -> sat_atom rho r) -> (forall a, In a tr -> sat_atom rho a) ->
  forall x d v, bval (cb (idx x d)) = Some v -> sat_atom rho (x, d, v).
Proof.
  intros G D HR HT x d v H. destruct (G x d v H) as [[_ K] | [a [sg [_ [_ [_ K]]]]]]; auto.
Qed.

(* Every bound the theory derives for a linear expression is the constant plus, term by term, the coefficient times a bound
   of the variable: the bound in the direction asked for when the coefficient is positive, the opposite one otherwise
   (lb / ub of an expression, the bound of a row in row::propagate_lb / _ub, the Farkas sums of the checkers). `bsum` is that
   sum for a choice `ch` of per-term bounds: None = no bound (the sum is infinite), Some None = the term is skipped. *)
Definition sdir (d : dir) (c : Q) : dir := if qpos c then d else opp d.
Fixpoint bsum (ch : var -> Q -> option (option qd)) (ts : list (var * Q)) (acc : qd) : option qd :=
  match ts with
  | [] => Some acc
  | (v, c) :: t => match ch v c with
                   | None => None
                   | Some None => bsum ch t acc
                   | Some (Some b) => bsum ch t (qd_add acc (qd_scale c b))
                   end
  end.

Lemma term_dle d c (y : Q -> Q) b :
  ev (fun e => dle (sdir d c) (qd_at e b) (y e)) -> ev (fun e => dle d (c * qd_at e b) (c * y e)).
Proof.
  unfold sdir. destruct (qpos c) eqn:P; [apply qpos_true in P | apply qpos_false in P];
    apply ev_mono; intros e _ H; destruct d; simpl in *; nra.
Qed.

(* if each chosen bound bounds its variable (for small delta; the valuation may depend on delta), the sum bounds the sum *)
Lemma bsum_ev d ch ts acc r (rho : Q -> var -> Q) :
  bsum ch ts acc = Some r ->
  (forall v c, In (v, c) ts -> match ch v c with
                               | Some (Some b) => ev (fun e => dle (sdir d c) (qd_at e b) (rho e v))
                               | Some None => c == 0
                               | None => True
                               end) ->
  ev (fun e => dle d (qd_at e r) (qd_at e acc + sumq (rho e) ts)).
Proof.
  revert acc. induction ts as [| [v c] t IH]; intros acc H K; simpl in H.
  - injection H as <-. apply ev_all. intros e _. destruct d; simpl; lra.
  - pose proof (K v c (or_introl eq_refl)) as Kv. assert (Kt := fun v' c' Hin => K v' c' (or_intror Hin)).
    destruct (ch v c) as [[b |] |]; [| | discriminate].
    + eapply ev_mono; [| exact (ev_and _ _ (IH _ H Kt) (term_dle d c _ b Kv))].
      intros e _ [K1 K2]. destruct d; simpl in *; rewrite qd_at_add, qd_at_scale in K1; lra.
    + eapply ev_mono; [| exact (IH _ H Kt)]. intros e _ K1. destruct d; simpl in *; nra.
Qed.

Lemma bsum_some_in ch ts acc r v c : bsum ch ts acc = Some r -> In (v, c) ts -> ch v c <> None.
Proof.
  revert acc. induction ts as [| [w e] t IH]; intros acc H K; simpl in *; [contradiction |]. destruct K as [K | K].
  - injection K as -> ->. destruct (ch v c); [discriminate | discriminate].
  - destruct (ch w e) as [[b |] |]; [eauto | eauto | discriminate].
Qed.

(* the bounds of the variables as the choice: lb(l) / ub(l) *)
Definition bound_choice (s : state) (d : dir) (v : var) (c : Q) : option (option qd) := option_map Some (bval (cb s (idx v (sdir d c)))).
Definition side_lin (d : dir) (s : state) (l : lin) : option qd := match d with Lower => lb_lin s l | Upper => ub_lin s l end.
Lemma side_lin_bsum d s l : side_lin d s l = bsum (bound_choice s d) (lterms l) (qd_of_q (lconst l)).
Proof.
  unfold side_lin, lb_lin, ub_lin. generalize (qd_of_q (lconst l)).
  destruct d; induction (lterms l) as [| [v c] t IH]; intro acc; simpl; auto; unfold bound_choice, sdir, lbv, ubv;
    destruct (qpos c); cbn [idx opp]; (destruct (bval _); simpl; auto).
Qed.

Definition sat_bounds (cb : nat -> bound) (rho : var -> Q) : Prop :=
  forall x d v, bval (cb (idx x d)) = Some v -> sat_atom rho (x, d, v).

(* a valuation that satisfies every bound is between lb(l) and ub(l) ... *)
Lemma side_lin_sound d s rho l b : sat_bounds (cb s) rho -> side_lin d s l = Some b -> sat_dir d (evalq rho l) b.
Proof.
  intros SB H. rewrite side_lin_bsum in H. apply sat_dir_ev.
  eapply ev_mono; [| apply (bsum_ev d _ _ _ _ (fun _ => rho) H)].
  - intros e _ K. unfold evalq. destruct d; simpl in *; rewrite qd_at_of_q in K; exact K.
  - intros v c _. unfold bound_choice. destruct (bval (cb s (idx v (sdir d c)))) as [o |] eqn:E; simpl; auto.
    apply sat_dir_ev. exact (SB v _ o E).
Qed.

Lemma value_terms_at d vl ts acc : qd_at d (value_terms vl ts acc) == qd_at d acc + sumq (valq d vl) ts.
Proof.
  revert acc. induction ts as [| [v c] t IH]; intro acc; simpl; [ring |].
  rewrite IH, qd_at_add, qd_at_scale. unfold valq. ring.
Qed.
Lemma value_lin_at d s l : qd_at d (value_lin s l) == evalq (valq d (vals s)) l.
Proof. unfold value_lin, evalq. rewrite value_terms_at, qd_at_of_q. reflexivity. Qed.

(* ... and so is the value of l under any Q_delta assignment within the bounds *)
Lemma side_lin_value d s l b vl :
  (forall v, In v (lkeys l) -> within (cb s) v (vl v)) -> side_lin d s l = Some b ->
  tighter d b (value_terms vl (lterms l) (qd_of_q (lconst l))).
Proof.
  intros W H. rewrite side_lin_bsum in H. apply tighter_ev.
  eapply ev_mono; [| apply (bsum_ev d _ _ _ _ (fun e => valq e vl) H)].
  - intros e _ K. destruct d; simpl in *; rewrite value_terms_at; exact K.
  - intros v c Hin. unfold bound_choice. destruct (bval (cb s (idx v (sdir d c)))) as [o |] eqn:E; simpl; auto.
    apply (in_map fst) in Hin. exact (proj1 (tighter_ev _ _ _) (proj1 (within_dir _ _ _) (W v Hin) _ _ E)).
Qed.

(* bounds that do not cross leave a point in between, hence lb(l) <= ub(l) *)
Lemma consistent_point cb v : consistent cb ->
  within cb v match bval (cb (lb_index v)) with Some l => l | None => match bval (cb (ub_index v)) with Some u => u | None => (0, 0) end end.
Proof.
  intro C. unfold within. destruct (bval (cb (lb_index v))) as [l |] eqn:L.
  - split; [intros l' E; injection E as <-; apply qd_le_refl | intros u E; apply (C v l u); auto].
  - destruct (bval (cb (ub_index v))) as [u |]; split; try discriminate; intros u' E; injection E as <-; apply qd_le_refl.
Qed.
Lemma lb_lin_le_ub_lin s l lo hi : consistent (cb s) -> lb_lin s l = Some lo -> ub_lin s l = Some hi -> qd_le lo hi.
Proof.
  intros C H1 H2. pose proof (fun v (_ : In v (lkeys l)) => consistent_point (cb s) v C) as P.
  exact (qd_le_trans _ _ _ (side_lin_value Lower s l lo _ P H1) (side_lin_value Upper s l hi _ P H2)).
Qed.

Lemma looser_refl cb : looser cb cb.
Proof. intros x d b H. exists b. split; auto. apply tighter_refl. Qed.
Lemma within_looser B cb x v : looser B cb -> within cb x v -> within B x v.
Proof.
  intros L [W1 W2]. split.
  - intros l Hl. destruct (L x Lower l Hl) as [c [K1 K2]]. simpl in K2. eapply qd_le_trans; [exact K2 | apply W1; exact K1].
  - intros u Hu. destruct (L x Upper u Hu) as [c [K1 K2]]. simpl in K2. eapply qd_le_trans; [apply W2; exact K1 | exact K2].
Qed.
Lemma within_ext cb cb' x v : (forall i, cb i = cb' i) -> within cb x v -> within cb' x v.
Proof. intros X [W1 W2]. split; intros b Hb; [apply W1 | apply W2]; rewrite X; auto. Qed.

Lemma last_cons_nonempty {A} (a : A) l d : l <> [] -> last (a :: l) d = last l d.
Proof. destruct l; [congruence | reflexivity]. Qed.

Lemma wf_push s : wf s -> wf (push s).
Proof.
  intros [W1 W2 W3 W4 W5 W6 W7 W8 W9 W10 W11].
  pose proof (stack_inv_trail_nonempty _ _ _ _ _ _ _ _ W11) as NE.
  assert (RA : root_atoms (push s) = root_atoms s).
  { unfold root_atoms. simpl. destruct (trail s); [congruence | reflexivity]. }
  constructor; simpl; auto. rewrite RA.
  split; [apply (stack_inv_level _ _ _ _ _ _ _ _ W11) | split; [auto | split; [apply looser_refl | exact W11]]].
Qed.

Lemma wf_pop s : wf s -> wf (pop s).
Proof.
  intros [W1 W2 W3 W4 W5 W6 W7 W8 W9 W10 W11]. unfold pop. destruct (layers s) as [| L Ls] eqn:EL.
  { constructor; auto. rewrite EL. auto. }
  destruct (snaps s) as [| B Bs] eqn:EB; [simpl in W11; destruct (trail s); tauto |].
  destruct (trail s) as [| t ts] eqn:ET; [simpl in W11; tauto |].
  simpl in W11. destruct W11 as [LI [HR [HL HS]]].
  pose proof (stack_inv_trail_nonempty _ _ _ _ _ _ _ _ HS) as NE.
  assert (RA : root_atoms s = last ts []). { unfold root_atoms. rewrite ET. apply last_cons_nonempty. auto. }
  constructor; simpl; auto.
  - intros x Hx Tx. apply (within_ext B). { intro i. symmetry. apply HR. }
    eapply within_looser; eauto.
  - intros a Ha. apply W9. unfold all_atoms in *. rewrite ET. simpl. apply in_or_app. auto.
  - intros x d b Ha. eapply W10. unfold all_atoms in *. rewrite ET. simpl. apply in_or_app. right. exact Ha.
  - unfold root_atoms. simpl. rewrite <- RA. apply (stack_inv_ext _ _ _ _ B); auto.
Qed.

Lemma sat_rows_ext n T rho rho' : wf_tab n T -> (forall v, (v < n)%nat -> rho v == rho' v) -> sat_rows T rho -> sat_rows T rho'.
Proof.
  intros [S W] X R x l Hin. destruct (W _ _ Hin) as [Lx [_ V]]. rewrite <- (X x Lx). rewrite (R _ _ Hin).
  apply evalq_ext. intros v Hv. apply X. apply V. exact Hv.
Qed.

Lemma stack_default n E A R cb layers snaps trail : stack_inv n E A R cb layers snaps trail -> default_from n cb.
Proof. intro H. apply stack_inv_level in H. destruct H as [_ [_ [_ D]]]. exact D. Qed.

Lemma wf_new_var s : wf s -> wf (fst (new_var s)).
Proof.
  intros [W1 W2 W3 W4 W5 W6 W7 W8 W9 W10 W11]. unfold new_var. cbn [fst].
  pose proof (stack_default _ _ _ _ _ _ _ _ W11) as D.
  assert (CB : forall i, cb s i = fupd (fupd (cb s) (lb_index (nvars s)) (mkB None TRUE_lit)) (ub_index (nvars s)) (mkB None TRUE_lit) i).
  { intro i. unfold fupd. destruct (Nat.eqb i (ub_index (nvars s))) eqn:E1.
    - apply Nat.eqb_eq in E1. subst. apply D. unfold ub_index. lia.
    - destruct (Nat.eqb i (lb_index (nvars s))) eqn:E2; auto. apply Nat.eqb_eq in E2. subst. apply D. unfold lb_index. lia. }
  constructor; cbn [nvars cb vals tableau exprs asrts conjs layers trail snaps all_atoms root_atoms]; auto.
  - eapply wf_tab_mono; [| exact W1]. lia.
  - intro d. apply (sat_rows_ext (nvars s) _ (valq d (vals s))); auto.
    intros v Hv. unfold valq. lra_proj. rewrite fupd_other by lia. reflexivity.
  - intro rho. rewrite W3. unfold sat_defs. split.
    + intros H l x [K | K]; [| apply H; auto]. injection K as <- <-. rewrite evalq_lin_var. reflexivity.
    + intros H l x K. apply H. right. auto.
  - intros l x [K | K].
    + injection K as <- <-. split; [lia |]. intros v [<- | []]. simpl. lia.
    + destruct (W4 _ _ K) as [A B]. split; [lia |]. intros v Hv. specialize (B v Hv). lia.
  - intros a Ha. destruct (W6 a Ha) as [A [B C]]. split; [auto | split; [lia | auto]].
  - intros x Hx Tx. destruct (Nat.eq_dec x (nvars s)) as [-> | N].
    + split; intros b Hb.
      * rewrite fupd_other in Hb by (unfold lb_index, ub_index; lia). rewrite fupd_same in Hb. discriminate.
      * rewrite fupd_same in Hb. discriminate.
    + apply (within_ext (cb s)); auto. rewrite fupd_other by auto. apply W8; auto. lia.
  - intros x d b Ha. specialize (W10 x d b Ha). lia.
  - apply (stack_inv_ext _ _ _ _ (cb s)); auto.
    apply (stack_inv_mono (nvars s) _ (exprs s) _ (asrts s)); auto; try apply incl_refl.
    intros rho H l x K. apply H. right. auto.
Qed.

Lemma lkeys_lin_add a b w : In w (lkeys (lin_add a b)) -> In w (lkeys a) \/ In w (lkeys b).
Proof. apply (keys_fold_add (fun c => c)). Qed.
Lemma ksorted_lin_add a b : ksorted (lkeys a) -> ksorted (lkeys (lin_add a b)).
Proof. apply (ksorted_fold_add (fun c => c)). Qed.
Lemma lkeys_lin_sub a b w : In w (lkeys (lin_sub a b)) -> In w (lkeys a) \/ In w (lkeys b).
Proof. apply (keys_fold_add (fun c => - c)). Qed.
Lemma ksorted_lin_sub a b : ksorted (lkeys a) -> ksorted (lkeys (lin_sub a b)).
Proof. apply (ksorted_fold_add (fun c => - c)). Qed.
Lemma lkeys_lin_scale c a : lkeys (lin_scale c a) = lkeys a.
Proof. apply (keys_map (fun t => Qred (snd t * c))). Qed.

(* replacing a basic variable v, whose coefficient is c, by its row: one step of subst_terms (new_var(lin)) and of
   subst_basic (new_lt .. new_eq) *)
Definition sub1 (T : list (var * lin)) (e : lin) (v : var) (c : Q) : lin :=
  match trow T v with Some r => lin_add (lin_remove v e) (lin_scale c r) | None => e end.

Lemma sub1_evalq T e v c rho :
  sat_rows T rho -> (trow T v <> None -> coef v (lterms e) = Some c) -> evalq rho (sub1 T e v c) == evalq rho e.
Proof.
  intros R H. unfold sub1. destruct (trow T v) as [r |] eqn:Tv; [| reflexivity].
  rewrite evalq_lin_add, evalq_lin_scale, (evalq_lin_remove rho v e c) by (apply H; discriminate).
  rewrite (R v r (trow_In _ _ _ Tv)). ring.
Qed.
Lemma ksorted_sub1 T e v c : ksorted (lkeys e) -> ksorted (lkeys (sub1 T e v c)).
Proof. intro S. unfold sub1. destruct (trow T v); auto. apply ksorted_lin_add, ksorted_arem, S. Qed.
(* a key of the result is a key of a row, or an old key other than a replaced v *)
Lemma lkeys_sub1 n T e v c w : wf_tab n T -> ksorted (lkeys e) -> In w (lkeys (sub1 T e v c)) ->
  ((w < n)%nat /\ trow T w = None) \/ (In w (lkeys e) /\ (w = v -> trow T v = None)).
Proof.
  intros W S H. unfold sub1 in H. destruct (trow T v) as [r |] eqn:Tv; [| auto].
  apply lkeys_lin_add in H. destruct H as [H | H].
  - right. split; [exact (keys_arem _ _ _ H) | intros ->; destruct (arem_notin _ _ S H)].
  - left. rewrite lkeys_lin_scale in H. destruct (wf_tab_row n T v r W Tv) as [_ [_ Vr]]. auto.
Qed.
Lemma coef_sub1_other n T e v c w : wf_tab n T -> w <> v -> trow T w <> None -> coef w (lterms (sub1 T e v c)) = coef w (lterms e).
Proof.
  intros W N Bw. unfold sub1. destruct (trow T v) as [r |] eqn:Tv; [| reflexivity].
  unfold lin_add. simpl. rewrite (coef_fold_add_other (fun q => q)); [exact (alook_arem_other v _ w N) |].
  rewrite (keys_map (fun t => Qred (snd t * c))). intro K. destruct (wf_tab_row n T v r W Tv) as [_ [_ Vr]]. destruct (Vr w K). auto.
Qed.

Definition subst_step (T : list (var * lin)) (e : lin) (v : var) : lin :=
  match coef v (lterms e) with Some c => sub1 T e v c | None => e end.
Lemma subst_basic_fold T e : subst_basic T e = fold_left (subst_step T) (map fst (lterms e)) e.
Proof.
  unfold subst_basic. generalize (map fst (lterms e)). intro vs. revert e. induction vs as [| v vs IH]; intro e; simpl; auto.
  rewrite IH. unfold subst_step, sub1. destruct (trow T v), (coef v (lterms e)); reflexivity.
Qed.

Lemma subst_fold_ok n T todo e :
  wf_tab n T -> ksorted (lkeys e) -> (forall w, In w (lkeys e) -> (w < n)%nat /\ (trow T w = None \/ In w todo)) ->
  ksorted (lkeys (fold_left (subst_step T) todo e)) /\
  forall w, In w (lkeys (fold_left (subst_step T) todo e)) -> (w < n)%nat /\ trow T w = None.
Proof.
  intro W. revert e. induction todo as [| v todo IH]; intros e Se He; simpl.
  - split; auto. intros w Hw. destruct (He w Hw) as [A [B | []]]. auto.
  - apply IH; unfold subst_step; destruct (coef v (lterms e)) as [c |] eqn:Cv; auto using ksorted_sub1.
    + intros w Hw. apply (lkeys_sub1 n) in Hw; auto. destruct Hw as [Hw | [Hw Nw]]; [tauto |].
      destruct (He w Hw) as [A [B | [<- | B]]]; auto.
    + intros w Hw. destruct (He w Hw) as [A [B | [<- | B]]]; auto. apply alook_none in Cv. tauto.
Qed.
Lemma subst_basic_ok n T e :
  wf_tab n T -> ksorted (lkeys e) -> (forall w, In w (lkeys e) -> (w < n)%nat) ->
  ksorted (lkeys (subst_basic T e)) /\ forall w, In w (lkeys (subst_basic T e)) -> (w < n)%nat /\ trow T w = None.
Proof. intros W S H. rewrite subst_basic_fold. apply (subst_fold_ok n); auto. Qed.
Lemma subst_basic_evalq T e rho : sat_rows T rho -> evalq rho (subst_basic T e) == evalq rho e.
Proof.
  intro R. rewrite subst_basic_fold. generalize (map fst (lterms e)). intro todo. revert e.
  induction todo as [| v todo IH]; intro e; simpl; [reflexivity |]. rewrite IH. unfold subst_step.
  destruct (coef v (lterms e)) eqn:Cv; [apply sub1_evalq; auto | reflexivity].
Qed.

(* on a canonical expression new_var(lin) substitutes exactly as new_lt .. new_eq do: a term that is still to be treated
   keeps its coefficient, because the rows that are put in mention no basic variable *)
Lemma subst_terms_basic n T l : wf_tab n T -> ksorted (lkeys l) -> subst_terms T l = subst_basic T l.
Proof.
  intros W S. rewrite subst_basic_fold. unfold subst_terms. fold (sub1 T).
  assert (G : forall todo e, NoDup (map fst todo) ->
            (forall v c, In (v, c) todo -> trow T v <> None -> coef v (lterms e) = Some c) ->
            fold_left (fun e t => sub1 T e (fst t) (snd t)) todo e = fold_left (subst_step T) (map fst todo) e).
  { induction todo as [| [v c] todo IH]; intros e ND He; simpl; [reflexivity |]. inversion ND as [| ? ? Nv ND']; subst.
    assert (E : subst_step T e v = sub1 T e v c).
    { unfold subst_step, sub1. destruct (trow T v) eqn:Tv; [rewrite (He v c) by (simpl; auto; congruence) | destruct (coef v (lterms e))]; reflexivity. }
    rewrite E. apply IH; auto. intros w d Hin Bw. rewrite (coef_sub1_other n); auto.
    - apply He; [right; exact Hin | exact Bw].
    - intros ->. apply Nv. apply (in_map fst) in Hin. exact Hin. }
  apply G; [apply ksorted_nodup; exact S | intros v c Hin _; apply In_alook; auto].
Qed.

(* what new_var(const lin&) needs from its argument: a canonical expression over existing variables *)
Definition lin_ok (s : state) (l : lin) : Prop :=
  ksorted (lkeys l) /\ forall v, In v (lkeys l) -> (v < nvars s)%nat.

Lemma find_expr_some E l x : find_expr E l = Some x -> exists m, In (m, x) E /\ lin_eqb m l = true.
Proof.
  induction E as [| [m y] t IH]; simpl; [discriminate |]. destruct (lin_eqb m l) eqn:Eq.
  - intro H; injection H as <-. exists m. auto.
  - intro H. destruct (IH H) as [m' [K1 K2]]. exists m'. auto.
Qed.

Lemma sat_rows_tinsert T x l rho : trow T x = None -> (sat_rows (tinsert x l T) rho <-> rho x == evalq rho l /\ sat_rows T rho).
Proof.
  intro N. split.
  - intro H. split; [apply H; apply tinsert_In_new; auto |]. intros y m K. apply H. apply ains_old. auto.
  - intros [H1 H2] y m K. apply In_ains in K. destruct K as [K | K]; [injection K as -> ->; auto | apply H2; auto].
Qed.

Lemma new_var_lin_found s l x : find_expr (exprs s) l = Some x -> new_var_lin s l = (s, x).
Proof. intro H. unfold new_var_lin. rewrite H. reflexivity. Qed.

Definition nvl_cb (s : state) (l : lin) : nat -> bound :=
  fupd (fupd (fupd (fupd (cb s) (lb_index (nvars s)) (mkB None TRUE_lit)) (ub_index (nvars s)) (mkB None TRUE_lit))
             (lb_index (nvars s)) (mkB (red_opt (lb_lin s l)) TRUE_lit)) (ub_index (nvars s)) (mkB (red_opt (ub_lin s l)) TRUE_lit).
Definition nvl_state (s : state) (l : lin) : state :=
  mkS (S (nvars s)) (nvl_cb s l) (fupd (fupd (vals s) (nvars s) (0, 0)) (nvars s) (qd_red (value_lin s l)))
      (tinsert (nvars s) (subst_terms (tableau s) l) (tableau s)) ((l, nvars s) :: (lin_var (nvars s), nvars s) :: exprs s)
      (asrts s) (conjs s) (layers s) (trail s) (snaps s).
Lemma new_var_lin_fresh s l : find_expr (exprs s) l = None -> new_var_lin s l = (nvl_state s l, nvars s).
Proof. intro H. unfold new_var_lin. rewrite H. reflexivity. Qed.

Lemma nvl_cb_other s l x d : x <> nvars s -> nvl_cb s l (idx x d) = cb s (idx x d).
Proof. intro N. unfold nvl_cb. rewrite !fupd_other; auto; destruct d; unfold idx, lb_index, ub_index; lia. Qed.
Lemma nvl_cb_slack s l d : nvl_cb s l (idx (nvars s) d) = mkB (red_opt (side_lin d s l)) TRUE_lit.
Proof. unfold nvl_cb. destruct d; cbn [idx]; [rewrite fupd_other by (unfold lb_index, ub_index; lia) |]; apply fupd_same. Qed.

Lemma wf_nvl_state s l : wf s -> layers s = [] -> lin_ok s l -> wf (nvl_state s l).
Proof.
  intros [W1 W2 W3 W4 W5 W6 W7 W8 W9 W10 W11] Root [LS LV].
  set (n := nvars s) in *.
  assert (Tn : trow (tableau s) n = None) by (eapply trow_ge_none; eauto).
  pose proof (subst_terms_basic n (tableau s) l W1 LS) as Esub.
  destruct (subst_basic_ok n (tableau s) l W1 LS LV) as [ES EV]. pose proof (subst_basic_evalq (tableau s) l) as EE.
  set (e := subst_basic (tableau s) l) in *.
  assert (Hstack := W11). rewrite Root in Hstack.
  destruct (snaps s) as [| B Bs] eqn:ES'; [| simpl in Hstack; tauto].
  destruct (trail s) as [| t0 ts] eqn:ET; [simpl in Hstack; tauto |]. destruct ts as [| t1 ts]; [| simpl in Hstack; tauto].
  simpl in Hstack. rewrite app_nil_r in Hstack. destruct Hstack as [[C [G [V D]]] HR].
  assert (RA : root_atoms s = t0) by (unfold root_atoms; rewrite ET; reflexivity).
  constructor; unfold nvl_state; lra_proj; fold n; rewrite ?Esub; fold e.
  - (* tableau *)
    destruct W1 as [Srt W]. split; [apply ksorted_ains; auto |].
    assert (Old : forall v, (v < n)%nat -> trow (tableau s) v = None -> (v < S n)%nat /\ trow (tinsert n e (tableau s)) v = None).
    { intros v A N. split; [lia |]. rewrite trow_tinsert by auto. destruct (Nat.eqb_spec v n); [lia | auto]. }
    intros x m Hin. apply In_ains in Hin. destruct Hin as [Hin | Hin].
    + injection Hin as -> ->. split; [lia | split; auto]. intros v Hv. destruct (EV v Hv). auto.
    + destruct (W _ _ Hin) as [A [Bs' Cv]]. split; [lia | split; auto]. intros v Hv. destruct (Cv v Hv). auto.
  - (* values *)
    intro d. lra_proj. apply sat_rows_tinsert; auto. split.
    + unfold valq at 1. rewrite fupd_same. rewrite qd_at_red, value_lin_at. rewrite <- (EE _ (W2 d)). apply evalq_ext.
      intros v Hv. destruct (EV v Hv) as [A _]. unfold valq. rewrite !fupd_other by lia. reflexivity.
    + apply (sat_rows_ext n _ (valq d (vals s))); auto. intros v Hv. unfold valq. rewrite !fupd_other by lia. reflexivity.
  - intro rho. rewrite sat_rows_tinsert by auto. unfold sat_defs. split.
    + intros [H1 H2] m x [K | [K | K]].
      * injection K as <- <-. rewrite H1. apply EE. exact H2.
      * injection K as <- <-. rewrite evalq_lin_var. reflexivity.
      * apply (proj1 (W3 rho) H2). exact K.
    + intro H. assert (H2 : sat_rows (tableau s) rho). { apply (W3 rho). intros m x K. apply H. right. right. exact K. }
      split; auto. rewrite (EE _ H2). apply H. left. reflexivity.
  - intros m x [K | [K | K]].
    + injection K as <- <-. split; [lia |]. intros v Hv. specialize (LV v Hv). lia.
    + injection K as <- <-. split; [lia |]. intros v [<- | []]. simpl. lia.
    + destruct (W4 _ _ K) as [A Bv]. split; [lia |]. intros v Hv. specialize (Bv v Hv). lia.
  - exact W5.
  - intros a Ha. destruct (W6 a Ha) as [A [Bx Ce]]. split; [auto | split; [lia | auto]].
  - exact W7.
  - intros x Hx Tx. rewrite trow_tinsert in Tx by auto. destruct (Nat.eqb_spec x n) as [| E]; [discriminate |].
    rewrite !fupd_other by auto. apply within_dir. intros d o Ho. rewrite nvl_cb_other in Ho by auto.
    exact (proj1 (within_dir _ _ _) (W8 x ltac:(lia) Tx) d o Ho).
  - exact W9.
  - intros x d b Ha. specialize (W10 x d b Ha). lia.
  - (* the stack: root level *)
    rewrite Root, ES', ET. unfold root_atoms. lra_proj. simpl. rewrite app_nil_r. split; auto.
    assert (Gs : forall rho, sat_defs ((l, n) :: (lin_var n, n) :: exprs s) rho -> (forall r, In r t0 -> sat_atom rho r) -> sat_bounds (cb s) rho).
    { intros rho Hd Hr x d v Hb. rewrite RA in G. eapply (good_sound _ _ _ _ _ rho G); eauto.
      intros m y K. apply Hd. right. right. exact K. }
    split; [| split; [| split]].
    + (* consistent *)
      intros x lo hi Hl Hu. destruct (Nat.eq_dec x n) as [-> | N].
      * unfold n in Hl, Hu. rewrite (nvl_cb_slack s l Lower : nvl_cb s l (lb_index _) = _) in Hl. rewrite (nvl_cb_slack s l Upper : nvl_cb s l (ub_index _) = _) in Hu. simpl in Hl, Hu.
        destruct (lb_lin s l) as [lo' |] eqn:EL; [| discriminate]. destruct (ub_lin s l) as [hi' |] eqn:EU; [| discriminate].
        injection Hl as <-. injection Hu as <-.
        eapply qd_le_trans; [apply qd_eq_le; apply qd_red_eq |].
        eapply qd_le_trans; [apply (lb_lin_le_ub_lin s l lo' hi' C EL EU) |]. apply qd_eq_le. apply qd_eq_sym. apply qd_red_eq.
      * rewrite (nvl_cb_other s l x Lower N : nvl_cb s l (lb_index _) = _) in Hl. rewrite (nvl_cb_other s l x Upper N : nvl_cb s l (ub_index _) = _) in Hu. eapply C; eauto.
    + (* good: the bounds of the new slack are those of its expression, which hold in every model of the root atoms *)
      intros x d v Hb. destruct (Nat.eq_dec x n) as [-> | N].
      * left. unfold n in *. rewrite nvl_cb_slack in *. simpl in *. split; auto.
        destruct (side_lin d s l) as [b |] eqn:EL; [| discriminate]. injection Hb as <-.
        intros rho Hd Hr. apply (sat_dir_eq d (evalq rho l) _ b); [symmetry; apply Hd; left; auto | apply qd_eq_sym; apply qd_red_eq |].
        eapply side_lin_sound; eauto.
      * rewrite nvl_cb_other in * by auto. rewrite RA in G.
        destruct (G x d v Hb) as [[K1 K2] | K]; [left | right; auto]. split; auto.
        apply (root_just_mono (exprs s) _ t0 t0); [| apply incl_refl | exact K2]. intros rho H m y K. apply H. right. right. exact K.
    + intros x d b Hin. assert (x <> n).
      { assert (x < n)%nat; [| lia]. apply (W10 x d b). unfold all_atoms. rewrite ET. simpl. rewrite app_nil_r. exact Hin. }
      rewrite nvl_cb_other by auto. apply V. exact Hin.
    + intros i Hi. unfold nvl_cb. rewrite !fupd_other by (unfold lb_index, ub_index; lia). apply D. lia.
Qed.

Lemma wf_new_var_lin s l : wf s -> layers s = [] -> lin_ok s l -> wf (fst (new_var_lin s l)).
Proof.
  intros W R L. destruct (find_expr (exprs s) l) as [x |] eqn:E.
  - rewrite (new_var_lin_found s l x E). exact W.
  - rewrite (new_var_lin_fresh s l E). simpl. apply wf_nvl_state; auto.
Qed.

Definition rel_args_ok (s : state) (a b : lin) : Prop :=
  ksorted (lkeys a) /\ (forall v, In v (lkeys a) -> (v < nvars s)%nat) /\ (forall v, In v (lkeys b) -> (v < nvars s)%nat).
(* sat_core::new_var() returns assigns.size(): every variable known to the theory is smaller *)
Definition fresh_ok (s : state) (fresh : nat) : Prop :=
  fresh <> 0%nat /\ (forall a, In a (asrts s) -> (a_b a < fresh)%nat) /\ (forall p q c, In (p, q, c) (conjs s) -> (fst c < fresh)%nat).

Lemma rel_args_ok_mono s s' a b : (nvars s <= nvars s')%nat -> rel_args_ok s a b -> rel_args_ok s' a b.
Proof. intros N [A1 [A2 A3]]. split; [auto | split]; intros v Hv; [specialize (A2 v Hv) | specialize (A3 v Hv)]; lia. Qed.

Definition rel_expr (s : state) (a b : lin) : lin := mkLin (lterms (subst_basic (tableau s) (lin_sub a b))) 0.

Lemma rel_expr_ok s a b : wf s -> rel_args_ok s a b -> lin_ok s (rel_expr s a b).
Proof.
  intros W [Sa [Ha Hb]]. unfold rel_expr, lin_ok, lkeys. simpl.
  destruct (subst_basic_ok (nvars s) (tableau s) (lin_sub a b) (wf_tabl s W)) as [K1 K2].
  - apply ksorted_lin_sub. exact Sa.
  - intros w Hw. apply lkeys_lin_sub in Hw. destruct Hw; auto.
  - split; [exact K1 | intros v Hv; apply (K2 v Hv)].
Qed.

Lemma new_var_lin_fields s l :
  let s' := fst (new_var_lin s l) in
  asrts s' = asrts s /\ conjs s' = conjs s /\ layers s' = layers s /\ trail s' = trail s /\ snaps s' = snaps s /\ (nvars s <= nvars s')%nat.
Proof.
  unfold new_var_lin. destruct (find_expr (exprs s) l); simpl; repeat split; auto.
Qed.
Lemma new_var_lin_range s l : wf s -> (snd (new_var_lin s l) < nvars (fst (new_var_lin s l)))%nat.
Proof.
  intro W. unfold new_var_lin. destruct (find_expr (exprs s) l) as [x |] eqn:E; simpl; [| lia].
  apply find_expr_some in E. destruct E as [m [K _]]. destruct (wf_exprs s W _ _ K). auto.
Qed.

Lemma NoDup_app_one {A} (l : list A) a : NoDup l -> ~ In a l -> NoDup (l ++ [a]).
Proof. intros H N. apply (Permutation_NoDup (Permutation_cons_append l a)). constructor; auto. Qed.

Definition add_asrt (s : state) (a : assertion) : state :=
  mkS (nvars s) (cb s) (vals s) (tableau s) (exprs s) (asrts s ++ [a]) (conjs s) (layers s) (trail s) (snaps s).

Lemma wf_add_asrt s a :
  wf s -> a_b a <> 0%nat -> (forall a', In a' (asrts s) -> a_b a' <> a_b a) -> (forall p q c, In (p, q, c) (conjs s) -> fst c <> a_b a) ->
  (a_x a < nvars s)%nat -> eps_ok a -> wf (add_asrt s a).
Proof.
  intros [W1 W2 W3 W4 W5 W6 W7 W8 W9 W10 W11] H0 HA HC HX HE.
  constructor; unfold add_asrt; lra_proj; auto.
  - rewrite map_app. simpl. apply NoDup_app_one; auto. intro K. apply in_map_iff in K. destruct K as [a' [K1 K2]]. eapply HA; eauto.
  - intros a' Ha. apply in_app_or in Ha. destruct Ha as [Ha | [<- | []]]; auto.
  - intros p q c K. destruct (W7 _ _ _ K) as [A B]. split; auto. rewrite map_app. simpl. intro K2. apply in_app_or in K2.
    destruct K2 as [K2 | [K2 | []]]; auto. eapply HC; eauto.
  - unfold root_atoms. lra_proj. fold (root_atoms s).
    eapply stack_inv_mono; [apply Nat.le_refl | intros rho H; exact H | | exact W11]. apply incl_appl. apply incl_refl.
Qed.

Definition rel_cright (s : state) (r : rel) (a b : lin) : qd := (Qred (- lconst (subst_basic (tableau s) (lin_sub a b))), rel_eps r).

(* the shape of new_rel's result: decided by the bounds of the expression, by those of its slack, an assertion that exists
   already, or a new one *)
Inductive new_rel_spec (r : rel) (a b : lin) (fresh : nat) (s : state) : state * lit * nat -> Prop :=
| NR_early v : decided (rel_op r) (lb_lin s (rel_expr s a b)) (ub_lin s (rel_expr s a b)) (rel_cright s r a b) = Some v ->
               new_rel_spec r a b fresh s (s, if v then TRUE_lit else FALSE_lit, 0%nat)
| NR_slack v : let s1 := fst (new_var_lin s (rel_expr s a b)) in let slack := snd (new_var_lin s (rel_expr s a b)) in
               decided (rel_op r) (lbv s1 slack) (ubv s1 slack) (rel_cright s r a b) = Some v ->
               new_rel_spec r a b fresh s (s1, if v then TRUE_lit else FALSE_lit, 0%nat)
| NR_shared bv : let s1 := fst (new_var_lin s (rel_expr s a b)) in let slack := snd (new_var_lin s (rel_expr s a b)) in
               find_asrt (asrts s1) slack (rel_op r) (rel_cright s r a b) = Some bv ->
               new_rel_spec r a b fresh s (s1, (bv, true), 0%nat)
| NR_new : let s1 := fst (new_var_lin s (rel_expr s a b)) in let slack := snd (new_var_lin s (rel_expr s a b)) in
               new_rel_spec r a b fresh s (add_asrt s1 (mkA fresh (rel_op r) slack (rel_cright s r a b)), (fresh, true), 1%nat).

Lemma new_rel_cases r a b fresh s : new_rel_spec r a b fresh s (new_rel r a b fresh s).
Proof.
  unfold new_rel. fold (rel_expr s a b). fold (rel_cright s r a b).
  destruct (decided (rel_op r) (lb_lin s (rel_expr s a b)) (ub_lin s (rel_expr s a b)) (rel_cright s r a b)) as [[|] |] eqn:D1;
    [exact (NR_early r a b fresh s true D1) | exact (NR_early r a b fresh s false D1) |].
  rewrite (surjective_pairing (new_var_lin s (rel_expr s a b))).
  destruct (decided (rel_op r) (lbv _ _) (ubv _ _) (rel_cright s r a b)) as [[|] |] eqn:D2;
    [exact (NR_slack r a b fresh s true D2) | exact (NR_slack r a b fresh s false D2) |].
  destruct (find_asrt _ _ (rel_op r) (rel_cright s r a b)) as [bv |] eqn:Fa; [exact (NR_shared r a b fresh s bv Fa) | apply NR_new].
Qed.

Lemma eps_ok_rel r x c fresh : eps_ok (mkA fresh (rel_op r) x (c, rel_eps r)).
Proof. unfold eps_ok. destruct r; simpl; auto; [right | left | left | right]; reflexivity. Qed.

Lemma fresh_ok_weaken s s' f f' : fresh_ok s f -> asrts s' = asrts s -> conjs s' = conjs s -> (f <= f')%nat -> fresh_ok s' f'.
Proof.
  intros [F0 [FA FC]] EA EC L. split; [lia | split].
  - rewrite EA. intros a Ha. specialize (FA a Ha). lia.
  - rewrite EC. intros p q c K. specialize (FC p q c K). lia.
Qed.

Lemma wf_new_rel s r a b fresh :
  wf s -> layers s = [] -> rel_args_ok s a b -> fresh_ok s fresh ->
  let res := new_rel r a b fresh s in
  wf (fst (fst res)) /\ layers (fst (fst res)) = [] /\ fresh_ok (fst (fst res)) (fresh + snd res) /\ (nvars s <= nvars (fst (fst res)))%nat.
Proof.
  intros W Root Args F res. unfold res.
  pose proof (rel_expr_ok s a b W Args) as LO.
  destruct (new_var_lin_fields s (rel_expr s a b)) as [EA [EC [EL [_ [_ EN]]]]].
  (* the state with the slack of the expression *)
  assert (S1 : let s1 := fst (new_var_lin s (rel_expr s a b)) in wf s1 /\ layers s1 = [] /\ fresh_ok s1 fresh /\ (nvars s <= nvars s1)%nat).
  { split; [apply wf_new_var_lin; auto | split; [rewrite EL; exact Root | split; [eapply fresh_ok_weaken; eauto | exact EN]]]. }
  destruct (new_rel_cases r a b fresh s) as [v D | v s1 slack D2 | bv s1 slack F' | s1 slack]; cbn [fst snd]; rewrite ?Nat.add_0_r; auto.
  destruct S1 as [W1 [R1 [[F0 [FA FC]] N1]]]. fold s1 in W1, R1, FA, FC, N1. split; [| split; [exact R1 | split; [| exact N1]]].
  - apply wf_add_asrt; auto; simpl.
    + intros a' Ha. specialize (FA a' Ha). lia.
    + intros p q c K. specialize (FC p q c K). lia.
    + apply new_var_lin_range. exact W.
    + apply eps_ok_rel.
  - split; [lia | split]; simpl.
    + intros a' Ha. apply in_app_or in Ha. destruct Ha as [Ha | [<- | []]]; [specialize (FA a' Ha); lia | simpl; lia].
    + intros p q c K. specialize (FC p q c K). lia.
Qed.

Definition add_conj (s : state) (e : lit * lit * lit) : state :=
  mkS (nvars s) (cb s) (vals s) (tableau s) (exprs s) (asrts s) (e :: conjs s) (layers s) (trail s) (snaps s).

Lemma new_conj2_state al p q fresh s :
  fst (fst (new_conj2 al p q fresh s)) = s \/ exists p' q', fst (fst (new_conj2 al p q fresh s)) = add_conj s (p', q', (fresh, true)).
Proof.
  unfold new_conj2. destruct (if Nat.ltb (fst q) (fst p) then (q, p) else (p, q)) as [p' q'].
  destruct (lvalue al p') as [[|] |]; destruct (lvalue al q') as [[|] |]; simpl; auto;
  repeat (match goal with |- context [if ?c then _ else _] => destruct c end; simpl; auto);
  destruct (find_conj (conjs s) p' q'); simpl; auto; right; exists p', q'; reflexivity.
Qed.

Lemma wf_add_conj s p q fresh : wf s -> fresh_ok s fresh -> wf (add_conj s (p, q, (fresh, true))).
Proof.
  intros [W1 W2 W3 W4 W5 W6 W7 W8 W9 W10 W11] [F0 [FA FC]]. constructor; unfold add_conj; lra_proj; auto.
  intros x y c [K | K]; [| eapply W7; eauto]. injection K as <- <- <-. simpl. split; auto.
  intro K2. apply in_map_iff in K2. destruct K2 as [a' [K3 K4]]. specialize (FA a' K4). lia.
Qed.

Lemma wf_new_conj2 s al p q fresh : wf s -> fresh_ok s fresh -> wf (fst (fst (new_conj2 al p q fresh s))).
Proof. intros W F. destruct (new_conj2_state al p q fresh s) as [-> | [p' [q' ->]]]; [exact W | apply wf_add_conj; auto]. Qed.

Lemma wf_new_eq s al a b fresh :
  wf s -> layers s = [] -> rel_args_ok s a b -> fresh_ok s fresh -> wf (fst (fst (new_eq al a b fresh s))).
Proof.
  intros W Root Args F. unfold new_eq.
  pose proof (wf_new_rel s Rgeq a b fresh W Root Args F) as H1.
  destruct (new_rel Rgeq a b fresh s) as [[s1 g] n1]. cbn [fst snd] in H1. destruct H1 as [W1 [R1 [F1 N1]]].
  pose proof (rel_args_ok_mono s s1 a b N1 Args) as Args1.
  pose proof (wf_new_rel s1 Rleq a b (fresh + n1) W1 R1 Args1 F1) as H2.
  destruct (new_rel Rleq a b (fresh + n1) s1) as [[s2 l] n2]. cbn [fst snd] in H2. destruct H2 as [W2 [R2 [F2 N2]]].
  pose proof (wf_new_conj2 s2 al g l (fresh + n1 + n2) W2 F2) as H3.
  destruct (new_conj2 al g l (fresh + n1 + n2) s2) as [[s3 c] n3]. exact H3.
Qed.

Definition al_noop (s : state) (x_i : var) (d : dir) (val : qd) : state :=
  mkS (nvars s) (cb s) (vals s) (tableau s) (exprs s) (asrts s) (conjs s) (layers s) (push_atom (trail s) (x_i, d, val)) (snaps s).
Definition al_set (s : state) (x_i : var) (d : dir) (val : qd) (p : lit) : state :=
  mkS (nvars s) (fupd (cb s) (idx x_i d) (mkB (Some val) p)) (vals s) (tableau s) (exprs s) (asrts s) (conjs s)
      (save_bound s (idx x_i d)) (push_atom (trail s) (x_i, d, val)) (snaps s).
(* the bound is set; a non-basic variable whose value violates it is moved onto it (mv) *)
Definition al_state (mv : bool) (s : state) (x_i : var) (d : dir) (val : qd) (p : lit) : state :=
  let s1 := al_set s x_i d val p in if mv then update s1 x_i val else s1.
(* assert_lower / assert_upper, by direction *)
Definition assert_dir (d : dir) (s : state) (al : assign) (x : var) (val : qd) (p : lit) : state * aresult :=
  match d with Lower => assert_lower s al x val p | Upper => assert_upper s al x val p end.
Lemma assert_dir_fst d s al x val p :
  fst (assert_dir d s al x val p) =
  if match bval (cb s (idx x d)) with Some o => tighter_b d val o | None => false end then al_noop s x d val
  else if match bval (cb s (idx x (opp d))) with Some o => stricter_b d o val | None => false end then s
  else al_state (stricter_b d (vals s x) val && negb (is_basic s x)) s x d val p.
Proof.
  destruct d; cbn [assert_dir idx opp tighter_b stricter_b];
    [unfold assert_lower, le_lb, gt_ub, lbv, ubv | unfold assert_upper, ge_ub, lt_lb, lbv, ubv];
    (match goal with |- fst (if ?c then _ else _) = _ => destruct c; [reflexivity |] end);
    (match goal with |- fst (if ?c then _ else _) = _ => destruct c; [reflexivity |] end);
    (destruct (unate_loop _ al _) as [[al1 ls1] [c1 |]]; [reflexivity |]; destruct (rows_loop _ al1 _) as [[al2 ls2] [c2 |]]; reflexivity).
Qed.

Definition justified (s : state) (p : lit) (a : atom) : Prop := by_asrt (asrts s) p a \/ (p = TRUE_lit /\ layers s = []).

Lemma root_atoms_push s s' a :
  wf s -> trail s' = push_atom (trail s) a -> root_atoms s' = match layers s with [] => a :: root_atoms s | _ => root_atoms s end.
Proof.
  intros W Etr. pose proof (wf_stack s W) as H. unfold root_atoms. rewrite Etr.
  destruct (layers s) as [| L Ls], (snaps s) as [| B Bs], (trail s) as [| t ts]; simpl in H; try tauto.
  - destruct ts; [reflexivity | tauto].
  - destruct H as [_ [_ [_ H]]]. apply stack_inv_trail_nonempty in H. destruct ts; [congruence | reflexivity].
Qed.
Lemma all_atoms_push s a z : wf s -> (In z (concat (push_atom (trail s) a)) <-> z = a \/ In z (all_atoms s)).
Proof.
  intro W. pose proof (stack_inv_trail_nonempty _ _ _ _ _ _ _ _ (wf_stack s W)) as NE. unfold all_atoms.
  destruct (trail s) as [| t ts]; [congruence |]. simpl. split; intros [H | H]; auto.
Qed.

Lemma wf_al_noop s x_i d val :
  wf s -> (x_i < nvars s)%nat -> sign_ok (x_i, d, val) -> (exists o, bval (cb s (idx x_i d)) = Some o /\ tighter d val o) ->
  wf (al_noop s x_i d val).
Proof.
  intros W Hx Hs Ho. pose proof (root_atoms_push s (al_noop s x_i d val) (x_i, d, val) W eq_refl) as RA. pose proof (all_atoms_push s (x_i, d, val)) as AA.
  destruct W as [W1 W2 W3 W4 W5 W6 W7 W8 W9 W10 W11].
  assert (W : wf s) by (constructor; auto).
  constructor; unfold al_noop; lra_proj; auto.
  - intros a Ha. unfold all_atoms in Ha. lra_proj. apply (AA a W) in Ha. destruct Ha as [-> | Ha]; auto.
  - intros x e b Ha. unfold all_atoms in Ha. lra_proj. apply (AA _ W) in Ha. destruct Ha as [Ha | Ha]; [injection Ha as -> -> ->; auto | eauto].
  - unfold al_noop in RA. rewrite RA. apply stack_inv_noop; auto.
Qed.

Lemma vals_update_other s x_i v y : y <> x_i -> trow (tableau s) y = None -> vals (update s x_i v) y = vals s y.
Proof. intros N T. unfold update. simpl. apply Nat.eqb_neq in N. rewrite N, T. reflexivity. Qed.
Lemma vals_update_same s x_i v : vals (update s x_i v) x_i = v.
Proof. unfold update. simpl. rewrite Nat.eqb_refl. reflexivity. Qed.
Lemma is_basic_false s x : is_basic s x = false <-> trow (tableau s) x = None.
Proof. unfold is_basic. destruct (trow (tableau s) x); split; congruence. Qed.

(* the bound of x in direction d becomes val (at least as tight as the old one, not beyond the opposite bound) *)
Lemma wf_al_state (mv : bool) s x d val p :
  wf s -> (x < nvars s)%nat -> sign_ok (x, d, val) -> justified s p (x, d, val) ->
  (forall o, bval (cb s (idx x d)) = Some o -> tighter d o val) ->
  (forall o, bval (cb s (idx x (opp d))) = Some o -> tighter d val o) ->
  (if mv then trow (tableau s) x = None else trow (tableau s) x = None -> tighter d val (vals s x)) ->
  wf (al_state mv s x d val p).
Proof.
  intros W Hx Hs HA HT HC Hmv. set (s2 := al_state mv s x d val p).
  assert (F : nvars s2 = nvars s /\ cb s2 = fupd (cb s) (idx x d) (mkB (Some val) p) /\ tableau s2 = tableau s /\ exprs s2 = exprs s /\
              asrts s2 = asrts s /\ conjs s2 = conjs s /\ layers s2 = save_bound s (idx x d) /\
              trail s2 = push_atom (trail s) (x, d, val) /\ snaps s2 = snaps s).
  { unfold s2, al_state. destruct mv; repeat split. }
  destruct F as [En [Ecb [Et [Ee [Ea [Ec [El [Etr Es]]]]]]]].
  pose proof (root_atoms_push s s2 (x, d, val) W Etr) as RA. pose proof (all_atoms_push s (x, d, val)) as AA.
  destruct W as [W1 W2 W3 W4 W5 W6 W7 W8 W9 W10 W11].
  assert (W : wf s) by (constructor; auto).
  constructor; rewrite ?En, ?Et, ?Ee, ?Ea, ?Ec, ?Es; auto.
  - unfold s2, al_state. destruct mv; [apply vals_ok_update; auto | exact W2].
  - intros y Hy Ty. rewrite Ecb. apply within_dir. intros e o Ho. destruct (Nat.eq_dec (idx y e) (idx x d)) as [Eq | N].
    + (* the new bound *)
      destruct (idx_inj _ _ _ _ Eq) as [-> ->]. rewrite fupd_same in Ho. injection Ho as <-.
      unfold s2, al_state. destruct mv; [rewrite vals_update_same; apply tighter_refl | auto].
    + rewrite fupd_other in Ho by exact N. destruct (Nat.eq_dec y x) as [-> | Nx].
      * (* the opposite bound of x *)
        assert (e = opp d) as -> by (destruct e, d; simpl; congruence).
        unfold s2, al_state. destruct mv; [rewrite vals_update_same; apply tighter_opp; auto |].
        exact (proj1 (within_dir _ _ _) (W8 x Hy Ty) _ o Ho).
      * replace (vals s2 y) with (vals s y); [exact (proj1 (within_dir _ _ _) (W8 y Hy Ty) e o Ho) |].
        unfold s2, al_state. destruct mv; [exact (eq_sym (vals_update_other (al_set s x d val p) x val y Nx Ty)) | reflexivity].
  - intros a Ha. unfold all_atoms in Ha. rewrite Etr in Ha. apply (AA a W) in Ha. destruct Ha as [-> | Ha]; auto.
  - intros y e b Ha. unfold all_atoms in Ha. rewrite Etr in Ha. apply (AA _ W) in Ha.
    destruct Ha as [Ha | Ha]; [injection Ha as -> -> ->; auto | eauto].
  - rewrite RA, Etr, Ecb, El. rewrite save_bound_eq. apply stack_inv_set; auto.
Qed.

Lemma wf_assert_dir d s al x val p :
  wf s -> (x < nvars s)%nat -> sign_ok (x, d, val) -> justified s p (x, d, val) -> wf (fst (assert_dir d s al x val p)).
Proof.
  intros W Hx Hs HA. rewrite assert_dir_fst.
  destruct (match bval (cb s (idx x d)) with Some o => tighter_b d val o | None => false end) eqn:E1.
  { apply wf_al_noop; auto. destruct (bval (cb s (idx x d))) as [o |]; [| discriminate]. exists o. split; auto. apply tighter_b_true, E1. }
  destruct (match bval (cb s (idx x (opp d))) with Some o => stricter_b d o val | None => false end) eqn:E2; [exact W |].
  apply wf_al_state; auto.
  - intros o Ho. rewrite Ho in E1. apply tighter_b_false, E1.
  - intros o Ho. rewrite Ho in E2. apply stricter_b_false, E2.
  - destruct (stricter_b d (vals s x) val) eqn:E3; simpl.
    + destruct (is_basic s x) eqn:B; simpl; [intro T; apply is_basic_false in T; congruence | apply is_basic_false, B].
    + intros _. apply stricter_b_false, E3.
Qed.

Lemma find_by_var_some A b a : find_by_var A b = Some a -> In a A /\ a_b a = b.
Proof.
  induction A as [| a' t IH]; simpl; [discriminate |]. destruct (Nat.eqb_spec (a_b a') b) as [E | E].
  - intro H; injection H as <-. auto.
  - intro H. destruct (IH H). auto.
Qed.

(* propagate(p) asserts the atom of the literal *)
Lemma propagate_eq s al p :
  propagate s al p =
  match find_by_var (asrts s) (fst p) with
  | Some a => match al (a_b a) with
              | Some sg => let '(x, d, val) := asrt_atom a sg in assert_dir d s al x val p
              | None => (s, mkR true [] [] al)
              end
  | None => (s, mkR true [] [] al)
  end.
Proof.
  unfold propagate, asrt_atom. destruct (find_by_var (asrts s) (fst p)) as [a |]; auto.
  destruct (al (a_b a)) as [[|] |]; auto; destruct (a_o a); reflexivity.
Qed.
Lemma asrt_atom_var a sg : fst (fst (asrt_atom a sg)) = a_x a.
Proof. unfold asrt_atom. destruct (a_o a), sg; reflexivity. Qed.
Lemma asrt_atom_sign a sg : eps_ok a -> sign_ok (asrt_atom a sg).
Proof.
  unfold eps_ok, asrt_atom, qd_red, qd_add, qd_sub, qd_eps. destruct (a_o a), sg; cbn [fst snd sign_ok]; rewrite ?Qred_correct;
    intros [K | K]; rewrite K; lra.
Qed.
(* what the environment's contract gives for the asserted atom *)
Lemma propagate_atom s al p a sg :
  wf s -> lvalue al p = Some true -> find_by_var (asrts s) (fst p) = Some a -> al (a_b a) = Some sg ->
  (a_x a < nvars s)%nat /\ sign_ok (asrt_atom a sg) /\ by_asrt (asrts s) p (asrt_atom a sg).
Proof.
  intros W Hp F Eal. apply find_by_var_some in F. destruct F as [Ha Hb]. destruct (wf_asrts s W a Ha) as [_ [Ax Ae]].
  split; [exact Ax | split; [apply asrt_atom_sign, Ae |]]. exists a, sg. split; [exact Ha | split; [| reflexivity]].
  unfold lvalue in Hp. rewrite <- Hb, Eal in Hp. destruct p as [v b]. simpl in *. subst v. destruct b, sg; simpl in Hp; congruence.
Qed.

Lemma wf_propagate s al p : wf s -> lvalue al p = Some true -> wf (fst (propagate s al p)).
Proof.
  intros W Hp. rewrite propagate_eq. destruct (find_by_var (asrts s) (fst p)) as [a |] eqn:F; [| exact W].
  destruct (al (a_b a)) as [sg |] eqn:Eal; [| exact W]. destruct (propagate_atom s al p a sg W Hp F Eal) as [Hx [Hs HA]].
  pose proof (asrt_atom_var a sg) as Ev. destruct (asrt_atom a sg) as [[x d] val]. simpl in Ev. subst x.
  apply wf_assert_dir; auto. left. exact HA.
Qed.

Lemma wf_level s : wf s -> level_inv (nvars s) (exprs s) (asrts s) (root_atoms s) (cb s) (all_atoms s).
Proof. intro W. apply (stack_inv_level _ _ _ _ _ _ _ _ (wf_stack s W)). Qed.

Lemma const0_pivot_tab T expr x_i x_j cf :
  (forall x l, In (x, l) T -> lconst l == 0) -> trow T x_i = Some expr -> ~ cf == 0 ->
  forall x l, In (x, l) (pivot_tab T expr x_i x_j cf) -> lconst l == 0.
Proof.
  intros C Hi Hz x l Hin.
  assert (C3 : lconst (pivot_e3 expr x_i x_j cf) == 0).
  { unfold pivot_e3, lin_div, lin_remove. simpl. rewrite Qred_correct. rewrite (C _ _ (trow_In _ _ _ Hi)). field. intro K. apply Hz. lra. }
  unfold pivot_tab in Hin. apply In_ains in Hin. destruct Hin as [Hin | Hin].
  - injection Hin as -> ->. exact C3.
  - apply in_map_iff in Hin. destruct Hin as [[z k] [Heq Hin]]. simpl in Heq. injection Heq as <- <-.
    apply In_arem in Hin. unfold pivot_row. simpl. destruct (coef x_j (lterms k)) as [cc |]; [| eapply C; eauto].
    unfold lin_add_scaled, lin_remove. simpl. rewrite Qred_correct, C3, (C _ _ Hin). ring.
Qed.

Lemma wf_pivot_and_update s x_i x_j v ri aij :
  wf s -> trow (tableau s) x_i = Some ri -> coef x_j (lterms ri) = Some aij -> ~ aij == 0 ->
  within (cb s) x_i v -> wf (pivot_and_update s x_i x_j v).
Proof.
  intros W Hi Hj Hz Hw.
  pose proof (vals_ok_pivot_and_update s x_i x_j v ri aij (wf_tabl s W) (wf_vals s W) Hi Hj Hz) as Vok.
  destruct W as [W1 W2 W3 W4 W5 W6 W7 W8 W9 W10 W11].
  unfold pivot_and_update in *. rewrite Hi, Hj in *.
  match goal with |- wf (pivot (set_vals s ?f) _ _) => set (vl := f) in * end.
  rewrite (pivot_unfold (set_vals s vl) x_i x_j ri aij) in * by (simpl; auto).
  constructor; unfold set_tableau, set_vals in *; lra_proj; auto.
  - apply wf_tab_pivot; auto.
  - intro rho. rewrite (pivot_tab_equiv (nvars s) (tableau s) ri x_i x_j aij rho W1 Hi Hj Hz). apply (W3 rho).
  - intros x Hx Tx. rewrite (trow_pivot_tab (nvars s) _ _ _ _ _ x W1 Hi Hj) in Tx.
    destruct (Nat.eqb x x_j) eqn:E1; [discriminate |]. unfold vl. destruct (Nat.eqb_spec x x_i) as [-> | E2]; [exact Hw |].
    rewrite E1. destruct (trow (tableau s) x) as [l |] eqn:Tx2; [discriminate |]. apply W8; auto.
Qed.

Lemma find_violated_spec s T x l : find_violated s T = Some (x, l) ->
  In (x, l) T /\ (lt_lb (vals s x) (lbv s x) || gt_ub (vals s x) (ubv s x) = true).
Proof.
  induction T as [| [y m] t IH]; simpl; [discriminate |].
  destruct (lt_lb (vals s y) (lbv s y) || gt_ub (vals s y) (ubv s y)) eqn:E.
  - intro H; injection H as <- <-. auto.
  - intro H. destruct (IH H). auto.
Qed.
Lemma find_violated_none s T : find_violated s T = None ->
  forall x l, In (x, l) T -> lt_lb (vals s x) (lbv s x) = false /\ gt_ub (vals s x) (ubv s x) = false.
Proof.
  induction T as [| [y m] t IH]; simpl; [tauto |].
  destruct (lt_lb (vals s y) (lbv s y) || gt_ub (vals s y) (ubv s y)) eqn:E; [discriminate |].
  intros H x l [K | K]; [injection K as <- <-; apply orb_false_iff; exact E | apply (IH H x l K)].
Qed.
Lemma find_pivot_spec s up ts v : ksorted (keys ts) -> find_pivot s up ts = Some v ->
  exists c, coef v ts = Some c /\ ~ c == 0.
Proof.
  induction ts as [| [w c] t IH]; simpl; [discriminate |]. intros [S1 S2].
  match goal with |- context [if ?b then Some w else _] => destruct b eqn:E end.
  - intro H; injection H as <-. rewrite Nat.eqb_refl. exists c. split; auto.
    destruct up; apply orb_true_iff in E; destruct E as [E | E]; apply andb_true_iff in E; destruct E as [E _];
      try (apply qpos_true in E); try (apply qneg_true in E); intro K; rewrite K in E; lra.
  - intro H. destruct (IH S2 H) as [c' [K1 K2]]. exists c'. split; auto.
    destruct (Nat.eqb_spec v w) as [-> | _]; auto. apply alook_keys in K1. specialize (S1 w K1). lia.
Qed.

(* a finite bound of x lies within the bounds of x *)
Lemma bound_within s x d b : consistent (cb s) -> bval (cb s (idx x d)) = Some b -> within (cb s) x b.
Proof.
  intros C H. destruct d; cbn [idx] in H; split; intros o Ho; try (rewrite H in Ho; injection Ho as <-; apply qd_le_refl); eapply C; eauto.
Qed.

(* check as a recursion: out of fuel; no violated row; a violated row (up: below its lower bound) without / with a pivot
   candidate *)
Lemma check_cases (P : state -> state * cres -> Prop) :
  (forall s, P s (s, COutOfFuel)) ->
  (forall s, find_violated s (tableau s) = None -> P s (s, CSat)) ->
  (forall s x_i l up, find_violated s (tableau s) = Some (x_i, l) -> up = lt_lb (vals s x_i) (lbv s x_i) ->
     find_pivot s up (lterms l) = None ->
     P s (s, CConflict (explain s up (lterms l) ++ [lneg (breason (cb s (idx x_i (bdir up))))]))) ->
  (forall s x_i l up x_j r, find_violated s (tableau s) = Some (x_i, l) -> up = lt_lb (vals s x_i) (lbv s x_i) ->
     find_pivot s up (lterms l) = Some x_j ->
     P (pivot_and_update s x_i x_j (match bval (cb s (idx x_i (bdir up))) with Some b => b | None => (0, 0) end)) r -> P s r) ->
  forall fuel s, P s (check fuel s).
Proof.
  intros H0 Hs Hc Hp. induction fuel as [| f IH]; intro s; simpl; [apply H0 |].
  destruct (find_violated s (tableau s)) as [[x_i l] |] eqn:FV; [| apply Hs, FV].
  destruct (lt_lb (vals s x_i) (lbv s x_i)) eqn:E.
  - destruct (find_pivot s true (lterms l)) as [x_j |] eqn:FP; [apply (Hp s x_i l true x_j); auto; apply IH | apply (Hc s x_i l true); auto].
  - destruct (find_pivot s false (lterms l)) as [x_j |] eqn:FP; [apply (Hp s x_i l false x_j); auto; apply IH | apply (Hc s x_i l false); auto].
Qed.
(* the bound that the violated row's variable violates *)
Lemma violated_bound s x_i l up : find_violated s (tableau s) = Some (x_i, l) -> up = lt_lb (vals s x_i) (lbv s x_i) ->
  In (x_i, l) (tableau s) /\ exists b, bval (cb s (idx x_i (bdir up))) = Some b /\ stricter_b (bdir up) (vals s x_i) b = true.
Proof.
  intros FV ->. apply find_violated_spec in FV. destruct FV as [Hin Viol]. split; [exact Hin |].
  unfold lt_lb, gt_ub, lbv, ubv in *. destruct (match bval (cb s (lb_index x_i)) with Some l0 => qd_ltb (vals s x_i) l0 | None => false end) eqn:E; simpl in *.
  - destruct (bval (cb s (lb_index x_i))) as [b |]; [eauto | discriminate].
  - destruct (bval (cb s (ub_index x_i))) as [b |]; [eauto | discriminate].
Qed.

Lemma wf_check fuel s : wf s -> wf (fst (check fuel s)).
Proof.
  apply (check_cases (fun s r => wf s -> wf (fst r))); auto. clear. intros s x_i l up x_j r FV Eup FP IH W. apply IH.
  destruct (violated_bound s x_i l up FV Eup) as [Hin [b [Eb _]]]. rewrite Eb.
  pose proof (wf_tabl s W) as [S WT]. destruct (WT _ _ Hin) as [_ [Sl _]]. destruct (wf_level s W) as [Cons _].
  destruct (find_pivot_spec s up _ x_j Sl FP) as [c [Hc Hz]].
  apply (wf_pivot_and_update s x_i x_j _ l c); auto using In_trow. eapply bound_within; eauto.
Qed.

Lemma qd_ltb_false_le a b : qd_ltb a b = false -> qd_le b a.
Proof. apply qd_ltb_false. Qed.

(* the contract of the environment (sat_core and the callers of the new_xx functions) for one event in state s *)
Definition ok_event (s : state) (e : event) : Prop :=
  match e with
  | ENewVar => True
  | ENewVarLin l => layers s = [] /\ lin_ok s l
  | ENewRel r a b fresh => layers s = [] /\ rel_args_ok s a b /\ fresh_ok s fresh
  | ENewEq al a b fresh => layers s = [] /\ rel_args_ok s a b /\ fresh_ok s fresh
  | EPropagate al p => lvalue al p = Some true
  | ESetBound al d x v => layers s = [] /\ (x < nvars s)%nat /\ sign_ok (x, d, v)
  | ECheck _ => True
  | EPush => True
  | EPop => True
  end.

Inductive reach : state -> Prop :=
| reach_init : reach init_state
| reach_step s e : reach s -> ok_event s e -> reach (fst (step e s)).

Lemma wf_init : wf init_state.
Proof.
  constructor; simpl; auto; try (intros; contradiction); try tauto.
  - split; simpl; auto. intros x l [].
  - intros d x l [].
  - intro rho. split; intros H a b [].
  - constructor.
  - intros x Hx. lia.
  - unfold root_atoms. simpl. split; auto. split; [| split; [| split]].
    + intros x l u H. discriminate.
    + intros x d v H. discriminate.
    + intros x d b [].
    + intros i _. reflexivity.
Qed.

Lemma wf_step s e : wf s -> ok_event s e -> wf (fst (step e s)).
Proof.
  intros W Ok. destruct e; cbn [step ok_event] in *.
  - pose proof (wf_new_var s W) as H. destruct (new_var s). exact H.
  - destruct Ok as [R L]. pose proof (wf_new_var_lin s l W R L) as H. destruct (new_var_lin s l). exact H.
  - destruct Ok as [R [A F]]. pose proof (wf_new_rel s r left right fresh W R A F) as H.
    destruct (new_rel r left right fresh s) as [[s' l'] n']. cbn [fst snd] in *. tauto.
  - destruct Ok as [R [A F]]. pose proof (wf_new_eq s al left right fresh W R A F) as H.
    destruct (new_eq al left right fresh s) as [[s' l'] n']. exact H.
  - pose proof (wf_propagate s al p W Ok) as H. destruct (propagate s al p). exact H.
  - destruct Ok as [R [Hx Sg]]. pose proof (wf_assert_dir d s al x v TRUE_lit W Hx Sg (or_intror (conj eq_refl R))) as H.
    fold (assert_dir d s al x v TRUE_lit). destruct (assert_dir d s al x v TRUE_lit). exact H.
  - pose proof (wf_check fuel s W) as H. destruct (check fuel s). exact H.
  - apply wf_push. exact W.
  - apply wf_pop. exact W.
Qed.

Theorem wf_reach s : reach s -> wf s.
Proof. induction 1; [apply wf_init | apply wf_step; auto]. Qed.
