(* sat_core::analyze: the learnt clause is a resolvent of the conflict with reasons of the current level
   (entailed by the axioms), it is asserting after the backjump, and the invariant survives. *)
From Coq Require Import List Arith Bool ZArith Lia Permutation Sorted.
From ORatio Require Import smt.SatCoreBase smt.SatCoreSpec smt.SatCore proofs.SatCoreBase_Proofs proofs.SatCoreInv_Proofs
  proofs.SatCorePrim_Proofs proofs.SatCoreStep_Proofs.
Import ListNotations.

(* counting the elements of a duplicate-free trail that carry a given variable *)
Lemma filter_var_none : forall (tr : list lit) v (P : lit -> bool), ~ In v (map fst tr) ->
  filter (fun q => Nat.eqb (fst q) v && P q) tr = [].
Proof.
  induction tr as [|x t IH]; intros v P H; simpl; auto. simpl in H.
  destruct (Nat.eqb_spec (fst x) v). exfalso; auto. simpl. apply IH. auto.
Qed.
Lemma filter_var_one : forall (tr : list lit) q (P : lit -> bool), NoDup (map fst tr) -> In q tr ->
  length (filter (fun x => Nat.eqb (fst x) (fst q) && P x) tr) = if P q then 1 else 0.
Proof.
  induction tr as [|x t IH]; intros q P ND Hin. destruct Hin.
  simpl in ND. inversion ND as [|? ? Hn ND']; subst. simpl. destruct Hin as [->|Hin].
  - rewrite Nat.eqb_refl. simpl. rewrite filter_var_none by auto. destruct (P q); auto.
  - destruct (Nat.eqb_spec (fst x) (fst q)) as [E|E].
    + exfalso. apply Hn. rewrite E. now apply in_map.
    + simpl. apply IH; auto.
Qed.
Lemma filter_length_split : forall A (f g h : A -> bool) (l : list A),
  (forall x, f x = g x || h x) -> (forall x, g x && h x = false) ->
  length (filter f l) = length (filter g l) + length (filter h l).
Proof.
  induction l as [|x t IH]; intros Hf Hd; simpl; auto.
  rewrite Hf. pose proof (Hd x) as Hdx. destruct (g x), (h x); simpl in *; try discriminate; rewrite IH; auto; lia.
Qed.

Lemma filter_all_false : forall A (f : A -> bool) l, (forall x, In x l -> f x = false) -> filter f l = [].
Proof.
  induction l as [|x t IH]; intros H; simpl; auto. rewrite (H x) by (simpl; auto). apply IH. intros; apply H; simpl; auto.
Qed.
Lemma suffix_in : forall A (l pre suf pre' suf' : list A) q, l = pre ++ suf -> l = pre' ++ q :: suf' ->
  length suf' < length suf -> In q suf.
Proof.
  intros A l pre. revert l. induction pre as [|x pre IH]; intros l suf pre' suf' q E1 E2 Hlen.
  - simpl in E1. subst l. rewrite E2. apply in_or_app. simpl; auto.
  - destruct pre' as [|y pre'].
    + exfalso. subst l. simpl in E2. apply (f_equal (@length A)) in E2. simpl in E2. rewrite app_length in E2. lia.
    + subst l. simpl in E2. inversion E2. eapply IH; eauto.
Qed.

Lemma NoDup_app_single : forall A (l : list A) x, NoDup l -> ~ In x l -> NoDup (l ++ [x]).
Proof.
  induction l as [|y t IH]; intros x ND H; simpl. repeat constructor; auto.
  inversion ND; subst. constructor.
  - intros Hin. apply in_app_or in Hin. destruct Hin as [Hin|[<-|[]]]; auto. apply H. simpl; auto.
  - apply IH; auto. intros Hin. apply H. simpl; auto.
Qed.

Lemma suffix_split : forall A (l pre suf pre' suf' : list A) q, l = pre ++ suf -> l = pre' ++ q :: suf' ->
  length suf' < length suf -> exists pre2, suf = pre2 ++ q :: suf'.
Proof.
  intros A l pre. revert l. induction pre as [|x pre IH]; intros l suf pre' suf' q E1 E2 Hlen.
  - simpl in E1. subst l. exists pre'. exact E2.
  - destruct pre' as [|y pre'].
    + exfalso. subst l. simpl in E2. apply (f_equal (@length A)) in E2. simpl in E2. rewrite app_length in E2. lia.
    + subst l. simpl in E2. inversion E2. eapply IH; eauto.
Qed.
Lemma nodup_fst_taut : forall (ls : list lit) l, NoDup (map fst ls) -> In l ls -> ~ In (lneg l) ls.
Proof.
  induction ls as [|x t IH]; intros l ND Hl Hn. destruct Hl.
  simpl in ND. apply NoDup_cons_iff in ND. destruct ND as [Hx ND].
  destruct Hl as [->|Hl], Hn as [E|Hn].
  - symmetry in E. now apply lneg_neq in E.
  - apply Hx. replace (fst l) with (fst (lneg l)) by reflexivity. now apply in_map.
  - apply Hx. rewrite E. simpl. now apply in_map.
  - exact (IH l ND Hl Hn).
Qed.

Section Analyze.
  Context {TS : Type}.
  Variable T : asg -> Prop.
  Notation state := (@state TS).

  Definition lvl (s : state) (q : lit) : nat := nth (fst q) (level s) 0.
  Definition seenb (seen : list nat) (q : lit) : bool := memv (fst q) seen.
  Definition resolvent (s : state) (seen : list nat) (learnt : list lit) : list lit :=
    learnt ++ map lneg (filter (seenb seen) (trail s)).
  Definition cur_count (s : state) (seen : list nat) : nat :=
    length (filter (fun q => seenb seen q && Nat.eqb (lvl s q) (decision_level s)) (trail s)).

  Record AI (s : state) (seen : list nat) (counter : Z) (learnt : list lit) (btl : nat) : Prop := {
    ai_count : counter = Z.of_nat (cur_count s seen);
    ai_seen : forall q, In q (trail s) -> seenb seen q = true ->
              lvl s q = decision_level s \/ lvl s q = 0 \/ In (lneg q) learnt;
    ai_learnt : forall l, In l learnt -> exists q, l = lneg q /\ In q (trail s) /\
                0 < lvl s q < decision_level s /\ lvl s q <= btl /\ seenb seen q = true;
    ai_btl : btl < decision_level s;
    ai_btl0 : learnt = [] -> btl = 0;
    ai_nodup : NoDup (map fst learnt);
    ai_max : btl = 0 \/ exists q, In (lneg q) learnt /\ In q (trail s) /\ lvl s q = btl
  }.

  Lemma lvl_le_dl : forall (s : state) q, Inv0 T s -> In q (trail s) -> lvl s q <= decision_level s.
  Proof.
    intros s q I H. apply in_split in H. destruct H as [pre [suf E]].
    destruct (trail_ok_in _ _ _ _ _ (i_trail T s I) E) as [H1 _]. unfold lvl. rewrite H1. apply lvl_at_le.
  Qed.
  Lemma lvl_var0 : forall (s : state), Inv0 T s -> nth 0 (level s) 0 = 0.
  Proof.
    intros s I. apply (i_free T s I 0). intros H. apply in_map_iff in H. destruct H as [q [E Hq]].
    pose proof (i_range T s I q Hq). lia.
  Qed.

  Lemma count_add_seen : forall (s : state) seen v, Inv0 T s -> memv v seen = false ->
    cur_count s (v :: seen) = cur_count s seen +
      length (filter (fun q => Nat.eqb (fst q) v && Nat.eqb (lvl s q) (decision_level s)) (trail s)).
  Proof.
    intros s seen v I Hv. unfold cur_count. rewrite Nat.add_comm.
    apply filter_length_split.
    - intros x. unfold seenb. simpl.
      destruct (Nat.eqb (fst x) v), (memv (fst x) seen), (Nat.eqb (lvl s x) (decision_level s)); reflexivity.
    - intros x. unfold seenb. destruct (Nat.eqb_spec (fst x) v) as [->|]; simpl; auto. rewrite Hv. simpl.
      apply andb_false_r.
  Qed.

  Lemma trace_ai : forall pr (s : state) seen counter learnt btl seen1 counter1 learnt1 btl1,
    Inv0 T s -> 0 < decision_level s -> AI s seen counter learnt btl ->
    (forall q, In q pr -> In q (trail s) \/ q = TRUE_lit) ->
    trace s pr seen counter learnt btl = (seen1, counter1, learnt1, btl1) ->
    AI s seen1 counter1 learnt1 btl1 /\ (forall v, memv v seen = true -> memv v seen1 = true) /\
    (forall q, In q pr -> memv (fst q) seen1 = true) /\ incl learnt learnt1.
  Proof.
    induction pr as [|q t IH]; intros s seen counter learnt btl seen1 counter1 learnt1 btl1 I Hdl A Hpr E; simpl in E.
    - inversion E; subst. split; auto. split; auto. split. intros q []. apply incl_refl.
    - assert (Hpt : forall x, In x t -> In x (trail s) \/ x = TRUE_lit) by (intros; apply Hpr; simpl; auto).
      destruct (memv (fst q) seen) eqn:Hs.
      + destruct (IH _ _ _ _ _ _ _ _ _ I Hdl A Hpt E) as (A1 & M1 & M2 & M3).
        split; auto. split; auto. split; auto. intros x [<-|Hx]; auto.
      + (* a new variable *)
        assert (Hmono : forall v, memv v seen = true -> memv v (fst q :: seen) = true).
        { intros v Hv. simpl. rewrite Hv. apply orb_true_r. }
        assert (Hnew : memv (fst q) (fst q :: seen) = true) by (simpl; now rewrite Nat.eqb_refl).
        assert (Hseen' : forall x, seenb (fst q :: seen) x = true -> seenb seen x = true \/ fst x = fst q).
        { intros x Hx. unfold seenb in *. simpl in Hx. apply orb_true_iff in Hx. destruct Hx as [Hx|Hx]; auto.
          right. now apply Nat.eqb_eq. }
        assert (Hvars : forall l, In l learnt -> memv (fst l) seen = true).
        { intros l Hl. destruct (ai_learnt _ _ _ _ _ A l Hl) as [x [-> [_ [_ [_ Hx]]]]]. exact Hx. }
        assert (Hlearnt : forall b, btl <= b -> forall l, In l learnt -> exists x, l = lneg x /\ In x (trail s) /\
                            0 < lvl s x < decision_level s /\ lvl s x <= b /\ seenb (fst q :: seen) x = true).
        { intros b Hb l Hl. destruct (ai_learnt _ _ _ _ _ A l Hl) as [x [H1 [H2 [H3 [H4 H5]]]]].
          exists x. repeat split; auto; try lia. apply Hmono. exact H5. }
        (* whatever the case, the rest of the reason is traced with the variable of q marked *)
        assert (Rest : forall c' l' b', AI s (fst q :: seen) c' l' b' -> incl learnt l' ->
                  trace s t (fst q :: seen) c' l' b' = (seen1, counter1, learnt1, btl1) ->
                  AI s seen1 counter1 learnt1 btl1 /\ (forall v, memv v seen = true -> memv v seen1 = true) /\
                  (forall x, In x (q :: t) -> memv (fst x) seen1 = true) /\ incl learnt learnt1).
        { intros c' l' b' A' Hi E'. destruct (IH _ _ _ _ _ _ _ _ _ I Hdl A' Hpt E') as (A1 & M1 & M2 & M3).
          split; auto. split; [|split]; auto. intros x [<-|Hx]; auto. intros x Hx. apply M3, Hi, Hx. }
        destruct (Hpr q (or_introl eq_refl)) as [Hq|Hq].
        * (* q is on the trail *)
          pose proof (lvl_le_dl s q I Hq) as Hle. fold (lvl s q) in E.
          assert (Hcnt : cur_count s (fst q :: seen) = cur_count s seen + if Nat.eqb (lvl s q) (decision_level s) then 1 else 0).
          { rewrite (count_add_seen s seen (fst q) I Hs). f_equal.
            apply (filter_var_one (trail s) q (fun x => Nat.eqb (lvl s x) (decision_level s))); auto. apply I. }
          assert (Hone : forall x, In x (trail s) -> fst x = fst q -> x = q).
          { intros x Hx Ex. eapply nodup_fst_eq; eauto. apply I. }
          destruct (Nat.eqb_spec (lvl s q) (decision_level s)) as [El|El].
          -- apply (Rest _ _ _) with (3 := E); [|apply incl_refl]. constructor; try apply A.
             ++ rewrite Hcnt, (ai_count _ _ _ _ _ A). lia.
             ++ intros x Hx Hsx. destruct (Hseen' x Hsx) as [H|H]. apply (ai_seen _ _ _ _ _ A); auto.
                rewrite (Hone x Hx H). auto.
             ++ exact (Hlearnt btl (le_n _)).
          -- destruct (Nat.ltb_spec 0 (lvl s q)) as [Hpos|Hz].
             ++ apply (Rest _ _ _) with (3 := E); [|apply incl_appl, incl_refl]. constructor.
                ** rewrite Hcnt, (ai_count _ _ _ _ _ A). lia.
                ** intros x Hx Hsx. destruct (Hseen' x Hsx) as [H|H].
                   --- destruct (ai_seen _ _ _ _ _ A x Hx H) as [H0|[H0|H0]]; auto. right; right. apply in_or_app; auto.
                   --- rewrite (Hone x Hx H). right; right. apply in_or_app; simpl; auto.
                ** intros l Hl. apply in_app_or in Hl. destruct Hl as [Hl|[<-|[]]].
                   --- apply (Hlearnt (Nat.max btl (lvl s q))); auto. lia.
                   --- exists q. repeat split; auto; try lia.
                ** pose proof (ai_btl _ _ _ _ _ A). lia.
                ** intros H. destruct learnt; discriminate.
                ** rewrite map_app. simpl. apply NoDup_app_single. apply A.
                   intros Hin. apply in_map_iff in Hin. destruct Hin as [l [E1 Hl]]. rewrite <- E1 in Hs.
                   rewrite (Hvars l Hl) in Hs. discriminate.
                ** right. destruct (Nat.le_gt_cases btl (lvl s q)) as [Hm|Hm].
                   --- exists q. split. apply in_or_app. simpl. auto. split; auto. lia.
                   --- destruct (ai_max _ _ _ _ _ A) as [H0|[x [X1 [X2 X3]]]]. lia.
                       exists x. split. apply in_or_app. auto. split; auto. lia.
             ++ apply (Rest _ _ _) with (3 := E); [|apply incl_refl]. constructor; try apply A.
                ** rewrite Hcnt, (ai_count _ _ _ _ _ A). lia.
                ** intros x Hx Hsx. destruct (Hseen' x Hsx) as [H|H]. apply (ai_seen _ _ _ _ _ A); auto.
                   rewrite (Hone x Hx H). right; left. lia.
                ** exact (Hlearnt btl (le_n _)).
        * (* q is the constant TRUE literal: variable 0, level 0, never on the trail *)
          subst q. simpl fst in *. rewrite (lvl_var0 s I) in E.
          destruct (Nat.eqb_spec 0 (decision_level s)) as [E0|_]; [lia|]. simpl in E.
          apply (Rest _ _ _) with (3 := E); [|apply incl_refl]. constructor; try apply A.
          -- rewrite (count_add_seen s seen 0 I Hs), filter_var_none, (ai_count _ _ _ _ _ A). simpl. lia.
             intros H. apply in_map_iff in H. destruct H as [x [Ex Hx]]. pose proof (i_range T s I x Hx). lia.
          -- intros x Hx Hsx. destruct (Hseen' x Hsx) as [H|H]. apply (ai_seen _ _ _ _ _ A); auto.
             pose proof (i_range T s I x Hx). simpl in H. lia.
          -- exact (Hlearnt btl (le_n _)).
  Qed.

  (* popping down to the next seen literal *)
  Lemma head_level : forall (s : state) x t, Inv0 T s -> trail s = x :: t -> lvl s x = lvl_at (trail_lim s) (length t).
  Proof. intros s x t I E. pose proof (i_trail T s I) as H. rewrite E in H. destruct H as [[H1 _] _]. exact H1. Qed.
  Lemma deeper_level : forall (s : state) x t q, Inv0 T s -> trail s = x :: t -> In q t -> lvl s q <= lvl s x.
  Proof.
    intros s x t q I E Hq. rewrite (head_level s x t I E). apply in_split in Hq. destruct Hq as [pre [suf Eq]].
    assert (Et : trail s = (x :: pre) ++ q :: suf) by (rewrite E, Eq; reflexivity).
    destruct (trail_ok_in _ _ _ _ _ (i_trail T s I) Et) as [H1 _]. unfold lvl. rewrite H1. apply lvl_at_mono.
    rewrite Eq, app_length. simpl. lia.
  Qed.
  Lemma lvl_at_lt : forall lims L pos, In L lims -> pos < L -> lvl_at lims pos < length lims.
  Proof.
    induction lims as [|l t IH]; intros L pos Hin Hlt. destruct Hin. rewrite lvl_at_cons. simpl length.
    pose proof (lvl_at_le t pos). destruct Hin as [->|Hin].
    - destruct (Nat.leb_spec L pos); lia.
    - specialize (IH L pos Hin Hlt). destruct (Nat.leb l pos); lia.
  Qed.

  Record PopSpec (s : state) (seen : list nat) (s2 : state) (p : lit) (pr2 popped : list lit) : Prop := {
    ps_trail : trail s = popped ++ p :: trail s2;
    ps_popped : forall x, In x popped -> seenb seen x = false /\ lvl s x = decision_level s;
    ps_seen : seenb seen p = true;
    ps_lvl : lvl s p = decision_level s;
    ps_inv : Inv T s2;
    ps_q : prop_q s2 = [];
    ps_log : log s2 = log s;
    ps_cls : cls s2 = cls s;
    ps_lims : trail_lim s2 = trail_lim s;
    ps_decs : decisions s2 = decisions s;
    ps_nvars : length (assigns s2) = length (assigns s);
    ps_thst : thst s2 = thst s;
    ps_constrs : constrs s2 = constrs s;
    ps_watches : watches s2 = watches s;
    ps_lvls : forall q, In q (trail s2) -> lvl s2 q = lvl s q;
    ps_reason : forall c, nth (fst p) (reason s) None = Some c -> pr2 = reason_lits s c;
    ps_ub : ub s2 = ub s;
    (* s2 is s after some pop_one steps, each of a literal of the current level: whatever such a step keeps holds of s2
       (how SatCoreWlRun carries the watch invariant through the analysis) *)
    ps_iter : forall P : state -> Prop,
      (forall (s0 : state) x t, Inv T s0 -> trail s0 = x :: t -> prop_q s0 = [] -> decision_level s0 = decision_level s ->
                                 lvl s0 x = decision_level s -> P s0 -> P (pop_one s0)) -> P s -> P s2
  }.

  Lemma pop_to_seen_spec : forall fuel (s : state) seen pr s2 p pr2,
    Inv T s -> prop_q s = [] ->
    (exists q, In q (trail s) /\ seenb seen q = true /\ lvl s q = decision_level s) ->
    length (trail s) <= fuel ->
    pop_to_seen fuel s seen pr = (s2, p, pr2) ->
    exists popped, PopSpec s seen s2 p pr2 popped.
  Proof.
    induction fuel as [|f IH]; intros s seen pr s2 p pr2 [I L] Hq [q [Hq1 [Hq2 Hq3]]] Hlen E.
    - destruct (trail s); simpl in Hlen; [destruct Hq1|lia].
    - simpl in E. destruct (trail s) as [|x t] eqn:Et. destruct Hq1.
      assert (Hx : lvl s x = decision_level s).
      { pose proof (lvl_le_dl s x I ltac:(rewrite Et; simpl; auto)) as Hle. destruct Hq1 as [->|Hq1]; auto.
        pose proof (deeper_level s x t q I Et Hq1). lia. }
      assert (I1 : Inv0 T (pop_one s)). { eapply pop_one_inv0; eauto. rewrite Hq. auto. }
      destruct (pop_one_frame s x t Et) as (A1 & A2 & A3 & A4 & A5 & A6 & A7 & A8 & A9 & A10).
      assert (Aub : ub (pop_one s) = ub s) by (unfold pop_one; rewrite Et; reflexivity).
      assert (L1 : LimOK (pop_one s)).
      { unfold LimOK. rewrite A7, A8. apply lvl_at_full_inv. rewrite <- (head_level s x t I Et). exact Hx. }
      pose proof (i_nodup T s I) as ND. rewrite Et in ND. simpl in ND. apply NoDup_cons_iff in ND. destruct ND as [Hnin ND'].
      assert (Hsame : forall y, In y t -> lvl (pop_one s) y = lvl s y /\
                                 nth (fst y) (reason (pop_one s)) None = nth (fst y) (reason s) None).
      { intros y Hy. assert (fst y <> fst x). { intros Eq. apply Hnin. rewrite <- Eq. now apply in_map. }
        unfold lvl, pop_one. rewrite Et. simpl. rewrite !nth_upd_neq by auto. auto. }
      destruct (memv (fst x) seen) eqn:Hs.
      + injection E as <- <- <-. exists []. constructor; auto; try congruence.
        * simpl. now rewrite Et, A7.
        * intros ? [].
        * split; assumption.
        * intros y Hy. rewrite A7 in Hy. apply Hsame; auto.
        * intros c Hc. rewrite Hc. reflexivity.
        * intros P HP H0. apply (HP s x t (conj I L) Et Hq eq_refl Hx H0).
      + assert (Hqt : In q t). { destruct Hq1 as [->|]; auto. unfold seenb in Hq2. congruence. }
        assert (Hq' : prop_q (pop_one s) = []) by congruence.
        assert (Hex : exists q, In q (trail (pop_one s)) /\ seenb seen q = true /\ lvl (pop_one s) q = decision_level (pop_one s)).
        { exists q. rewrite A7. split; auto. split; auto. unfold decision_level in *. rewrite A8.
          rewrite (proj1 (Hsame q Hqt)). exact Hq3. }
        assert (Hlen' : length (trail (pop_one s)) <= f). { rewrite A7. simpl in Hlen. lia. }
        destruct (IH _ _ _ _ _ _ (conj I1 L1) Hq' Hex Hlen' E) as [popped H].
        destruct H as [B1 B2 B3 B4 B5 B6 B7 B8 B9 B10 B11 B12 B13 B14 B15 B16 B17 B18].
          rewrite A7 in B1.
          assert (Hdl : decision_level (pop_one s) = decision_level s) by (unfold decision_level; now rewrite A8).
          assert (Hpt : In p t). { rewrite B1. apply in_or_app. simpl; auto. }
          exists (x :: popped). constructor; auto; try congruence.
          * rewrite Et, B1. reflexivity.
          * intros y [<-|Hy]. split; auto. destruct (B2 y Hy) as [C1 C2]. split; auto.
             assert (In y t) by (rewrite B1; apply in_or_app; auto).
             rewrite <- (proj1 (Hsame y H)). rewrite C2. exact Hdl.
          * rewrite <- (proj1 (Hsame p Hpt)). rewrite B4. exact Hdl.
          * intros y Hy. rewrite (B15 y Hy). apply Hsame. rewrite B1. apply in_or_app. simpl; auto.
          * intros c Hc. rewrite (B16 c). unfold reason_lits, lits_of. now rewrite A2.
             rewrite (proj2 (Hsame p Hpt)). exact Hc.
          * intros P HP H0. apply B18.
            -- intros s0 y t0 G1 G2 G3 G4 G5. apply (HP s0 y t0); auto; congruence.
            -- apply (HP s x t (conj I L) Et Hq eq_refl Hx H0).
  Qed.

  Record APost (s s' : state) (lits : list lit) (bt : nat) : Prop := {
    ap_inv : Inv T s';
    ap_q : prop_q s' = [];
    ap_log : log s' = log s;
    ap_cls : cls s' = cls s;
    ap_lims : trail_lim s' = trail_lim s;
    ap_decs : decisions s' = decisions s;
    ap_nvars : length (assigns s') = length (assigns s);
    ap_thst : thst s' = thst s;
    ap_constrs : constrs s' = constrs s;
    ap_sound : entails T (axioms (log s)) lits;
    ap_shape : exists l0 tail, lits = l0 :: tail /\ fst l0 <> 0 /\ fst l0 < length (assigns s) /\
                 ~ In (fst l0) (map fst (trail s')) /\
                 (forall r, In r tail -> exists q, r = lneg q /\ In q (trail s') /\ 0 < lvl s' q <= bt) /\
                 (tail = [] -> bt = 0);
    ap_bt : bt < decision_level s;
    ap_nodup : NoDup (map fst lits);
    ap_low : forall q, In q (trail s) -> lvl s q < decision_level s -> In q (trail s') /\ lvl s' q = lvl s q;
    ap_ub : ub s' = ub s;
    (* the same induction principle over the pops of the whole analysis *)
    ap_iter : forall P : state -> Prop,
      (forall (s0 : state) x t, Inv T s0 -> trail s0 = x :: t -> prop_q s0 = [] -> decision_level s0 = decision_level s ->
                                 lvl s0 x = decision_level s -> P s0 -> P (pop_one s0)) -> P s -> P s';
    ap_max : forall l0 tail, lits = l0 :: tail -> tail <> [] -> exists q, In (lneg q) tail /\ In q (trail s') /\ lvl s' q = bt
  }.

  Lemma count_zero : forall (s : state) seen q, cur_count s seen = 0 -> In q (trail s) -> seenb seen q = true ->
    lvl s q <> decision_level s.
  Proof.
    intros s seen q H Hq Hs E. unfold cur_count in H.
    assert (Hin : In q (filter (fun q => seenb seen q && Nat.eqb (lvl s q) (decision_level s)) (trail s))).
    { apply filter_In. split; auto. rewrite Hs, E, Nat.eqb_refl. reflexivity. }
    destruct (filter _ (trail s)); [destruct Hin|discriminate].
  Qed.
  Lemma count_pos : forall (s : state) seen, 0 < cur_count s seen ->
    exists q, In q (trail s) /\ seenb seen q = true /\ lvl s q = decision_level s.
  Proof.
    intros s seen H. unfold cur_count in H.
    destruct (filter (fun q => seenb seen q && Nat.eqb (lvl s q) (decision_level s)) (trail s)) as [|q l] eqn:E.
    simpl in H; lia. assert (Hin : In q (q :: l)) by (simpl; auto). rewrite <- E in Hin.
    apply filter_In in Hin. destruct Hin as [H1 H2]. apply andb_true_iff in H2. destruct H2 as [H2 H3].
    exists q. split; auto. split; auto. now apply Nat.eqb_eq.
  Qed.
  Lemma count_after_pop : forall (s s2 : state) seen p popped,
    trail s = popped ++ p :: trail s2 -> (forall x, In x popped -> seenb seen x = false) ->
    seenb seen p = true -> lvl s p = decision_level s -> decision_level s2 = decision_level s ->
    (forall q, In q (trail s2) -> lvl s2 q = lvl s q) ->
    cur_count s seen = S (cur_count s2 seen).
  Proof.
    intros s s2 seen p popped Et Hp Hs Hl Hd Hq. unfold cur_count. rewrite Et, filter_app. simpl.
    rewrite Hs, Hl, Nat.eqb_refl. simpl. rewrite app_length. simpl.
    assert (E1 : filter (fun q => seenb seen q && Nat.eqb (lvl s q) (decision_level s)) popped = []).
    { apply filter_all_false. intros x Hx. now rewrite (Hp x Hx). }
    rewrite E1. simpl. f_equal. rewrite Hd. f_equal. apply filter_ext_in. intros q Hin. now rewrite (Hq q Hin).
  Qed.
  Lemma map_lneg_invol : forall l, map lneg (map lneg l) = l.
  Proof. induction l; simpl; auto. now rewrite lneg_invol, IHl. Qed.

  Lemma analyze_loop_spec : forall fuel (s : state) seen counter learnt btl pr s' lits bt,
    Inv T s -> prop_q s = [] -> 0 < decision_level s ->
    AI s seen counter learnt btl ->
    (forall q, In q pr -> In q (trail s) \/ q = TRUE_lit) ->
    entails T (axioms (log s)) (map lneg pr ++ resolvent s seen learnt) ->
    ((0 < counter)%Z \/ exists q, In q pr /\ In q (trail s) /\ lvl s q = decision_level s) ->
    length (trail s) <= fuel ->
    analyze_loop fuel s seen counter learnt btl pr = (s', lits, bt) ->
    APost s s' lits bt.
  Proof.
    induction fuel as [|f IH]; intros s seen counter learnt btl pr s' lits bt I Hq Hdl A Hpr Hent Hprog Hlen E.
    - (* the trail is empty, yet a literal of the current level is on it *)
      exfalso. assert (Ht : trail s = []) by (destruct (trail s); simpl in Hlen; auto; lia).
      destruct Hprog as [Hc|[q [_ [Hq1 _]]]].
      + rewrite (ai_count _ _ _ _ _ A) in Hc. unfold cur_count in Hc. rewrite Ht in Hc. simpl in Hc. lia.
      + rewrite Ht in Hq1. destruct Hq1.
    - cbn [analyze_loop] in E.
      destruct (trace s pr seen counter learnt btl) as [[[seen1 counter1] learnt1] btl1] eqn:Et.
      destruct (trace_ai pr s seen counter learnt btl seen1 counter1 learnt1 btl1 (proj1 I) Hdl A Hpr Et) as (A1 & M1 & M2 & M3).
      pose proof (proj1 I) as I0.
      (* some seen literal of the current level is on the trail *)
      assert (Hex : exists q, In q (trail s) /\ seenb seen1 q = true /\ lvl s q = decision_level s).
      { destruct Hprog as [Hc|[q [Hq0 [Hq1 Hq2]]]].
        - rewrite (ai_count _ _ _ _ _ A) in Hc. destruct (count_pos s seen ltac:(lia)) as [q [H1 [H2 H3]]].
          exists q. split; auto. split; auto. apply M1. exact H2.
        - exists q. split; auto. split; auto. apply M2. exact Hq0. }
      (* the resolvent after tracing *)
      assert (Hent1 : entails T (axioms (log s)) (resolvent s seen1 learnt1)).
      { intros a Ta M. specialize (Hent a Ta M). apply sat_clause_app in Hent. destruct Hent as [Hl|Hr].
        - destruct Hl as [l [Hl1 Hl2]]. apply in_map_iff in Hl1. destruct Hl1 as [q [<- Hq0]].
          destruct (Hpr q Hq0) as [Hq1 | ->].
          + exists (lneg q). split; auto. unfold resolvent. apply in_or_app. right. apply in_map. apply filter_In.
            split; auto. apply M2. exact Hq0.
          + exfalso. assert (Ht : sat_clause a [TRUE_lit]) by (apply M; apply axioms_true).
            apply sat_clause_single in Ht. apply sat_lit_neg in Hl2. contradiction.
        - destruct Hr as [l [Hl1 Hl2]]. exists l. split; auto. unfold resolvent in *. apply in_app_or in Hl1.
          apply in_or_app. destruct Hl1 as [Hl1|Hl1]. left. apply M3. exact Hl1.
          right. apply in_map_iff in Hl1. destruct Hl1 as [q [<- Hq0]]. apply in_map. apply filter_In in Hq0.
          destruct Hq0 as [H1 H2]. apply filter_In. split; auto. apply M1. exact H2. }
      destruct (pop_to_seen (S (length (trail s))) s seen1 pr) as [[s2 p] pr2] eqn:Ep.
      destruct (pop_to_seen_spec (S (length (trail s))) s seen1 pr s2 p pr2 I Hq Hex ltac:(lia) Ep) as [popped P].
      destruct P as [B1 B2 B3 B4 B5 B6 B7 B8 B9 B10 B11 B12 B13 B14 B15 B16 B17 B18].
      assert (Hdl2 : decision_level s2 = decision_level s) by (unfold decision_level; now rewrite B9).
      assert (Hcnt : cur_count s seen1 = S (cur_count s2 seen1)).
      { eapply count_after_pop; eauto. intros x Hx. apply B2. exact Hx. }
      assert (Hsub : forall q, In q (trail s2) -> In q (trail s)).
      { intros q Hq0. rewrite B1. apply in_or_app. simpl; auto. }
      assert (Hpin : In p (trail s)) by (rewrite B1; apply in_or_app; simpl; auto).
      pose proof (i_nodup T s I0) as ND. rewrite B1, map_app in ND. simpl in ND.
      apply NoDup_remove in ND. destruct ND as [ND1 ND2].
      assert (Hpn : ~ In (fst p) (map fst (trail s2))).
      { intros H. apply ND2. apply in_or_app. auto. }
      assert (Hlow : forall q, In q (trail s) -> lvl s q < decision_level s -> In q (trail s2)).
      { intros q Hq0 Hlt. rewrite B1 in Hq0. apply in_app_or in Hq0. destruct Hq0 as [Hq0|[<-|Hq0]]; auto.
        destruct (B2 q Hq0). lia. lia. }
      assert (A2 : AI s2 seen1 (counter1 - 1)%Z learnt1 btl1).
      { constructor.
        - rewrite (ai_count _ _ _ _ _ A1), Hcnt. lia.
        - intros q Hq0 Hs. rewrite (B15 q Hq0), Hdl2. apply (ai_seen _ _ _ _ _ A1); auto.
        - intros l Hl. destruct (ai_learnt _ _ _ _ _ A1 l Hl) as [q [H1 [H2 [H3 [H4 H5]]]]].
          assert (Hq2 : In q (trail s2)) by (apply Hlow; auto; lia).
          exists q. rewrite (B15 q Hq2), Hdl2. repeat split; auto; lia.
        - rewrite Hdl2. apply A1.
        - apply A1.
        - apply A1.
        - destruct (ai_max _ _ _ _ _ A1) as [H0|[x [X1 [X2 X3]]]]; auto. right.
          destruct (ai_learnt _ _ _ _ _ A1 _ X1) as [x' [Ex [G2 [G3 _]]]]. apply lneg_inj in Ex. subst x'.
          assert (Hx2 : In x (trail s2)) by (apply Hlow; auto; lia).
          exists x. split; auto. split; auto. rewrite (B15 x Hx2). exact X3. }
      assert (Hres : resolvent s seen1 learnt1 = learnt1 ++ lneg p :: map lneg (filter (seenb seen1) (trail s2))).
      { unfold resolvent. rewrite B1, filter_app. simpl. rewrite B3.
        assert (E1 : filter (seenb seen1) popped = []).
        { apply filter_all_false. intros x Hx. apply B2, Hx. }
        rewrite E1. reflexivity. }
      destruct (trail_ok_in _ _ _ _ _ (i_trail T s I0) B1) as [H1 [H2 H3]].
      destruct (Z.ltb_spec 0 (counter1 - 1)) as [Hpos|Hnpos].
      + (* continue with the reason of p *)
        destruct (nth (fst p) (reason s) None) as [c|] eqn:Er.
        * destruct (H2 c eq_refl) as [rest [Hl Hf]].
          rewrite (B16 c eq_refl) in E. unfold reason_lits in E. rewrite Hl in E. simpl tl in E.
          assert (Hc : c < length (cls s)).
          { destruct (Nat.lt_ge_cases c (length (cls s))); auto. rewrite lits_of_overflow in Hl by auto. discriminate. }
          assert (P2 : APost s2 s' lits bt).
          { eapply (IH s2 seen1 (counter1 - 1)%Z learnt1 btl1 (map lneg rest)); eauto.
            - lia.
            - intros q Hq0. apply in_map_iff in Hq0. destruct Hq0 as [r [<- Hr]].
              destruct (Hf r Hr) as [H | ->]; auto.
            - rewrite B7, map_lneg_invol. intros a Ta M. pose proof (Hent1 a Ta M) as HR. rewrite Hres in HR.
              pose proof (i_cls_sound T s I0 c Hc a Ta M) as HC. rewrite Hl in HC.
              apply sat_clause_app. apply sat_clause_app in HR. destruct HR as [HR|HR].
              + right. unfold resolvent. apply sat_clause_app. auto.
              + apply sat_clause_cons in HR. destruct HR as [HR|HR].
                * apply sat_clause_cons in HC. destruct HC as [HC|HC]; auto.
                  apply sat_lit_neg in HR. contradiction.
                * right. unfold resolvent. apply sat_clause_app. auto.
            - rewrite B1, app_length in Hlen. simpl in Hlen. lia. }
          destruct P2 as [C1 C2 C3 C4 C5 C6 C7 C8 C9 C10 C11 C12 C13 C14 C15 C16 C17].
          constructor; auto; try congruence.
          { rewrite <- B7. exact C10. }
          { destruct C11 as [l0 [tail [D1 [D2 [D3 [D4 [D5 D6]]]]]]]. exists l0, tail. repeat split; auto. lia. }
          { intros q Hq0 Hlt. pose proof (Hlow q Hq0 Hlt) as Hq2. destruct (C14 q Hq2) as [G1 G2]. rewrite (B15 q Hq2), Hdl2. exact Hlt.
            split; auto. rewrite G2. apply B15. exact Hq2. }
          { intros P HP H0. apply C16.
            - intros s0 y t0 G1 G2 G3 G4 G5. apply (HP s0 y t0); auto; congruence.
            - apply B18; auto. }
        * (* a seen literal of the current level without reason is the decision: nothing of the level is left *)
          exfalso. unfold lvl in B4. rewrite B4 in H1. unfold decision_level in H1.
          pose proof Hdl as Hdl'. unfold decision_level in Hdl'.
          assert (Hin : In (length (trail s2)) (trail_lim s)) by (apply H3; auto; lia).
          assert (Hz : cur_count s2 seen1 = 0).
          { unfold cur_count. rewrite filter_all_false; auto. intros q Hq0.
            apply andb_false_iff. right. apply Nat.eqb_neq. rewrite (B15 q Hq0), Hdl2.
            apply in_split in Hq0. destruct Hq0 as [pre [suf Eq]].
            assert (Et2 : trail s = (popped ++ p :: pre) ++ q :: suf).
            { rewrite B1, Eq, <- app_assoc. reflexivity. }
            destruct (trail_ok_in _ _ _ _ _ (i_trail T s I0) Et2) as [G1 _]. unfold lvl. rewrite G1.
            assert (lvl_at (trail_lim s) (length suf) < length (trail_lim s)).
            { eapply lvl_at_lt; eauto. rewrite Eq, app_length. simpl. lia. }
            unfold decision_level. lia. }
          rewrite (ai_count _ _ _ _ _ A1), Hcnt, Hz in Hpos. lia.
      + (* first UIP reached *)
        injection E as <- <- <-.
        assert (Hz : cur_count s2 seen1 = 0).
        { pose proof (ai_count _ _ _ _ _ A2). lia. }
        constructor; auto.
        * intros a Ta M. pose proof (Hent1 a Ta M) as HR. rewrite Hres in HR.
          apply sat_clause_cons. apply sat_clause_app in HR. destruct HR as [HR|HR]; auto.
          apply sat_clause_cons in HR. destruct HR as [HR|HR]; auto.
          destruct HR as [l [Hl1 Hl2]]. apply in_map_iff in Hl1. destruct Hl1 as [q [<- Hq0]].
          apply filter_In in Hq0. destruct Hq0 as [G1 G2].
          destruct (ai_seen _ _ _ _ _ A2 q G1 G2) as [G|[G|G]].
          -- exfalso. eapply count_zero; eauto.
          -- exfalso. apply in_split in G1. destruct G1 as [pre [suf Eq]].
             pose proof (level0_entailed T s2 pre q suf (proj1 B5) Eq G a Ta) as G3. rewrite B7 in G3.
             specialize (G3 M). apply sat_clause_single in G3. apply sat_lit_neg in Hl2. contradiction.
          -- right. exists (lneg q). auto.
        * exists (lneg p), learnt1. repeat split; auto.
          -- simpl. pose proof (i_range T s I0 p Hpin). lia.
          -- simpl. pose proof (i_range T s I0 p Hpin). lia.
          -- intros r Hr. destruct (ai_learnt _ _ _ _ _ A2 r Hr) as [q [G1 [G2 [G3 [G4 G5]]]]].
             exists q. repeat split; auto; lia.
          -- intros ->. apply (ai_btl0 _ _ _ _ _ A2). reflexivity.
        * rewrite <- Hdl2. apply A2.
        * simpl. constructor. 2: apply A2.
          intros Hin. apply in_map_iff in Hin. destruct Hin as [l [G0 Hl]].
          destruct (ai_learnt _ _ _ _ _ A2 l Hl) as [q [G1 [G2 _]]]. subst l. simpl in G0.
          apply Hpn. rewrite <- G0. now apply in_map.
        * intros m0 tl Em Hne. inversion Em; subst m0 tl.
          destruct (ai_max _ _ _ _ _ A2) as [H0|[x [X1 [X2 X3]]]].
          -- exfalso. destruct learnt1 as [|l ls]. contradiction.
             destruct (ai_learnt _ _ _ _ _ A2 l (or_introl eq_refl)) as [q [_ [_ [G3 [G4 _]]]]]. lia.
          -- exists x. auto.
  Qed.

  Variable sort : (lit -> lit -> bool) -> list lit -> list lit.
  Hypothesis sort_perm : forall f l, Permutation (sort f l) l.
  Variable th_pop : TS -> TS.

  (* what sat_core hands to analyze: an entailed clause every literal of which is false, one of them falsified at the
     current level, above the root, with the queue flushed *)
  Definition conflicting (s : state) (cnfl : list lit) : Prop :=
    prop_q s = [] /\ 0 < decision_level s /\ (forall r, In r cnfl -> false_in (trail s) r) /\
    entails T (axioms (log s)) cnfl /\
    (exists r, In r cnfl /\ In (lneg r) (trail s) /\ lvl s (lneg r) = decision_level s).

  Lemma analyze_spec : forall (s : state) cnfl s' lits bt,
    Inv T s -> conflicting s cnfl -> analyze s cnfl = (s', lits, bt) -> APost s s' lits bt.
  Proof.
    intros s cnfl s' lits bt I (Hq & Hdl & Hf & Hent & [r [Hr1 [Hr2 Hr3]]]) E. unfold analyze in E.
    apply (analyze_loop_spec (length (trail s)) s [] 0%Z [] 0 (map lneg cnfl) s' lits bt I Hq Hdl); auto.
    - constructor.
      + unfold cur_count. rewrite filter_all_false; auto.
      + intros q _ H. discriminate.
      + intros l [].
      + exact Hdl.
      + reflexivity.
      + constructor.
      + left. reflexivity.
    - intros q Hq0. apply in_map_iff in Hq0. destruct Hq0 as [x [<- Hx]]. destruct (Hf x Hx) as [H | ->]; auto.
    - rewrite map_lneg_invol. eapply entails_incl; [|exact Hent]. apply incl_appl, incl_refl.
    - right. exists (lneg r). split; auto. now apply in_map.
  Qed.

  (* literals below the target level survive the backjump *)
  Lemma pop_keeps : forall (s : state) q, Inv T s -> prop_q s = [] -> In q (trail s) -> lvl s q < decision_level s ->
    In q (trail (pop th_pop s)) /\ lvl (pop th_pop s) q = lvl s q.
  Proof.
    intros s q I Hq Hin Hlt. destruct (pop_inv T th_pop s I Hq) as (I1 & B & E1 & E2 & Hlen).
    destruct (trail_lim s) as [|lim lims] eqn:El. unfold decision_level in Hlt. rewrite El in Hlt. simpl in Hlt. lia.
    specialize (Hlen lim lims eq_refl). destruct B as (_ & _ & _ & _ & _ & _ & [pre Ep] & _).
    apply in_split in Hin. destruct Hin as [pre' [suf' Eq]].
    pose proof (proj1 I) as I0.
    destruct (trail_ok_in _ _ _ _ _ (i_trail T s I0) Eq) as [H1 _]. fold (lvl s q) in H1.
    assert (Hpos : length suf' < lim).
    { destruct (Nat.lt_ge_cases (length suf') lim); auto. exfalso.
      pose proof (i_lims_sorted T s I0) as Hs. rewrite El in Hs. apply StronglySorted_inv in Hs. destruct Hs as [_ Hs].
      rewrite El in H1. rewrite lvl_at_full in H1.
      - unfold decision_level in Hlt. rewrite El in Hlt. lia.
      - constructor; auto. eapply Forall_impl; [|exact Hs]. simpl. intros; lia. }
    destruct (suffix_split _ _ _ _ _ _ _ Ep Eq ltac:(lia)) as [pre2 E2'].
    split. rewrite E2'. apply in_or_app. simpl; auto.
    destruct (trail_ok_in _ _ _ _ _ (i_trail T _ (proj1 I1)) E2') as [G1 _]. fold (lvl (pop th_pop s) q) in G1.
    rewrite G1, H1, E1, El. simpl tl. rewrite lvl_at_cons. destruct (Nat.leb_spec lim (length suf')); lia.
  Qed.
  Lemma pop_until_keeps : forall fuel bt (s : state) q, Inv T s -> prop_q s = [] -> In q (trail s) -> lvl s q <= bt ->
    In q (trail (pop_until_f th_pop fuel bt s)) /\ lvl (pop_until_f th_pop fuel bt s) q = lvl s q.
  Proof.
    intros fuel bt s q I Hq Hin Hle. apply (pop_until_ind T th_pop (fun s1 => In q (trail s1) /\ lvl s1 q = lvl s q) bt); auto.
    intros s1 I1 Hq1 Hlt [H1 H2]. destruct (pop_keeps s1 q I1 Hq1 H1 ltac:(lia)) as [G1 G2]. split; auto. congruence.
  Qed.

  Lemma abr_inv : forall (s : state) cnfl, Inv T s -> conflicting s cnfl ->
    let s' := analyze_backjump_record sort th_pop s cnfl in
    Inv T s' /\ (exists lits, log s' = (0, lits) :: log s) /\ (exists k, decisions s' = skipn k (decisions s)) /\
    length (assigns s') = length (assigns s) /\ ub s' = ub s.
  Proof.
    intros s cnfl I Hc. unfold analyze_backjump_record.
    destruct (analyze s cnfl) as [[s1 lits] bt] eqn:Ea.
    destruct (analyze_spec s cnfl s1 lits bt I Hc Ea) as [C1 C2 C3 C4 C5 C6 C7 C8 C9 C10 C11 C12 C13 C14 C15 C16 C17].
    unfold pop_until.
    destruct (pop_until_inv T th_pop (decision_level s1) bt s1 C1 C2) as (I3 & B & D1 & D2).
    set (s3 := pop_until_f th_pop (decision_level s1) bt s1) in *.
    assert (Hd1 : decision_level s1 = decision_level s) by (unfold decision_level; now rewrite C5).
    assert (Hd3 : decision_level s3 = bt). { specialize (D1 ltac:(lia)). specialize (D2 ltac:(lia)). lia. }
    destruct B as (B1 & B2 & B3 & B4 & B5 & B6 & [pre B7] & [k [B8 B9]]).
    destruct C11 as [l0 [tail [E1 [E2 [E3 [E4 [E5 E6]]]]]]].
    assert (Hkeep : forall r, In r tail -> In (lneg r) (trail s3)).
    { intros r Hr. destruct (E5 r Hr) as [q [-> [G1 G2]]]. rewrite lneg_invol.
      apply (pop_until_keeps (decision_level s1) bt s1 q C1 C2 G1). lia. }
    assert (I4 : Inv T (record sort s3 0 lits)).
    { apply record_inv; auto.
      - split. intros _. rewrite B1, C3. exact C10. intros [H|H]; discriminate.
      - rewrite axioms_cons_other by discriminate. rewrite B1, C3. exact C10.
      - rewrite B3, C7. intros l Hl. rewrite E1 in Hl. destruct Hl as [<-|Hl]; auto.
        destruct (E5 l Hl) as [q [-> [G1 _]]]. simpl. rewrite <- C7. apply (i_range T s1 (proj1 C1) q G1).
      - intros l Hl. apply nodup_fst_taut; auto.
      - rewrite E1. simpl tl. intros r Hr. left. auto.
      - rewrite E1. simpl. intros H. destruct tail; try discriminate.
        specialize (E6 eq_refl). unfold decision_level in Hd3. rewrite E6 in Hd3. destruct (trail_lim s3); auto. discriminate. }
    destruct (record_frame sort s3 0 lits) as (F1 & F2 & F3 & F4 & F5 & F6).
    split; auto. split. exists lits. rewrite F3, B1, C3. reflexivity.
    split. exists k. rewrite F2, B9, C6. reflexivity.
    split. rewrite F5, B3, C7. reflexivity.
    unfold s3. rewrite (record_ubs sort sort_perm), (pop_until_ubs th_pop), C15. reflexivity. rewrite E1. discriminate.
  Qed.
End Analyze.
