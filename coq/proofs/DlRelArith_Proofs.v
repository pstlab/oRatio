(* Meaning of the arithmetic front end of the difference-logic theories (Dl.v: new_rel = new_lt/new_leq/new_eq/new_geq/new_gt,
   bounds_lin): linear expressions `lin` are given their value under a valuation, `lin_sub`/`lin_div` are shown to compute
   the difference / the quotient, and the one call `new_distance a b d` (or `new_eq_vars vp vm k`) new_rel ends with is shown
   to carry a constraint equivalent to the relation it was asked to post -- for the integer theory (strictness by
   integrality: t < k <-> t <= k - 1) and for the real theory (strictness by the infinitesimal part: (t,0) <= (k,-1) <-> t < k). *)
From Coq Require Import List ZArith Bool Arith Lia QArith Qcanon Lqa Sorted.
From ORatio Require Import smt.DlDom smt.Dl proofs.DlRdl_Proofs.
Import ListNotations.
Local Open Scope Qc_scope.

(* well-formed linear expressions (std::map: keys strictly increasing; lin never stores a zero coefficient) and their value *)
Fixpoint lv_wf (l : list (nat * Qc)) : Prop :=
  match l with
  | [] => True
  | t :: r => snd t <> 0 /\ (forall w, In w (map fst r) -> (fst t < w)%nat) /\ lv_wf r
  end.
Definition lin_wf (l : lin) : Prop := lv_wf (fst l).

Fixpoint lv_eval (x : nat -> Qc) (l : list (nat * Qc)) : Qc :=
  match l with
  | [] => 0
  | t :: r => snd t * x (fst t) + lv_eval x r
  end.
Definition lin_eval (x : nat -> Qc) (l : lin) : Qc := lv_eval x (fst l) + snd l.

Definition rel_holds (r : rel) (a b : Qc) : Prop :=
  match r with
  | RLt => a < b
  | RLeq => a <= b
  | REq => a = b
  | RGeq => b <= a
  | RGt => b < a
  end.

(* lv_wf is "strictly sorted keys, non-zero coefficients" *)
Lemma lv_wf_iff l : lv_wf l <-> StronglySorted lt (map fst l) /\ Forall (fun t => snd t <> 0) l.
Proof.
  induction l as [| t r IH]; cbn [lv_wf map].
  - split; [intros _; split; constructor | intros _; exact I].
  - rewrite IH. split.
    + intros (H0 & Hlt & Hs & Hf). split; constructor; auto. apply Forall_forall. exact Hlt.
    + intros [Hs Hf]. inversion Hs as [| ? ? Hs' Hlt]; subst. inversion Hf as [| ? ? H0 Hf']; subst.
      split; [exact H0 |]. split; [apply Forall_forall; exact Hlt | split; assumption].
Qed.

Lemma qc0_eq : qc0 = 0. Proof. reflexivity. Qed.
Lemma qc1_eq : qc1 = 1. Proof. reflexivity. Qed.
Lemma qcm1_eq : qcm1 = - (1). Proof. apply Qc_is_canon. reflexivity. Qed.

Definition coef (v : nat) (l : list (nat * Qc)) : Qc := match lv_find v l with Some c => c | None => 0 end.

Lemma lv_find_none v l : (forall w, In w (map fst l) -> v <> w) -> lv_find v l = None.
Proof.
  induction l as [| [w d] t IH]; intro H; [reflexivity |].
  cbn [lv_find]. destruct (Nat.eqb v w) eqn:E.
  - apply Nat.eqb_eq in E. exfalso. apply (H w); [left; reflexivity | exact E].
  - apply IH. intros u Hu. apply H. right. exact Hu.
Qed.

Lemma lv_set_eval x v c l : lv_wf l -> lv_eval x (lv_set v c l) = lv_eval x l - coef v l * x v + c * x v.
Proof.
  unfold coef. induction l as [| [w d] t IH]; intro H.
  - cbn [lv_set lv_find lv_eval fst snd]. ring.
  - destruct H as (Hd & Hlt & Ht). cbn [fst snd] in Hd, Hlt. cbn [lv_set lv_find].
    destruct (Nat.ltb v w) eqn:E1.
    + apply Nat.ltb_lt in E1. assert (E2 : Nat.eqb v w = false) by (apply Nat.eqb_neq; lia). rewrite E2.
      rewrite (lv_find_none v t) by (intros u Hu; specialize (Hlt u Hu); lia).
      cbn [lv_eval fst snd]. ring.
    + destruct (Nat.eqb v w) eqn:E2.
      * apply Nat.eqb_eq in E2. subst w. cbn [lv_eval fst snd]. ring.
      * cbn [lv_eval fst snd]. rewrite (IH Ht). ring.
Qed.

Lemma lv_erase_eval x v l : lv_eval x (lv_erase v l) = lv_eval x l - coef v l * x v.
Proof.
  unfold coef. induction l as [| [w d] t IH].
  - cbn [lv_erase lv_find lv_eval]. ring.
  - cbn [lv_erase lv_find]. destruct (Nat.eqb v w) eqn:E2.
    + apply Nat.eqb_eq in E2. subst w. cbn [lv_eval fst snd]. ring.
    + cbn [lv_eval fst snd]. rewrite IH. ring.
Qed.

Lemma lv_set_keys v c l u : In u (map fst (lv_set v c l)) -> u = v \/ In u (map fst l).
Proof.
  induction l as [| [w d] t IH]; cbn [lv_set].
  - cbn [map fst In]. intros [H | []]. left. symmetry. exact H.
  - destruct (Nat.ltb v w).
    + cbn [map fst In]. intros [H | H]; [left; symmetry; exact H | right; exact H].
    + destruct (Nat.eqb v w).
      * cbn [map fst In]. intros [H | H]; [left; symmetry; exact H | right; right; exact H].
      * cbn [map fst In]. intros [H | H]; [right; left; exact H |].
        destruct (IH H) as [H' | H']; [left; exact H' | right; right; exact H'].
Qed.

Lemma lv_erase_keys v l u : In u (map fst (lv_erase v l)) -> In u (map fst l).
Proof.
  induction l as [| [w d] t IH]; cbn [lv_erase]; [intros [] |].
  destruct (Nat.eqb v w); cbn [map fst In].
  - intro H. right. exact H.
  - intros [H | H]; [left; exact H | right; apply IH; exact H].
Qed.

Lemma lv_set_wf v c l : c <> 0 -> lv_wf l -> lv_wf (lv_set v c l).
Proof.
  intro Hc. induction l as [| [w d] t IH]; intro H.
  - cbn [lv_set lv_wf fst snd map]. split; [exact Hc |]. split; [intros u [] | exact I].
  - pose proof H as H'. destruct H as (Hd & Hlt & Ht). cbn [fst snd] in Hd, Hlt. cbn [lv_set].
    destruct (Nat.ltb v w) eqn:E1.
    + apply Nat.ltb_lt in E1. cbn [lv_wf fst snd]. split; [exact Hc |]. split; [| exact H'].
      cbn [map fst In]. intros u [Hu | Hu]; [lia | specialize (Hlt u Hu); lia].
    + destruct (Nat.eqb v w) eqn:E2.
      * apply Nat.eqb_eq in E2. subst w. cbn [lv_wf fst snd]. auto.
      * apply Nat.ltb_ge in E1. apply Nat.eqb_neq in E2. cbn [lv_wf fst snd]. split; [exact Hd |]. split; [| exact (IH Ht)].
        intros u Hu. destruct (lv_set_keys _ _ _ _ Hu) as [-> | Hu']; [lia | exact (Hlt u Hu')].
Qed.

Lemma lv_erase_wf v l : lv_wf l -> lv_wf (lv_erase v l).
Proof.
  induction l as [| [w d] t IH]; intro H; [exact I |].
  destruct H as (Hd & Hlt & Ht). cbn [fst snd] in Hd, Hlt. cbn [lv_erase].
  destruct (Nat.eqb v w); [exact Ht |].
  cbn [lv_wf fst snd]. split; [exact Hd |]. split; [| exact (IH Ht)].
  intros u Hu. apply Hlt. exact (lv_erase_keys _ _ _ Hu).
Qed.

Lemma lin_sub_term_spec x res t : lv_wf res -> snd t <> 0 ->
  lv_eval x (lin_sub_term res t) = lv_eval x res - snd t * x (fst t) /\ lv_wf (lin_sub_term res t).
Proof.
  intros Hres Ht. unfold lin_sub_term.
  pose proof (lv_set_eval x (fst t)) as Hs. pose proof (lv_erase_eval x (fst t) res) as He. unfold coef in Hs, He.
  destruct (lv_find (fst t) res) as [c0 |] eqn:Ef.
  - destruct (qc_eqb (c0 - snd t) qc0) eqn:E0.
    + apply qc_eqb_iff in E0. split; [| apply lv_erase_wf; exact Hres].
      rewrite He. assert (Ec : c0 = snd t) by (rewrite qc0_eq in E0; rewrite <- (Qcplus_0_r (snd t)), <- E0; ring).
      rewrite Ec. reflexivity.
    + assert (Hn : c0 - snd t <> 0) by (intro E; rewrite <- qc0_eq in E; apply qc_eqb_iff in E; congruence).
      split; [| apply lv_set_wf; assumption].
      rewrite (Hs _ _ Hres), Ef. ring.
  - assert (Hn : - snd t <> 0) by (intro E; apply Ht; rewrite <- (Qcopp_involutive (snd t)), E; ring).
    split; [| apply lv_set_wf; assumption].
    rewrite (Hs _ _ Hres), Ef. ring.
Qed.

Lemma lv_sub_fold x r : forall res, lv_wf res -> lv_wf r ->
  lv_eval x (fold_left lin_sub_term r res) = lv_eval x res - lv_eval x r /\ lv_wf (fold_left lin_sub_term r res).
Proof.
  induction r as [| t r IH]; intros res Hres Hr.
  - cbn [fold_left lv_eval]. split; [ring | exact Hres].
  - destruct Hr as (Ht & _ & Hr). destruct (lin_sub_term_spec x res t Hres Ht) as [E W].
    cbn [fold_left lv_eval]. destruct (IH _ W Hr) as [E' W']. split; [| exact W'].
    rewrite E', E. ring.
Qed.

Theorem lin_sub_eval x l r : lin_wf l -> lin_wf r ->
  lin_eval x (lin_sub l r) = lin_eval x l - lin_eval x r /\ lin_wf (lin_sub l r).
Proof.
  intros Hl Hr. unfold lin_wf, lin_eval, lin_sub in *. cbn [fst snd].
  destruct (lv_sub_fold x (fst r) (fst l) Hl Hr) as [E W]. split; [| exact W]. rewrite E. ring.
Qed.

Theorem lin_div_eval x l c : c <> 0 -> lin_eval x (lin_div l c) = lin_eval x l / c.
Proof.
  intro Hc. unfold lin_eval, lin_div. cbn [fst snd].
  assert (E : lv_eval x (map (fun t => (fst t, snd t / c)) (fst l)) = lv_eval x (fst l) / c).
  { induction (fst l) as [| t r IH]; cbn [map lv_eval fst snd]; [field; exact Hc | rewrite IH; field; exact Hc]. }
  rewrite E. field. exact Hc.
Qed.

(* the three shapes new_rel / bounds_lin accept *)
Lemma lin_eval_0 x k : lin_eval x ([], k) = k.
Proof. unfold lin_eval. cbn [fst snd lv_eval]. ring. Qed.
Lemma lin_eval_1 x v c k : lin_eval x ([(v, c)], k) = c * x v + k.
Proof. unfold lin_eval. cbn [fst snd lv_eval]. ring. Qed.
Lemma lin_eval_2 x v0 c0 v1 c1 k : lin_eval x ([(v0, c0); (v1, c1)], k) = c0 * x v0 + c1 * x v1 + k.
Proof. unfold lin_eval. cbn [fst snd lv_eval]. ring. Qed.

(* c1 / c0 = -1 *)
Lemma ratio_m1 c0 c1 : c0 <> 0 -> qc_eqb (c1 / c0) qcm1 = true -> c1 = - c0.
Proof.
  intros H0 E. apply qc_eqb_iff in E. rewrite qcm1_eq in E.
  assert (E' : c1 = c1 / c0 * c0) by (field; exact H0). rewrite E' at 1. rewrite E. ring.
Qed.

Lemma rel_holds_sub r a b : rel_holds r a b <-> rel_holds r (a - b) 0.
Proof. destruct r; cbn [rel_holds]; split; intro H; qc_lra. Qed.

Lemma rel_const_iff r k : rel_holds r k 0 <-> rel_const r k = true.
Proof.
  destruct r; cbn [rel_holds rel_const]; rewrite ?qc_ltb_iff, ?qc_leb_iff, ?qc_eqb_iff, ?qc0_eq; reflexivity.
Qed.

(* the relation seen from the other side: what a division by a negative number does *)
Definition rel_flip (r : rel) : rel :=
  match r with RLt => RGt | RLeq => RGeq | REq => REq | RGeq => RLeq | RGt => RLt end.

(* multiplication by c keeps the sign when 0 < c and turns it round when c < 0 *)
Lemma qc_sign c : c <> 0 -> if qc_ltb c qc0 then c < 0 else 0 < c.
Proof.
  intro Hc. destruct (qc_ltb c qc0) eqn:E; [apply qc_ltb_iff in E; exact E |].
  destruct (Qc_tri c 0) as [T | [T | T]]; [| contradiction | exact T].
  rewrite <- qc0_eq in T. apply qc_ltb_iff in T. congruence.
Qed.

Lemma mul_pos c q : 0 < c -> (c * q < 0 <-> q < 0) /\ (c * q = 0 <-> q = 0) /\ (0 < c * q <-> 0 < q).
Proof.
  intro P.
  assert (M : forall a b, a < b -> c * a < c * b) by (intros a b H; rewrite !(Qcmult_comm c); apply Qcmult_lt_compat_r; assumption).
  pose proof (M q 0) as M1. pose proof (M 0 q) as M2. rewrite Qcmult_0_r in M1, M2.
  assert (M0 : q = 0 -> c * q = 0) by (intros ->; apply Qcmult_0_r).
  pose proof (Qc_tri q 0) as T. clear M P. revert M0 M1 M2. generalize (c * q). intros p M0 M1 M2. qc_lra.
Qed.

Lemma mul_sign_iff c q r : c <> 0 ->
  (rel_holds r (c * q) 0 <-> rel_holds (if qc_ltb c qc0 then rel_flip r else r) q 0).
Proof.
  intro Hc. pose proof (qc_sign c Hc) as S. destruct (qc_ltb c qc0).
  - assert (P : 0 < - c) by (clear Hc; qc_lra). pose proof (mul_pos (- c) q P) as H.
    replace (- c * q) with (- (c * q)) in H by ring. clear Hc S P. revert H. generalize (c * q). intros p H.
    destruct r; cbn [rel_flip rel_holds]; qc_lra.
  - pose proof (mul_pos c q S) as H. clear Hc S. revert H. generalize (c * q). intros p H.
    destruct r; cbn [rel_flip rel_holds]; qc_lra.
Qed.

(* hence comparing the images of a and b under t |-> c * t + k is comparing a and b *)
Lemma img_rel c k r a b : c <> 0 ->
  (rel_holds r (c * a + k) (c * b + k) <-> rel_holds (if qc_ltb c qc0 then rel_flip r else r) a b).
Proof.
  intro Hc. rewrite (rel_holds_sub r), (rel_holds_sub _ a b).
  replace (c * a + k - (c * b + k)) with (c * (a - b)) by ring. apply mul_sign_iff. exact Hc.
Qed.

(* the generic decomposition: parametric in the distance domain, in the values of the valuations and in the meaning
   `csat x from to d` of the constraint posted by `new_distance from to d` *)
Section Generic.
Variable D : Type.
Variable dm : dom D.
Variable X : Type.
Variable inj : X -> Qc.
Variable x0 : X.
Variable csat : (nat -> X) -> nat -> nat -> D -> Prop.
Hypothesis inj0 : inj x0 = 0.
Hypothesis Hcall : forall r c k0 k vp vm x, c <> 0 -> dconst dm (k0 / c) = Some k -> r <> REq ->
  (rel_holds r (c * (inj (x vp) - inj (x vm)) + k0) 0 <->
   let '(a, b, d) := rel_call D dm r (qc_ltb c qc0) vp vm k in csat x a b d).
Hypothesis Heq : forall c k0 k vp vm x, c <> 0 -> dconst dm (k0 / c) = Some k ->
  (c * (inj (x vp) - inj (x vm)) + k0 = 0 <-> csat x vp vm k /\ csat x vm vp (dneg dm k)).

Theorem new_rel_cases s r left right : lin_wf left -> lin_wf right ->
  (exists tr : bool, new_rel D dm s r left right = (s, RLit (if tr then TRUE_lit else FALSE_lit), []) /\
     forall x, (rel_holds r (lin_eval (fun v => inj (x v)) left) (lin_eval (fun v => inj (x v)) right) <-> tr = true))
  \/ new_rel D dm s r left right = (s, RErr, [])
  \/ (r <> REq /\ exists a b d,
        new_rel D dm s r left right = (let (s1, r1) := new_distance D dm s a b d in (s1, r1, [])) /\
        forall x, x 0%nat = x0 ->
          (rel_holds r (lin_eval (fun v => inj (x v)) left) (lin_eval (fun v => inj (x v)) right) <-> csat x a b d))
  \/ (r = REq /\ exists vp vm k,
        new_rel D dm s r left right = new_eq_vars D dm s vp vm k /\
        forall x, x 0%nat = x0 ->
          (rel_holds REq (lin_eval (fun v => inj (x v)) left) (lin_eval (fun v => inj (x v)) right) <->
           csat x vp vm k /\ csat x vm vp (dneg dm k))).
Proof.
  intros Hl Hr.
  pose proof (fun x => lin_sub_eval x left right Hl Hr) as Hsub.
  unfold new_rel. remember (lin_sub left right) as e eqn:Ee.
  assert (Hwf : lin_wf e) by (destruct (Hsub (fun _ => 0)); assumption).
  assert (Hev : forall r x, rel_holds r (lin_eval x left) (lin_eval x right) <-> rel_holds r (lin_eval x e) 0).
  { intros r' x. destruct (Hsub x) as [-> _]. apply rel_holds_sub. }
  clear Hsub Ee Hl Hr. cbv zeta.
  destruct e as [vs k0]. unfold lin_wf in Hwf. unfold lin_div. cbn [fst snd] in *.
  destruct vs as [| [v c] [| [v1 c1] [| t3 vs]]].
  - (* no variable *)
    left. exists (rel_const r k0). split; [reflexivity |]. intro x. rewrite Hev, lin_eval_0. apply rel_const_iff.
  - (* one variable: the other one is the origin *)
    destruct Hwf as (Hc & _). cbn [fst snd] in Hc.
    destruct (dconst dm (k0 / c)) as [k |] eqn:Ek; [| right; left; reflexivity].
    assert (E1 : forall x, x 0%nat = x0 -> lin_eval (fun v => inj (x v)) ([(v, c)], k0) = c * (inj (x v) - inj (x 0%nat)) + k0).
    { intros x Hx. rewrite lin_eval_1, Hx, inj0. ring. }
    destruct r;
      try (right; right; left; split; [discriminate |];
           match goal with |- context [rel_call D dm ?r ?ng ?a ?b ?k] =>
             pose proof (fun x => Hcall r c k0 k v 0%nat x Hc Ek) as HC;
             destruct (rel_call D dm r ng a b k) as [[a' b'] d'] end;
           exists a', b', d'; split; [reflexivity |]; intros x Hx; rewrite Hev, (E1 x Hx); apply HC; discriminate).
    right; right; right. split; [reflexivity |]. exists v, 0%nat, k. split; [reflexivity |].
    intros x Hx. rewrite Hev, (E1 x Hx). cbn [rel_holds]. apply Heq; assumption.
  - (* two variables with opposite coefficients *)
    destruct Hwf as (Hc & _). cbn [fst snd] in Hc.
    destruct (qc_eqb (c1 / c) qcm1) eqn:Em; cbn [negb]; [| right; left; reflexivity].
    apply (ratio_m1 c c1 Hc) in Em. subst c1.
    destruct (dconst dm (k0 / c)) as [k |] eqn:Ek; [| right; left; reflexivity].
    assert (E2 : forall x, lin_eval (fun v => inj (x v)) ([(v, c); (v1, - c)], k0) = c * (inj (x v) - inj (x v1)) + k0).
    { intros x. rewrite lin_eval_2. ring. }
    destruct r;
      try (right; right; left; split; [discriminate |];
           match goal with |- context [rel_call D dm ?r ?ng ?a ?b ?k] =>
             pose proof (fun x => Hcall r c k0 k v v1 x Hc Ek) as HC;
             destruct (rel_call D dm r ng a b k) as [[a' b'] d'] end;
           exists a', b', d'; split; [reflexivity |]; intros x Hx; rewrite Hev, E2; apply HC; discriminate).
    right; right; right. split; [reflexivity |]. exists v, v1, k. split; [reflexivity |].
    intros x Hx. rewrite Hev, E2. cbn [rel_holds]. apply Heq; assumption.
  - (* more than two variables *)
    right; left; reflexivity.
Qed.
End Generic.

Definition csat_idl (x : nat -> Z) (a b : nat) (d : Z) : Prop := (x b - x a <= d)%Z.
Definition xq (x : nat -> Z) : nat -> Qc := fun v => qc_of_Z (x v).

Lemma qz_lt0 n : qc_of_Z n < 0 <-> (n < 0)%Z.
Proof. change 0 with (qc_of_Z 0). unfold Qclt. rewrite !qc_of_Z_this, <- Zlt_Qlt. reflexivity. Qed.
Lemma qz_le0 n : qc_of_Z n <= 0 <-> (n <= 0)%Z.
Proof. change 0 with (qc_of_Z 0). unfold Qcle. rewrite !qc_of_Z_this, <- Zle_Qle. reflexivity. Qed.
Lemma qz_0lt n : 0 < qc_of_Z n <-> (0 < n)%Z.
Proof. change 0 with (qc_of_Z 0). unfold Qclt. rewrite !qc_of_Z_this, <- Zlt_Qlt. reflexivity. Qed.
Lemma qz_0le n : 0 <= qc_of_Z n <-> (0 <= n)%Z.
Proof. change 0 with (qc_of_Z 0). unfold Qcle. rewrite !qc_of_Z_this, <- Zle_Qle. reflexivity. Qed.
Lemma qz_eq0 n : qc_of_Z n = 0 <-> (n = 0)%Z.
Proof.
  change 0 with (qc_of_Z 0). rewrite Qc_eq_iff, !qc_of_Z_this. unfold Qeq, inject_Z. cbn [Qnum Qden]. lia.
Qed.

Lemma qc_num_of_Z z : qc_num (qc_of_Z z) = z.
Proof. unfold qc_num. rewrite qc_of_Z_this. reflexivity. Qed.

Lemma idl_dconst sat q k : dconst (idl_dom sat) q = Some k -> q = qc_of_Z k.
Proof.
  cbn [dconst idl_dom]. destruct (qc_is_int q) eqn:E; [| discriminate].
  intro H. injection H as <-. apply qc_is_int_iff in E. destruct E as [z ->]. rewrite qc_num_of_Z. reflexivity.
Qed.

Lemma idl_expr c k0 k (tp tm : Z) : c <> 0 -> k0 / c = qc_of_Z k ->
  c * (qc_of_Z tp - qc_of_Z tm) + k0 = c * qc_of_Z (tp - tm + k).
Proof.
  intros Hc Hk. unfold Z.sub. rewrite <- !qc_of_Z_add, <- qc_of_Z_opp, <- Hk. field. exact Hc.
Qed.

Lemma idl_rel_call sat r c k0 k vp vm (x : nat -> Z) :
  c <> 0 -> dconst (idl_dom sat) (k0 / c) = Some k -> r <> REq ->
  (rel_holds r (c * (qc_of_Z (x vp) - qc_of_Z (x vm)) + k0) 0 <->
   let '(a, b, d) := rel_call Z (idl_dom sat) r (qc_ltb c qc0) vp vm k in csat_idl x a b d).
Proof.
  intros Hc Hk Hr. apply idl_dconst in Hk. rewrite (idl_expr c k0 k _ _ Hc Hk), (mul_sign_iff c _ r Hc).
  destruct r; [| | contradiction | |]; destruct (qc_ltb c qc0);
    cbn [rel_flip rel_holds rel_call]; unfold csat_idl; cbn [idl_dom dneg dsub1];
    rewrite ?qz_lt0, ?qz_le0, ?qz_0lt, ?qz_0le; lia.
Qed.

Lemma idl_rel_eq sat c k0 k vp vm (x : nat -> Z) :
  c <> 0 -> dconst (idl_dom sat) (k0 / c) = Some k ->
  (c * (qc_of_Z (x vp) - qc_of_Z (x vm)) + k0 = 0 <-> csat_idl x vp vm k /\ csat_idl x vm vp (dneg (idl_dom sat) k)).
Proof.
  intros Hc Hk. apply idl_dconst in Hk. rewrite (idl_expr c k0 k _ _ Hc Hk).
  pose proof (mul_sign_iff c (qc_of_Z (x vp - x vm + k)) REq Hc) as H.
  replace (if qc_ltb c qc0 then rel_flip REq else REq) with REq in H by (destruct (qc_ltb c qc0); reflexivity).
  cbn [rel_holds] in H. rewrite H, qz_eq0. unfold csat_idl. cbn [idl_dom dneg]. lia.
Qed.

Definition idl_new_rel_cases sat := new_rel_cases Z (idl_dom sat) Z qc_of_Z 0%Z csat_idl eq_refl (idl_rel_call sat) (idl_rel_eq sat).

Definition csat_rdl (x : nat -> Qc) (a b : nat) (d : qd) : Prop := qd_leb (mkqd (EFin (x b - x a)) qc0) d = true.

Lemma rdl_expr c k0 t : c <> 0 -> c * t + k0 = c * (t + k0 / c).
Proof. intro Hc. field. exact Hc. Qed.

Ltac rdl_rel_tac :=
  unfold csat_rdl, qd_leb, qd_of_q; cbn [rdl_dom dneg dsub1 qd_neg qr qe er_neg er_ltb er_eqb];
  rewrite ?orb_true_iff, ?andb_true_iff, ?qc_ltb_iff, ?qc_eqb_iff, ?qc_leb_iff.

Lemma rdl_rel_call guard r c k0 k vp vm (x : nat -> Qc) :
  c <> 0 -> dconst (rdl_dom guard) (k0 / c) = Some k -> r <> REq ->
  (rel_holds r (c * (x vp - x vm) + k0) 0 <->
   let '(a, b, d) := rel_call qd (rdl_dom guard) r (qc_ltb c qc0) vp vm k in csat_rdl x a b d).
Proof.
  intros Hc Hk Hr. cbn [dconst rdl_dom] in Hk. injection Hk as <-.
  rewrite (rdl_expr c k0 _ Hc), (mul_sign_iff c _ r Hc). clear Hc. revert Hr. generalize (k0 / c). intros kk Hr.
  destruct r; [| | contradiction | |]; destruct (qc_ltb c qc0);
    cbn [rel_flip rel_holds rel_call]; rdl_rel_tac; qc_lra.
Qed.

Lemma rdl_rel_eq guard c k0 k vp vm (x : nat -> Qc) :
  c <> 0 -> dconst (rdl_dom guard) (k0 / c) = Some k ->
  (c * (x vp - x vm) + k0 = 0 <-> csat_rdl x vp vm k /\ csat_rdl x vm vp (dneg (rdl_dom guard) k)).
Proof.
  intros Hc Hk. cbn [dconst rdl_dom] in Hk. injection Hk as <-.
  rewrite (rdl_expr c k0 _ Hc).
  pose proof (mul_sign_iff c (x vp - x vm + k0 / c) REq Hc) as H.
  replace (if qc_ltb c qc0 then rel_flip REq else REq) with REq in H by (destruct (qc_ltb c qc0); reflexivity).
  cbn [rel_holds] in H. rewrite H. clear H Hc. generalize (k0 / c). intros kk.
  rdl_rel_tac. qc_lra.
Qed.

Definition rdl_new_rel_cases guard :=
  new_rel_cases qd (rdl_dom guard) Qc (fun q => q) qc0 csat_rdl eq_refl (rdl_rel_call guard) (rdl_rel_eq guard).

(* bounds(lin) of the real theory: the returned pair is the exact image of the variable-level interval under t |-> c * t + k *)
Lemma sgn_neg c : c < 0 -> Z.sgn (qc_num c) = (-1)%Z.
Proof.
  unfold Qclt, Qlt, qc_num. change (this 0) with (0 # 1)%Q. cbn [Qnum Qden]. intro H. apply Z.sgn_neg. lia.
Qed.
Lemma sgn_pos c : 0 < c -> Z.sgn (qc_num c) = 1%Z.
Proof.
  unfold Qclt, Qlt, qc_num. change (this 0) with (0 # 1)%Q. cbn [Qnum Qden]. intro H. apply Z.sgn_pos. lia.
Qed.

Lemma rdl_add_zero y : qd_add (qd_of_q qc0) y = y.
Proof.
  destruct y as [[q | |] e]; unfold qd_add, qd_of_q; cbn [qr qe er_add]; rewrite qc0_eq; f_equal; try f_equal; ring.
Qed.

Definition rdl_img (c k : Qc) (e : qd) : qd := qd_add (mkqd (er_mul (qr e) (EFin c)) (qe e * c)) (qd_of_q k).

Lemma rdl_img_le c k e t : c <> 0 ->
  (qd_leb (rdl_img c k e) (qd_of_q (c * t + k)) = true <->
   (if qc_ltb c qc0 then qd_leb (qd_of_q t) e else qd_leb e (qd_of_q t)) = true)
  /\ (qd_leb (qd_of_q (c * t + k)) (rdl_img c k e) = true <->
      (if qc_ltb c qc0 then qd_leb e (qd_of_q t) else qd_leb (qd_of_q t) e) = true).
Proof.
  intro Hc. pose proof (qc_sign c Hc) as S.
  destruct e as [[q | |] e]; unfold rdl_img, qd_add, qd_of_q, qd_leb; cbn [qr qe er_mul er_add er_sgn er_ltb er_eqb].
  - (* both components are scaled by c: the comparisons of the images are those of the arguments *)
    assert (A : forall r, rel_holds r (q * c + k) (c * t + k) <-> rel_holds (if qc_ltb c qc0 then rel_flip r else r) q t)
      by (intro r; rewrite (Qcmult_comm q c); apply img_rel; exact Hc).
    assert (B : forall r, rel_holds r (e * c + qc0) 0 <-> rel_holds (if qc_ltb c qc0 then rel_flip r else r) e 0)
      by (intro r; replace (e * c + qc0) with (c * e) by (rewrite qc0_eq; ring); apply mul_sign_iff; exact Hc).
    pose proof (A RLt) as A1. pose proof (A REq) as A2. pose proof (A RGt) as A3. pose proof (B RLeq) as B1. pose proof (B RGeq) as B2.
    clear A B S Hc. revert A1 A2 A3 B1 B2. generalize (q * c + k) (c * t + k) (e * c + qc0). intros p1 p2 p3.
    destruct (qc_ltb c qc0); cbn [rel_flip rel_holds]; intros A1 A2 A3 B1 B2;
      rewrite !orb_true_iff, !andb_true_iff, !qc_ltb_iff, !qc_eqb_iff, !qc_leb_iff; qc_lra.
  - destruct (qc_ltb c qc0); [rewrite (sgn_neg c S) | rewrite (sgn_pos c S)]; cbn; split; split; auto.
  - destruct (qc_ltb c qc0); [rewrite (sgn_neg c S) | rewrite (sgn_pos c S)]; cbn; split; split; auto.
Qed.

Lemma rdl_dimg guard e c k : dimg (rdl_dom guard) e c (qd_of_q k) = rdl_img c k e.
Proof. reflexivity. Qed.

(* the rational t lies between the two ends (an end may be infinite and carries an infinitesimal part) *)
Definition qd_in (lb ub : qd) (t : Qc) : Prop := qd_leb lb (qd_of_q t) = true /\ qd_leb (qd_of_q t) ub = true.

Lemma rdl_interval_img c k lb ub t : c <> 0 ->
  (qd_in lb ub t <->
   qd_in (rdl_img c k (if qc_ltb c qc0 then ub else lb)) (rdl_img c k (if qc_ltb c qc0 then lb else ub)) (c * t + k)).
Proof.
  intro Hc. unfold qd_in.
  destruct (rdl_img_le c k lb t Hc) as [L1 L2]. destruct (rdl_img_le c k ub t Hc) as [U1 U2].
  destruct (qc_ltb c qc0); rewrite ?L1, ?L2, ?U1, ?U2; tauto.
Qed.

(* one variable: the interval of v (against the origin) is (-_dists[v][0], _dists[0][v]) = bounds_var *)
Theorem rdl_bounds_lin_1 guard s v c k : c <> 0 ->
  let lb := dneg (rdl_dom guard) (dget qd (rdl_dom guard) s v 0) in
  let ub := dget qd (rdl_dom guard) s 0 v in
  let lo := dimg (rdl_dom guard) (if qc_ltb c qc0 then ub else lb) c (qd_of_q k) in
  let hi := dimg (rdl_dom guard) (if qc_ltb c qc0 then lb else ub) c (qd_of_q k) in
  bounds_var qd (rdl_dom guard) s v = RPair lb ub /\
  bounds_lin qd (rdl_dom guard) s ([(v, c)], k) = RPair lo hi /\
  (forall t, qd_in lb ub t <-> qd_in lo hi (c * t + k)) /\
  (forall x, x 0%nat = qc0 -> (qd_in lb ub (x v - x 0%nat) <-> qd_in lo hi (lin_eval x ([(v, c)], k)))).
Proof.
  intros Hc lb ub lo hi. split; [reflexivity |]. split; [| split].
  - unfold bounds_lin. cbn [fst snd dcoef_ok dconst rdl_dom negb dadd dzero]. rewrite !rdl_add_zero. reflexivity.
  - intro t. subst lo hi. rewrite !rdl_dimg. apply rdl_interval_img. exact Hc.
  - intros x Hx. subst lo hi. rewrite !rdl_dimg, lin_eval_1.
    replace (c * x v + k) with (c * (x v - x 0%nat) + k) by (rewrite Hx, qc0_eq; ring).
    apply rdl_interval_img. exact Hc.
Qed.

(* two variables with opposite coefficients: the interval of v0 - v1 is (-_dists[v0][v1], _dists[v1][v0]) = distance_var v1 v0 *)
Theorem rdl_bounds_lin_2 guard s v0 c0 v1 c1 k : c0 <> 0 -> qc_eqb (c1 / c0) qcm1 = true ->
  let lb := dneg (rdl_dom guard) (dget qd (rdl_dom guard) s v0 v1) in
  let ub := dget qd (rdl_dom guard) s v1 v0 in
  let lo := dimg (rdl_dom guard) (if qc_ltb c0 qc0 then ub else lb) c0 (qd_of_q k) in
  let hi := dimg (rdl_dom guard) (if qc_ltb c0 qc0 then lb else ub) c0 (qd_of_q k) in
  distance_var qd (rdl_dom guard) s v1 v0 = RPair lb ub /\
  bounds_lin qd (rdl_dom guard) s ([(v0, c0); (v1, c1)], k) = RPair lo hi /\
  (forall t, qd_in lb ub t <-> qd_in lo hi (c0 * t + k)) /\
  (forall x, qd_in lb ub (x v0 - x v1) <-> qd_in lo hi (lin_eval x ([(v0, c0); (v1, c1)], k))).
Proof.
  intros Hc Em lb ub lo hi. split; [reflexivity |]. split; [| split].
  - unfold bounds_lin. cbn [fst snd]. rewrite Em. cbn [dcoef_ok dconst rdl_dom negb orb dadd dzero]. rewrite !rdl_add_zero. reflexivity.
  - intro t. subst lo hi. rewrite !rdl_dimg. apply rdl_interval_img. exact Hc.
  - intros x. subst lo hi. rewrite !rdl_dimg, lin_eval_2. rewrite (ratio_m1 c0 c1 Hc Em).
    replace (c0 * x v0 + - c0 * x v1 + k) with (c0 * (x v0 - x v1) + k) by ring.
    apply rdl_interval_img. exact Hc.
Qed.
