(* Vectors, matrices and std::map-like association lists of the difference-logic model: read-after-write lemmas,
   shapes, sortedness and extensionality (two structures with the same shape and the same reads are equal). *)
From Coq Require Import List Arith Bool Lia.
From ORatio Require Import smt.Dl.
Import ListNotations.

Lemma NoDup_app_snoc {A} (l : list A) x : NoDup l -> ~ In x l -> NoDup (l ++ [x]).
Proof.
  intros H Hn. induction H as [| y l Hy Hl IH]; cbn; [constructor; [intros [] | constructor] |].
  constructor.
  - intro Hin. apply in_app_or in Hin. destruct Hin as [Hin | [E | []]]; [contradiction | subst; apply Hn; left; reflexivity].
  - apply IH. intro; apply Hn; right; assumption.
Qed.

Lemma lset_length {A} (l : list A) i v : length (lset l i v) = length l.
Proof. revert i; induction l as [| x l IH]; intros [| i]; cbn; auto. Qed.

Lemma nth_lset_eq {A} (l : list A) i v d : i < length l -> nth i (lset l i v) d = v.
Proof. revert i; induction l as [| x l IH]; intros [| i] H; cbn in *; try lia; auto. apply IH; lia. Qed.

Lemma nth_lset_neq {A} (l : list A) i j v d : i <> j -> nth j (lset l i v) d = nth j l d.
Proof. revert i j; induction l as [| x l IH]; intros [| i] [| j] H; cbn; auto; try congruence. Qed.

Lemma nth_lset {A} (l : list A) i j v d :
  nth j (lset l i v) d = if Nat.eqb i j && Nat.ltb i (length l) then v else nth j l d.
Proof.
  destruct (Nat.eqb_spec i j) as [-> | Hn]; cbn [andb].
  - destruct (Nat.ltb_spec j (length l)) as [Hl | Hl].
    + apply nth_lset_eq; exact Hl.
    + rewrite !nth_overflow; auto. rewrite lset_length; exact Hl.
  - apply nth_lset_neq; exact Hn.
Qed.

Lemma lset_same {A} (l : list A) i d : lset l i (nth i l d) = l.
Proof. revert i; induction l as [| x l IH]; intros [| i]; cbn; auto. rewrite IH; reflexivity. Qed.

Lemma lset_oob {A} (l : list A) i v : length l <= i -> lset l i v = l.
Proof. revert i; induction l as [| x l IH]; intros [| i] H; cbn in *; auto; try lia. rewrite IH; auto; lia. Qed.

Definition mshape {A} (m : list (list A)) (r c : nat) : Prop := length m = r /\ forall i, i < r -> length (nth i m []) = c.

Lemma mset_shape {A} (m : list (list A)) r c i j v : mshape m r c -> mshape (mset m i j v) r c.
Proof.
  intros [Hr Hc]. unfold mset. split.
  - rewrite lset_length; exact Hr.
  - intros k Hk. rewrite nth_lset. destruct (Nat.eqb_spec i k) as [-> | Hn]; cbn [andb].
    + destruct (Nat.ltb_spec k (length m)); [rewrite lset_length |]; apply Hc; exact Hk.
    + apply Hc; exact Hk.
Qed.

Lemma mget_mset {A} (d : A) (m : list (list A)) r c i j v i' j' :
  mshape m r c -> i < r -> j < c ->
  mget d (mset m i j v) i' j' = if Nat.eqb i i' && Nat.eqb j j' then v else mget d m i' j'.
Proof.
  intros [Hr Hc] Hi Hj. unfold mget, mset. rewrite nth_lset.
  destruct (Nat.eqb_spec i i') as [<- | Hn]; cbn [andb].
  - rewrite Hr. destruct (Nat.ltb_spec i r) as [_ | ?]; [| lia].
    rewrite nth_lset. rewrite (Hc i Hi). destruct (Nat.eqb_spec j j') as [<- | Hn2]; cbn [andb].
    + destruct (Nat.ltb_spec j c); [reflexivity | lia].
    + reflexivity.
  - reflexivity.
Qed.

Lemma mget_mset_oob {A} (d : A) (m : list (list A)) r c i j v :
  mshape m r c -> ~ (i < r /\ j < c) -> mset m i j v = m.
Proof.
  intros [Hr Hc] H. unfold mset.
  destruct (Nat.ltb_spec i r) as [Hi | Hi].
  - assert (Hj : c <= j) by lia. rewrite (lset_oob (nth i m [])).
    + apply lset_same.
    + rewrite (Hc i Hi); exact Hj.
  - apply lset_oob; lia.
Qed.

Lemma mat_ext {A} (d : A) (m1 m2 : list (list A)) r c :
  mshape m1 r c -> mshape m2 r c -> (forall i j, i < r -> j < c -> mget d m1 i j = mget d m2 i j) -> m1 = m2.
Proof.
  intros [Hr1 Hc1] [Hr2 Hc2] H. apply (nth_ext m1 m2 [] []); [congruence |].
  intros i Hi. rewrite Hr1 in Hi. apply (nth_ext _ _ d d).
  - rewrite Hc1, Hc2; auto.
  - intros j Hj. rewrite (Hc1 i Hi) in Hj. exact (H i j Hi Hj).
Qed.

Definition key_lt (a b : key) : Prop := fst a < fst b \/ (fst a = fst b /\ snd a < snd b).

Lemma key_ltb_spec a b : reflect (key_lt a b) (key_ltb a b).
Proof.
  unfold key_ltb, key_lt.
  destruct (Nat.ltb (fst a) (fst b)) eqn:E1; cbn [orb].
  - apply Nat.ltb_lt in E1. constructor; lia.
  - apply Nat.ltb_ge in E1. destruct (Nat.eqb_spec (fst a) (fst b)); cbn [andb].
    + destruct (Nat.ltb (snd a) (snd b)) eqn:E2; [apply Nat.ltb_lt in E2 | apply Nat.ltb_ge in E2]; constructor; lia.
    + constructor; lia.
Qed.
Lemma key_eqb_spec a b : reflect (a = b) (key_eqb a b).
Proof.
  unfold key_eqb. destruct a as [a1 a2], b as [b1 b2]; cbn [fst snd].
  destruct (Nat.eqb_spec a1 b1); cbn [andb]; [destruct (Nat.eqb_spec a2 b2) |]; constructor; congruence.
Qed.
Lemma key_eqb_refl a : key_eqb a a = true.
Proof. destruct (key_eqb_spec a a); congruence. Qed.
Lemma key_eq_dec (a b : key) : {a = b} + {a <> b}.
Proof. destruct (key_eqb_spec a b); [left | right]; assumption. Qed.
Lemma key_lt_irrefl a : ~ key_lt a a. Proof. unfold key_lt; lia. Qed.
Lemma key_lt_trans a b c : key_lt a b -> key_lt b c -> key_lt a c. Proof. unfold key_lt; lia. Qed.
Lemma key_lt_total a b : key_lt a b \/ a = b \/ key_lt b a.
Proof. destruct a as [a1 a2], b as [b1 b2]; unfold key_lt; cbn [fst snd]. destruct (Nat.lt_total a1 b1) as [? | [-> | ?]]; [lia | | lia].
  destruct (Nat.lt_total a2 b2) as [? | [-> | ?]]; [lia | right; left; reflexivity | lia]. Qed.

Inductive pm_sorted {T} : list (key * T) -> Prop :=
| pms_nil : pm_sorted []
| pms_cons k v m : pm_sorted m -> (forall k' v', In (k', v') m -> key_lt k k') -> pm_sorted ((k, v) :: m).

Lemma pm_find_in {T} k (m : list (key * T)) v : pm_find k m = Some v -> In (k, v) m.
Proof.
  induction m as [| [k' v'] m IH]; cbn; [discriminate |].
  destruct (key_eqb_spec k k') as [-> | Hn]; [intros [= ->]; left; reflexivity | intro H; right; auto].
Qed.

Lemma pm_find_none_lt {T} k (m : list (key * T)) : (forall k' v', In (k', v') m -> key_lt k k') -> pm_find k m = None.
Proof.
  induction m as [| [k' v'] m IH]; cbn; auto. intro H.
  destruct (key_eqb_spec k k') as [-> | Hn].
  - exfalso. apply (key_lt_irrefl k'). apply (H k' v'). left; reflexivity.
  - apply IH. intros; eapply H; right; eauto.
Qed.

Lemma pm_in_find {T} k (m : list (key * T)) v : pm_sorted m -> In (k, v) m -> pm_find k m = Some v.
Proof.
  induction 1 as [| k0 v0 m Hs IH Hlt]; cbn; [tauto |].
  intros [[= -> ->] | Hin].
  - rewrite key_eqb_refl; reflexivity.
  - destruct (key_eqb_spec k k0) as [-> | Hn]; [| auto].
    exfalso. apply (key_lt_irrefl k0). eapply Hlt; eauto.
Qed.

Lemma pm_find_set {T} k v (m : list (key * T)) k' : pm_sorted m ->
  pm_find k' (pm_set k v m) = if key_eqb k' k then Some v else pm_find k' m.
Proof.
  induction 1 as [| k0 v0 m Hs IH Hlt]; cbn [pm_set pm_find].
  - reflexivity.
  - destruct (key_ltb_spec k k0) as [Hk | Hk]; cbn [pm_find].
    + reflexivity.
    + destruct (key_eqb_spec k k0) as [-> | Hn]; cbn [pm_find].
      * destruct (key_eqb_spec k' k0); reflexivity.
      * destruct (key_eqb_spec k' k0) as [-> | Hn2].
        -- destruct (key_eqb_spec k0 k); [congruence | reflexivity].
        -- exact IH.
Qed.

Lemma pm_set_keys {T} k v (m : list (key * T)) k' v' : In (k', v') (pm_set k v m) -> k' = k \/ In k' (map fst m).
Proof.
  induction m as [| [k0 v0] m IH]; cbn.
  - intros [[= <- <-] | []]; left; reflexivity.
  - destruct (key_ltb k k0); cbn.
    + intros [[= <- <-] | [[= <- <-] | Hin]]; [left; reflexivity | right; left; reflexivity |].
      right; right. apply in_map_iff. exists (k', v'); auto.
    + destruct (key_eqb k k0); cbn.
      * intros [[= <- <-] | Hin]; [left; reflexivity | right; right; apply in_map_iff; exists (k', v'); auto].
      * intros [[= <- <-] | Hin]; [right; left; reflexivity |]. destruct (IH Hin); auto.
Qed.

Lemma pm_sorted_keys {T} k v (m : list (key * T)) : pm_sorted ((k, v) :: m) -> forall k', In k' (map fst m) -> key_lt k k'.
Proof.
  intros H k' Hin. inversion H as [| ? ? ? _ Hlt]; subst. apply in_map_iff in Hin. destruct Hin as [[k2 v2] [<- Hin]]. eapply Hlt; eauto.
Qed.

Lemma pm_set_sorted {T} k v (m : list (key * T)) : pm_sorted m -> pm_sorted (pm_set k v m).
Proof.
  induction 1 as [| k0 v0 m Hs IH Hlt]; cbn [pm_set].
  - constructor; [constructor | intros ? ? []].
  - destruct (key_ltb_spec k k0) as [Hk | Hk].
    + constructor; [constructor; assumption |].
      intros k' v' [[= <- <-] | Hin]; [exact Hk | eapply key_lt_trans; eauto].
    + destruct (key_eqb_spec k k0) as [-> | Hn].
      * constructor; assumption.
      * constructor; [exact IH |].
        intros k' v' Hin. destruct (pm_set_keys _ _ _ _ _ Hin) as [-> | Hin2].
        -- destruct (key_lt_total k0 k) as [? | [? | ?]]; [assumption | congruence | contradiction].
        -- apply in_map_iff in Hin2. destruct Hin2 as [[k2 v2] [<- Hin2]]. eapply Hlt; eauto.
Qed.

Lemma pm_erase_in {T} k (m : list (key * T)) k' v' : In (k', v') (pm_erase k m) -> In (k', v') m.
Proof.
  induction m as [| [k0 v0] m IH]; cbn; auto.
  destruct (key_eqb k k0); cbn; [auto |]. intros [H | H]; auto.
Qed.

Lemma pm_erase_sorted {T} k (m : list (key * T)) : pm_sorted m -> pm_sorted (pm_erase k m).
Proof.
  induction 1 as [| k0 v0 m Hs IH Hlt]; cbn [pm_erase]; [constructor |].
  destruct (key_eqb k k0); [assumption |]. constructor; [exact IH |].
  intros k' v' Hin. eapply Hlt. eapply pm_erase_in; eauto.
Qed.

Lemma pm_find_erase {T} k (m : list (key * T)) k' : pm_sorted m ->
  pm_find k' (pm_erase k m) = if key_eqb k' k then None else pm_find k' m.
Proof.
  induction 1 as [| k0 v0 m Hs IH Hlt]; cbn [pm_erase pm_find].
  - destruct (key_eqb k' k); reflexivity.
  - destruct (key_eqb_spec k k0) as [-> | Hn]; cbn [pm_find].
    + destruct (key_eqb_spec k' k0) as [-> | Hn2]; [| reflexivity].
      apply pm_find_none_lt. exact Hlt.
    + destruct (key_eqb_spec k' k0) as [-> | Hn2].
      * destruct (key_eqb_spec k0 k); [congruence | reflexivity].
      * exact IH.
Qed.

Lemma pm_ext {T} (m1 m2 : list (key * T)) : pm_sorted m1 -> pm_sorted m2 -> (forall k, pm_find k m1 = pm_find k m2) -> m1 = m2.
Proof.
  intro H1; revert m2; induction H1 as [| k1 v1 m1 Hs1 IH Hlt1]; intros m2 H2 H.
  - destruct m2 as [| [k2 v2] m2]; [reflexivity |]. specialize (H k2). cbn in H. rewrite key_eqb_refl in H. discriminate.
  - destruct H2 as [| k2 v2 m2 Hs2 Hlt2].
    + specialize (H k1). cbn in H. rewrite key_eqb_refl in H. discriminate.
    + assert (Hk : k1 = k2).
      { destruct (key_lt_total k1 k2) as [Hl | [He | Hl]]; [| exact He |]; exfalso.
        - pose proof (H k1) as E. cbn in E. rewrite key_eqb_refl in E.
          destruct (key_eqb_spec k1 k2) as [-> | _]; [exact (key_lt_irrefl _ Hl) |].
          symmetry in E. apply pm_find_in in E. apply (key_lt_irrefl k1). eapply key_lt_trans; [exact Hl | eapply Hlt2; eauto].
        - pose proof (H k2) as E. cbn in E. rewrite key_eqb_refl in E.
          destruct (key_eqb_spec k2 k1) as [-> | _]; [exact (key_lt_irrefl _ Hl) |].
          apply pm_find_in in E. apply (key_lt_irrefl k2). eapply key_lt_trans; [exact Hl | eapply Hlt1; eauto]. }
      subst k2. pose proof (H k1) as E. cbn in E. rewrite key_eqb_refl in E. injection E as ->.
      f_equal. apply IH; [exact Hs2 |]. intro k0. specialize (H k0). cbn in H.
      destruct (key_eqb_spec k0 k1) as [E0 | Hn]; [| exact H].
      subst k0. rewrite (pm_find_none_lt k1 m1), (pm_find_none_lt k1 m2); auto.
Qed.

Lemma pm_mem_find {T} k (m : list (key * T)) : pm_mem k m = true <-> exists v, pm_find k m = Some v.
Proof. unfold pm_mem. destruct (pm_find k m); split; [eauto | auto | intros; discriminate | intros [? ?]; discriminate]. Qed.
