(* Every operation of the sat_core model is a sequence of a few kinds of state change as far as the flag [ub], the theory
   state and the hook log are concerned (no invariant needed).  A reflexive, transitive relation that contains those
   changes therefore relates a state to whatever an operation or a history makes of it [run_R].
   First instance, here: the flag [ub] is sticky, no operation ever lowers it.  SatCoreTh_Proofs and SatCoreLog_Proofs
   hold the other two. *)
From Coq Require Import List Arith Bool ZArith.
From ORatio Require Import smt.SatCoreBase smt.SatCore.
Import ListNotations.

Section Closed.
  Context {TS : Type}.
  Variable sort : (lit -> lit -> bool) -> list lit -> list lit.
  Variable th_propagate : TS -> list lbool -> nat -> lit -> TS * list (list lit) * option (list lit).
  Variable th_check : TS -> list lbool -> nat -> TS * list (list lit) * option (list lit).
  Variable th_push th_pop : TS -> TS.
  Variable FUEL : nat.
  Notation state := (@state TS).

  (* [ok] says which hook kinds the relation admits *)
  Record closed (ok : nat -> Prop) (R : state -> state -> Prop) : Prop := {
    c_refl : forall s, R s s;
    c_trans : forall s1 s2 s3, R s1 s2 -> R s2 s3 -> R s1 s3;
    c_frame : forall s s' : state, thst s' = thst s -> log s' = log s -> (ub s = true -> ub s' = true) -> R s s';
    c_hook : forall (s : state) k l, ok k -> R s (hook s k l);
    c_thp : forall (s : state) a dl p, R s (set_thst s (fst (fst (th_propagate (thst s) a dl p))));
    c_thc : forall (s : state) a dl, R s (set_thst s (fst (fst (th_check (thst s) a dl))));
    c_push : forall (s : state), R s (set_thst s (th_push (thst s)));
    c_pop : forall (s : state), R s (set_thst s (th_pop (thst s)))
  }.

  Section Traversal.
    Variables (ok : nat -> Prop) (R : state -> state -> Prop).
    Hypothesis HC : closed ok R.
    Hypotheses (ok0 : ok 0) (ok2 : ok 2) (ok3 : ok 3).
    Lemma R_refl : forall s, R s s.
    Proof. exact (c_refl ok R HC). Qed.
    Lemma R_trans : forall s1 s2 s3, R s1 s2 -> R s2 s3 -> R s1 s3.
    Proof. exact (c_trans ok R HC). Qed.
    (* a change of other fields, possibly raising [ub] *)
    Lemma R_frame : forall s s' : state, thst s' = thst s -> log s' = log s -> (ub s' = ub s \/ ub s' = true) -> R s s'.
    Proof. intros s s' H1 H2 [H3|H3]; apply (c_frame ok R HC); auto. congruence. Qed.
    Hint Resolve R_refl : core.

    Lemma enqueue_R : forall (s : state) p c, R s (fst (enqueue s p c)).
    Proof. intros. apply R_frame; unfold enqueue; destruct (value_lit s p); auto. Qed.
    Lemma pop_one_R : forall (s : state), R s (pop_one s).
    Proof. intros. apply R_frame; unfold pop_one; destruct (trail s); auto. Qed.
    Lemma clause_new_R : forall (s : state) ls, R s (fst (clause_new s ls)).
    Proof. intros. apply R_frame; unfold clause_new; destruct ls as [|a [|b r]]; auto. Qed.
    Lemma new_clause_R : forall (s : state) ls, ok 4 -> R s (fst (new_clause sort s ls)).
    Proof.
      intros s ls ok4. unfold new_clause. eapply R_trans. apply (c_hook ok R HC s 4 ls ok4).
      destruct (nc_filter _ _ _ _) as [[|a [|b r]]|]; cbn [fst]; auto. apply enqueue_R.
      pose proof (clause_new_R (hook s 4 ls) (a :: b :: r)) as H. destruct (clause_new (hook s 4 ls) (a :: b :: r)) as [s1 id].
      eapply R_trans. exact H. apply R_frame; auto.
    Qed.
    Lemma clause_propagate_R : forall (s : state) c p, R s (fst (clause_propagate s c p)).
    Proof.
      intros. unfold clause_propagate.
      destruct (match lits_of s c with l0 :: l1 :: r => if Nat.eqb (fst l0) (fst p) then l1 :: l0 :: r else lits_of s c | _ => lits_of s c end) as [|l0 rest]; simpl.
      apply R_frame; auto.
      destruct (is_true s l0); simpl. apply R_frame; auto.
      destruct (split_nf s rest) as [[[pre x] post]|]; simpl. apply R_frame; auto.
      eapply R_trans. 2: apply enqueue_R. apply R_frame; auto.
    Qed.
    Lemma visit_R : forall tmp (s : state) p, R s (fst (visit s p tmp)).
    Proof.
      induction tmp as [|c t IH]; intros s p; simpl; auto.
      pose proof (clause_propagate_R s c p) as H. destruct (clause_propagate s c p) as [s1 ok1]. simpl in H.
      destruct ok1; simpl; auto. eapply R_trans; eauto.
    Qed.
    Lemma pop_to_seen_R : forall fuel (s : state) seen pr, R s (fst (fst (pop_to_seen fuel s seen pr))).
    Proof.
      induction fuel as [|f IH]; intros s seen pr; simpl. apply R_frame; auto.
      destruct (trail s) as [|p t] eqn:E. apply R_frame; auto.
      destruct (memv (fst p) seen); simpl. apply pop_one_R. eapply R_trans. apply pop_one_R. apply IH.
    Qed.
    Lemma analyze_loop_R : forall fuel (s : state) seen counter learnt btl pr,
      R s (fst (fst (analyze_loop fuel s seen counter learnt btl pr))).
    Proof.
      induction fuel as [|f IH]; intros s seen counter learnt btl pr; cbn [analyze_loop];
        destruct (trace s pr seen counter learnt btl) as [[[seen1 counter1] learnt1] btl1];
        pose proof (pop_to_seen_R (S (length (trail s))) s seen1 pr) as H;
        destruct (pop_to_seen (S (length (trail s))) s seen1 pr) as [[s2 p] pr2]; simpl in H.
      - destruct (Z.ltb 0 (counter1 - 1)); simpl; auto. eapply R_trans; [exact H|]. apply R_frame; auto.
      - destruct (Z.ltb 0 (counter1 - 1)); simpl; auto. eapply R_trans; eauto.
    Qed.
    Lemma pop_while_R : forall fuel lim (s : state), R s (pop_while fuel lim s).
    Proof.
      induction fuel as [|f IH]; intros lim s; simpl; auto.
      destruct (Nat.ltb lim (length (trail s))); auto. eapply R_trans. apply pop_one_R. apply IH.
    Qed.
    Lemma pop_R : forall (s : state), R s (pop th_pop s).
    Proof.
      intros. unfold pop. destruct (trail_lim s). apply R_frame; auto.
      eapply R_trans. apply (pop_while_R (length (trail s)) n s). eapply R_trans. apply (c_pop ok R HC). apply R_frame; auto.
    Qed.
    Lemma pop_until_f_R : forall fuel bt (s : state), R s (pop_until_f th_pop fuel bt s).
    Proof.
      induction fuel as [|f IH]; intros bt s; simpl; auto.
      destruct (Nat.ltb bt (decision_level s)); auto. eapply R_trans. apply pop_R. apply IH.
    Qed.
    Lemma record_R : forall (s : state) k ls, ok k -> R s (record sort s k ls).
    Proof.
      intros s k ls Hk. unfold record. eapply R_trans. apply (c_hook ok R HC s k ls Hk). destruct ls as [|l0 [|l1 t]].
      - apply R_frame; auto.
      - apply enqueue_R.
      - pose proof (clause_new_R (hook s k (l0 :: l1 :: t)) (l0 :: sort (level_gt (hook s k (l0 :: l1 :: t))) (l1 :: t))) as H1.
        destruct (clause_new _ _) as [s1 id]. pose proof (enqueue_R s1 l0 (Some id)) as H2.
        destruct (enqueue s1 l0 (Some id)) as [s2 b]. simpl in *.
        eapply R_trans. exact H1. eapply R_trans. exact H2. apply R_frame; auto.
    Qed.
    Lemma abr_R : forall (s : state) cnfl, R s (analyze_backjump_record sort th_pop s cnfl).
    Proof.
      intros. unfold analyze_backjump_record, analyze.
      pose proof (analyze_loop_R (length (trail s)) s [] 0%Z [] 0 (map lneg cnfl)) as H.
      destruct (analyze_loop _ _ _ _ _ _ _) as [[s1 learnt] bt]. simpl in H.
      eapply R_trans. exact H. eapply R_trans. apply pop_until_f_R. apply record_R. exact ok0.
    Qed.
    Lemma lemmas_R : forall l (s0 : state), R s0 (fold_left (fun s l => record sort s 2 l) l s0).
    Proof. induction l as [|x t IH]; intros s0; simpl; auto. eapply R_trans. apply record_R. exact ok2. apply IH. Qed.
    (* a conflict: report it, then `false` at root level, analyze and another round above it *)
    Lemma conflict_R : forall (s : state) cnfl (rest : state -> state * outcome), (forall s1, R s1 (fst (rest s1))) ->
      R s (fst (if root_level s then (s, RFalse) else rest (analyze_backjump_record sort th_pop s cnfl))).
    Proof. intros s cnfl rest H. destruct (root_level s); simpl; auto. eapply R_trans. apply abr_R. apply H. Qed.
    Lemma propagate_f_R : forall fuel (s : state), R s (fst (propagate_f sort th_propagate th_check th_pop fuel s)).
    Proof.
      induction fuel as [|f IH]; intros s; cbn [propagate_f]; auto.
      destruct (prop_q s) as [|p q].
      - assert (H : R s (fst (apply_theory sort s (th_check (thst s) (assigns s) (decision_level s))))).
        { pose proof (c_thc ok R HC s (assigns s) (decision_level s)) as H.
          destruct (th_check (thst s) (assigns s) (decision_level s)) as [[ts lemmas] cf]. eapply R_trans. exact H. apply lemmas_R. }
        destruct (apply_theory sort s _) as [s3 [cnfl|]]; simpl in H; auto.
        eapply R_trans. exact H. eapply R_trans. apply (c_hook ok R HC s3 3 cnfl ok3). apply conflict_R. exact IH.
      - set (s0 := set_prop_q s q). set (s1 := set_watches s0 _).
        pose proof (visit_R (nth (index p) (watches s0) []) s1 p) as Hv.
        assert (H01 : R s s1) by (apply R_frame; auto).
        destruct (visit s1 p _) as [s2 [[c rest]|]]; simpl in Hv.
        + eapply R_trans. exact H01. eapply R_trans. exact Hv.
          match goal with |- context [root_level ?x] => eapply (R_trans _ x); [apply R_frame; auto|apply conflict_R; exact IH] end.
        + assert (H : R s2 (fst (apply_theory sort s2 (th_propagate (thst s2) (assigns s2) (decision_level s2) p)))).
          { pose proof (c_thp ok R HC s2 (assigns s2) (decision_level s2) p) as H.
            destruct (th_propagate (thst s2) (assigns s2) (decision_level s2) p) as [[ts lemmas] cf]. eapply R_trans. exact H. apply lemmas_R. }
          destruct (apply_theory sort s2 _) as [s3 [cnfl|]]; simpl in H.
          * eapply R_trans. exact H01. eapply R_trans. exact Hv. eapply R_trans. exact H.
            eapply (R_trans _ (set_prop_q s3 [])). apply R_frame; auto.
            eapply R_trans. apply (c_hook ok R HC _ 3 cnfl ok3). apply conflict_R. exact IH.
          * eapply R_trans. exact H01. eapply R_trans. exact Hv. eapply R_trans. exact H. apply IH.
    Qed.
    Lemma assume_R : forall (s : state) p, R s (fst (assume sort th_propagate th_check th_push th_pop FUEL s p)).
    Proof.
      intros. unfold assume. set (s1 := mkst _ _ _ _ _ _ _ _ _ _ _ _ _).
      assert (H0 : R s s1). { eapply R_trans. apply (c_push ok R HC). apply R_frame; auto. }
      pose proof (enqueue_R s1 p None) as H. destruct (enqueue s1 p None) as [s2 ok1]. simpl in H.
      destruct ok1; simpl. eapply R_trans. exact H0. eapply R_trans. exact H. apply propagate_f_R. eapply R_trans; eauto.
    Qed.
    Lemma next_R : forall (s : state), ok 1 -> R s (fst (next sort th_propagate th_check th_pop FUEL s)).
    Proof.
      intros s ok1. unfold next. destruct (root_level s); simpl; auto.
      eapply R_trans. apply pop_R. eapply R_trans. apply record_R. exact ok1. apply propagate_f_R.
    Qed.
    Lemma check_loop_R : forall ls (s : state) c_rl, R s (fst (check_loop sort th_propagate th_check th_push th_pop FUEL s c_rl ls)).
    Proof.
      induction ls as [|p t IH]; intros s c_rl; simpl. apply pop_until_f_R.
      pose proof (assume_R s p) as H1. destruct (assume _ _ _ _ _ _ s p) as [s1 [| |]]; simpl in *; auto.
      - pose proof (propagate_f_R FUEL s1) as H2. unfold propagate.
        destruct (propagate_f _ _ _ _ FUEL s1) as [s2 [| |]]; simpl in *.
        + eapply R_trans. exact H1. eapply R_trans. exact H2.
          destruct (Nat.leb (decision_level s2) (decision_level s)); simpl. apply pop_until_f_R. apply IH.
        + eapply R_trans. exact H1. eapply R_trans. exact H2. apply pop_until_f_R.
        + eapply R_trans; eauto.
      - eapply R_trans. exact H1. apply pop_until_f_R.
    Qed.
    Lemma clause_remove_R : forall (s : state) c, R s (clause_remove s c).
    Proof.
      intros. unfold clause_remove. destruct (lits_of s c) as [|l0 [|l1 r]]; try (apply R_frame; auto; fail).
      assert (Hw : forall (sx : state) q, R sx (watch_erase sx q c)).
      { intros. apply R_frame; unfold watch_erase; destruct (erase1 _ _); auto. }
      assert (Hu : forall ls (sx : state), R sx (fold_left (unreason c) ls sx)).
      { induction ls as [|l t IH]; intros sx; simpl; auto. eapply R_trans. 2: apply IH.
        apply R_frame; unfold unreason; destruct (nth (fst l) (reason sx) None); auto; destruct (Nat.eqb c n); auto. }
      eapply R_trans. apply Hw. eapply R_trans. apply Hw. apply Hu.
    Qed.
    Lemma simplify_loop_R : forall cs (s : state) kept, R s (simplify_loop s cs kept).
    Proof.
      induction cs as [|c t IH]; intros s kept; simpl. apply R_frame; auto.
      destruct (simp_go s (lits_of s c) (lits_of s c) []) as [sat ls]. destruct sat.
      - eapply R_trans. 2: apply IH. eapply (R_trans _ (set_cls s (upd (cls s) c ls))). apply R_frame; auto.
        eapply R_trans. apply clause_remove_R. destruct (still_watched _ c); auto. apply R_frame; auto.
      - eapply R_trans. 2: apply IH. destruct (shrink_ok s c (lits_of s c) ls); apply R_frame; auto.
    Qed.
    Lemma step_R : forall (s : state) o, (o = ONext -> ok 1) -> (forall l, o = ONewClause l -> ok 4) ->
      R s (fst (step sort th_propagate th_check th_push th_pop FUEL s o)).
    Proof.
      intros s o H1 H4. destruct o; simpl.
      - apply R_frame; auto.
      - pose proof (new_clause_R s l (H4 l eq_refl)) as H. destruct (new_clause sort s l) as [s1 b]. exact H.
      - apply assume_R.
      - apply propagate_f_R.
      - apply pop_R.
      - apply next_R. auto.
      - apply check_loop_R.
      - unfold simplify_db, propagate. pose proof (propagate_f_R FUEL s) as H.
        destruct (propagate_f _ _ _ _ FUEL s) as [s1 [| |]]; simpl in *; auto.
        eapply R_trans. exact H. apply simplify_loop_R.
    Qed.
    Theorem run_R : forall ops (s : state), (In ONext ops -> ok 1) -> ((exists l, In (ONewClause l) ops) -> ok 4) ->
      R s (run sort th_propagate th_check th_push th_pop FUEL ops s).
    Proof.
      induction ops as [|o t IH]; intros s H1 H4; simpl; auto.
      assert (Ho : R s (fst (step sort th_propagate th_check th_push th_pop FUEL s o))).
      { apply step_R. intros ->. apply H1. simpl; auto. intros l ->. apply H4. exists l. simpl; auto. }
      eapply R_trans. exact Ho. apply IH. intros H. apply H1. simpl; auto. intros [l H]. apply H4. exists l. simpl; auto.
    Qed.
  End Traversal.

  Definition ubm (s s' : state) : Prop := ub s = true -> ub s' = true.
  Lemma ubm_closed : closed (fun _ => True) ubm.
  Proof. constructor; unfold ubm; simpl; auto. Qed.
  Lemma simplify_loop_ub : forall cs (s : state) kept, ubm s (simplify_loop s cs kept).
  Proof. apply (simplify_loop_R _ _ ubm_closed). Qed.
  Lemma step_ub : forall (s : state) o, ubm s (fst (step sort th_propagate th_check th_push th_pop FUEL s o)).
  Proof. intros. apply (step_R _ _ ubm_closed); auto. Qed.
  Lemma run_ub : forall ops (s : state), ubm s (run sort th_propagate th_check th_push th_pop FUEL ops s).
  Proof. intros. apply (run_R _ _ ubm_closed); auto. Qed.
End Closed.
