(* C08 for the network sat_core + object-variable theory: the OV instance of smt/SatCoreOv.v meets the theory contract and the
   three undo laws, so `assume p ; pop` restores the whole observable state, domains included, after ANY history. *)
From Coq Require Import List Arith Bool.
From ORatio Require Import smt.SatCoreBase smt.SatCoreSpec smt.SatCore smt.SatCoreOv smt.SatEnc smt.Ov proofs.SatCoreRun_Proofs proofs.SatCoreThm_Proofs proofs.SatCoreTh_Proofs
  proofs.SatCoreUndo_Proofs proofs.SatCoreWlThm_Proofs.
Import ListNotations.

Notation clit := SatCoreBase.lit.

(* the contract of smt/SatCore.v's theory parameters: lemmas / conflicts valid, ... - vacuous, the theory never reports any *)
Lemma ov_contract : theory_contract no_theory ov_thp ov_thc.
Proof.
  split.
  - intros s p _ _ _. unfold th_result_ok, ov_thp. simpl. split. constructor. intros; discriminate.
  - intros s _. unfold th_result_ok, ov_thc. simpl. split; auto. split. constructor. intros; discriminate.
Qed.
Lemma ov_quiet_p : forall ts a dl p, snd (fst (ov_thp ts a dl p)) = [] /\ snd (ov_thp ts a dl p) = None.
Proof. intros; split; reflexivity. Qed.

(* the three undo laws, for the observation "the whole theory state" *)
Lemma ov_pop_push : forall ts, ov_thpop (ov_thpush ts) = ts.
Proof. intros [d n]. reflexivity. Qed.
Lemma ov_pop_propagate : forall ts a dl p, ov_thpop (fst (fst (ov_thp ts a dl p))) = ov_thpop ts.
Proof. reflexivity. Qed.
Lemma ov_pop_check : forall ts a dl, ov_thpop (fst (fst (ov_thc ts a dl))) = ov_thpop ts.
Proof. reflexivity. Qed.

(* the domain table is never written by the search *)
Lemma ov_doms_const : forall fuel ops doms, ov_doms (thst (ovn_run fuel ops (ovn_init doms))) = doms.
Proof.
  intros fuel ops doms. unfold ovn_run, ovn_init.
  apply (run_th_inv (@isort clit) ov_thp ov_thc ov_thpush ov_thpop fuel (fun ts => ov_doms ts = doms)); auto.
Qed.

(* no history of the network reaches undefined behaviour *)
Lemma ov_no_ub : forall fuel ops doms, ovn_run_ok fuel ops (ovn_init doms) = true -> ub (ovn_run fuel ops (ovn_init doms)) = false.
Proof.
  intros fuel ops doms Hok.
  apply (c07_no_ub_lemmas no_theory (@isort clit) ov_thp ov_thc ov_thpush ov_thpop fuel isort_contract isort_key_sorted ov_contract
           (quiet_lemmas_wl no_theory ov_thp ov_quiet_p) ops (mkOvt doms 0) Hok).
Qed.

Lemma ovs_value_ext : forall (s s2 : ovstate), assigns s2 = assigns s -> thst s2 = thst s -> forall v, ovs_value s2 v = ovs_value s v.
Proof.
  intros s s2 Ha Ht v. unfold ovs_value. rewrite Ht. f_equal. apply filter_ext. intros [k l]. simpl.
  unfold is_false, value_lit, value_var. rewrite Ha. reflexivity.
Qed.

(* the theorem: after any history of the sat_core + ov network, a decision that is taken without a conflict and then undone
   leaves everything as it was - values, levels, reasons, trail, decisions, queue, clause list, log, the theory state - and
   every object variable reports the same domain as before *)
Theorem c08_sat_ov : forall fuel doms ops,
  ovn_run_ok fuel ops (ovn_init doms) = true ->
  forall p s', pre (ovn_run fuel ops (ovn_init doms)) (OAssume p) = true ->
  ovn_assume fuel (ovn_run fuel ops (ovn_init doms)) p = (s', RTrue) ->
  log s' = log (ovn_run fuel ops (ovn_init doms)) ->
  restored ovt (fun ts => ts) (ovn_run fuel ops (ovn_init doms)) (ovn_pop s') /\
  (forall v, ovs_value (ovn_pop s') v = ovs_value (ovn_run fuel ops (ovn_init doms)) v) /\
  ov_doms (thst (ovn_pop s')) = doms.
Proof.
  intros fuel doms ops Hok p s' Hpre E Hl.
  assert (R : restored ovt (fun ts => ts) (ovn_run fuel ops (ovn_init doms)) (ovn_pop s')).
  { apply (c08_pop_assume no_theory (@isort clit) ov_thp ov_thc ov_thpush ov_thpop fuel isort_contract ov_contract ovt (fun ts => ts)
             ov_pop_push ov_pop_propagate ov_pop_check ops (mkOvt doms 0) Hok (ov_no_ub fuel ops doms Hok) p s' Hpre E Hl). }
  split; [exact R|]. destruct R as [Ra _ _ _ _ _ _ _ _ _ Rt]. split.
  - apply ovs_value_ext; auto.
  - rewrite Rt. apply ov_doms_const.
Qed.

(* the reported domain is Ov.v's ov_value (the model tied to ov_theory.cpp by C14) when the two assignments agree *)
Definition conv (l : SatEnc.lit) : clit := (lvar l, lsign l).
Lemma ovs_value_is_ov_value : forall (o : ov_state) (s : ovstate) v,
  ov_doms (thst s) = map (map (fun p => (fst p, conv (snd p)))) (doms o) ->
  (forall l, is_false s (conv l) = SatEnc.lbool_eqb (SatEnc.value (sat o) l) SatEnc.LFalse) ->
  ovs_value s v = ov_value o v.
Proof.
  intros o s v Hd Hv. unfold ovs_value, ov_value, get_dom. rewrite Hd.
  replace (nth v (map (map (fun p => (fst p, conv (snd p)))) (doms o)) []) with (map (fun p => (fst p, conv (snd p))) (nth v (doms o) []))
    by (symmetry; apply (map_nth (map (fun p : nat * SatEnc.lit => (fst p, conv (snd p)))) (doms o) [] v)).
  induction (nth v (doms o) []) as [|[k l] t IH]; simpl; auto.
  rewrite Hv. destruct (SatEnc.lbool_eqb (SatEnc.value (sat o) l) SatEnc.LFalse); simpl; auto. now rewrite IH.
Qed.

(* a concrete network: object variables e0 over {0,1} (literals x1, x2) and e1 over {1,2} (literals x3, x4), the equality
   literal x5 = (e0 == e1) with the clauses of ov_theory::new_eq, propagated; then the decision x5 *)
Definition ex_doms : list (list (nat * clit)) := [[(0, (1, true)); (1, (2, true))]; [(1, (3, true)); (2, (4, true))]].
Definition ex_ops : list SatCore.op :=
  [ONewVar; ONewVar; ONewVar; ONewVar; ONewVar;
   ONewClause [(1, true); (2, true)]; ONewClause [(1, false); (2, false)];
   ONewClause [(3, true); (4, true)]; ONewClause [(3, false); (4, false)];
   ONewClause [(5, false); (1, false)]; ONewClause [(5, false); (4, false)];
   ONewClause [(5, false); (2, false); (3, true)]; ONewClause [(5, false); (2, true); (3, false)];
   ONewClause [(5, true); (2, false); (3, false)];
   OPropagate].
Example ex_sat_ov :
  let s := ovn_run 100 ex_ops (ovn_init ex_doms) in
  let s' := fst (ovn_assume 100 s (5, true)) in
  ovn_run_ok 100 ex_ops (ovn_init ex_doms) = true /\ pre s (OAssume (5, true)) = true /\
  ovn_assume 100 s (5, true) = (s', RTrue) /\ log s' = log s /\
  ovs_value s 0 = [0; 1] /\ ovs_value s 1 = [1; 2] /\
  ovs_value s' 0 = [1] /\ ovs_value s' 1 = [1] /\
  ovs_value (ovn_pop s') 0 = [0; 1] /\ ovs_value (ovn_pop s') 1 = [1; 2].
Proof. vm_compute. repeat split; reflexivity. Qed.
