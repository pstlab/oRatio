(* C17: (i) soundness of check_objects; (ii) type::new_instance registers an item with exactly the (reflexive, transitive)
   supertypes of its class - duplicates under diamond inheritance do not change any domain as a set;
   (iii) var_item::get: in every model of the generated clauses in which the object variable has one value, the derived
   variable denotes the field of that value. *)
From Coq Require Import List NArith ZArith Bool.
From ORatio Require Import plan.Ast plan.Sem plan.Check plan.Oo proofs.Check_Proofs.
Import ListNotations.

Lemma active_check : forall s (b : bool), match s with Inactive => true | _ => b end = true -> s <> Inactive -> b = true.
Proof. intros [ | | ] b H Hs; [exact H | exact H | exfalso; apply Hs; reflexivity]. Qed.

Section Sound.
  Variable prog : program.
  Variable sol : solution.

  Lemma find_ctor_sound : forall d n cd, find_ctor d n = Some cd -> In cd (ctors_of d).
  Proof. intros d n cd H. unfold find_ctor in H. apply find_some in H as [H _]. exact H. Qed.

  Lemma ctor_okb_sound : forall o c ce, ctor_okb prog sol o c ce = true -> ctor_ok prog sol o c ce.
  Proof.
    intros o c ce H. unfold ctor_okb in H.
    destruct (find_class prog c) as [d|] eqn:Ed; [|discriminate].
    apply existsb_exists in H as [cd [Hcd H]].
    apply andb_true_iff in H as [H Hbody]. apply andb_true_iff in H as [H Hsup]. apply andb_true_iff in H as [H Hfld].
    apply andb_true_iff in H as [H Hinit]. apply andb_true_iff in H as [Hthis Hpar].
    unfold ctor_ok. exists d, cd. split; [exact Ed|]. split; [exact Hcd|].
    split; [apply value_is_ref_sound; exact Hthis|]. split; [|split; [|split; [|split]]].
    - intros p Hp. rewrite forallb_forall in Hpar. specialize (Hpar p Hp).
      destruct (own sol ce (fst p)) as [v|]; [|discriminate]. exists v. reflexivity.
    - intros Hfirst f ex Hin. rewrite Hfirst in Hinit. simpl in Hinit. rewrite forallb_forall in Hinit.
      apply veq_opt_sound. exact (Hinit (f, ex) Hin).
    - intros Hfirst f t init Hin Hno. rewrite Hfirst in Hfld. simpl in Hfld. rewrite forallb_forall in Hfld.
      specialize (Hfld (f, t, init) Hin). simpl in Hfld. rewrite Hno in Hfld.
      destruct (own sol (o_id o) f) as [v|]; [|discriminate].
      exists v. split; [reflexivity | apply typed_init_sound; exact Hfld].
    - intros s Hs. rewrite forallb_forall in Hsup. specialize (Hsup s Hs).
      destruct (find_class prog s) as [sd|]; [|discriminate].
      apply existsb_keyed in Hsup as [se [Hin Hx]]. simpl in Hx.
      destruct (assoc s (cd_supers cd)) as [xs|].
      + destruct (find_ctor sd (length xs)) as [scd|] eqn:Escd; [|discriminate].
        exists sd, scd, se. split; [reflexivity|]. split; [exact Hin|]. split; [exact Escd | apply args_matchb_sound; exact Hx].
      + destruct (find_ctor sd 0) as [scd|] eqn:Escd; [|discriminate].
        exists sd, scd, se. split; [reflexivity|]. split; [exact Hin | exact Escd].
    - apply chk_list_sound. exact Hbody.
  Qed.

  Lemma dom_okb_sound : forall t vr, dom_okb prog sol t vr = true ->
    if is_enum prog t then forall s, In s (v_dom0 vr) <-> EnumVal prog t s
    else forall o, In o (v_dom0 vr) <->
                   exists r, find_obj sol o = Some r /\ Sub prog (o_class r) t /\ (o_seq r < v_seq vr)%N.
  Proof.
    intros t vr H. unfold dom_okb in H. destruct (is_enum prog t).
    - destruct (enum_values (cfuel prog) prog t) as [l|] eqn:El; [|discriminate].
      apply andb_true_iff in H as [H1 H2]. rewrite forallb_forall in H1, H2. intros s. split; intros Hs.
      + eapply enum_values_sound; [exact El | apply mem_In; apply H1; exact Hs].
      + apply mem_In. apply H2. eapply enum_values_complete; [exact Hs | exact El].
    - apply andb_true_iff in H as [H1 H2]. rewrite forallb_forall in H1, H2. intros o. split.
      + intros Ho. specialize (H1 o Ho).
        destruct (find_obj sol o) as [r|]; [|discriminate].
        apply andb_true_iff in H1 as [Ha Hl].
        exists r. split; [reflexivity|]. split; [apply subb_sound; exact Ha | apply N.ltb_lt; exact Hl].
      + intros [r [Hr [Hsub Hlt]]]. destruct (find_key o_id _ _ _ Hr) as [Hin Hid].
        specialize (H2 r Hin). rewrite Hid, Hr in H2.
        destruct (ancestors (cfuel prog) prog (o_class r)) as [l|] eqn:El; [|discriminate].
        assert (Hm : mem t l = true) by (apply mem_In; eapply ancestors_complete; [exact Hsub | exact El]).
        apply N.ltb_lt in Hlt. rewrite Hm, Hlt in H2. simpl in H2. rewrite Hid in H2. apply mem_In. exact H2.
  Qed.

  (* the shape in which declared_types selects the declarations of a name *)
  Lemma ty_ref_if_In : forall x y ty t, In t (if N.eqb x y then ty_ref ty else []) -> x = y /\ ty = TRef t.
  Proof.
    intros x y ty t H. destruct (N.eqb x y) eqn:E; [|destruct H]. apply N.eqb_eq in E.
    destruct ty; try destruct H as [H | []]; try destruct H. subst. split; reflexivity.
  Qed.

  Lemma declared_types_sound : forall vr t, In t (declared_types prog sol vr) -> declared_type prog sol vr t.
  Proof.
    intros vr t H. unfold declared_types in H. apply in_app_or in H as [H | H]; [|apply in_app_or in H as [H | H]].
    - destruct (N.eqb (v_env vr) id_core) eqn:Ee; [|destruct H]. apply N.eqb_eq in Ee.
      apply in_flat_map in H as [s [Hs Ht]].
      destruct s as [ty x init | | | | | ]; try destruct Ht. destruct ty as [ | | | | c]; try destruct Ht.
      apply (ty_ref_if_In x _ (TRef c)) in Ht as [-> Heq]. injection Heq as ->.
      eapply DT_local; eassumption.
    - destruct (find_obj sol (v_env vr)) as [r|] eqn:Er; [|destruct H].
      destruct (ancestors (cfuel prog) prog (o_class r)) as [l|] eqn:El; [|destruct H].
      apply in_flat_map in H as [c [Hc H]].
      destruct (find_class prog c) as [d|] eqn:Ed; [|destruct H].
      apply in_flat_map in H as [[[f ty] init] [Hf H]]. simpl in H. apply ty_ref_if_In in H as [-> ->].
      eapply DT_field; [exact Er | eapply ancestors_sound; eassumption | exact Ed | exact Hf].
    - destruct (find_atom sol (v_env vr)) as [ar|] eqn:Ea; [|destruct H].
      destruct (rule_chain (pfuel prog) prog (a_pred ar)) as [ch|] eqn:Ech; [|destruct H].
      apply in_flat_map in H as [[x ty] [Hx H]]. simpl in H. apply ty_ref_if_In in H as [-> ->].
      eapply DT_param; eassumption.
  Qed.

  (* C17: soundness of the checker, for every program and every solution *)
  Theorem check_objects_sound : check_objects prog sol = true -> objects prog sol.
  Proof.
    intros H. unfold check_objects in H. apply andb_true_iff in H as [H Hd]. apply andb_true_iff in H as [H Ha].
    apply andb_true_iff in H as [Hc Hf].
    split; [|split; [|split]].
    - intros o Ho c ce Hin. unfold check_ctors in Hc. rewrite forallb_forall in Hc. specialize (Hc o Ho).
      rewrite forallb_forall in Hc. specialize (Hc (c, ce) Hin). apply ctor_okb_sound. exact Hc.
    - intros r c d f t Hr Hsub Hd' Hfld Hen Hno Hc2. unfold check_field_vars in Hf. rewrite forallb_forall in Hf. specialize (Hf r Hr).
      destruct (ancestors (cfuel prog) prog (o_class r)) as [l|] eqn:El; [|discriminate].
      rewrite forallb_forall in Hf. specialize (Hf c (ancestors_complete _ _ _ Hsub _ _ El)). rewrite Hd' in Hf.
      rewrite forallb_forall in Hf. specialize (Hf (f, TRef t, None) Hfld). simpl in Hf.
      rewrite Hen, (two_candidatesb_complete _ _ _ _ Hc2) in Hf. simpl in Hf.
      apply orb_true_iff in Hf as [Hf | Hf]; [|apply has_var_recb_sound; exact Hf].
      rewrite orb_false_r in Hf. apply existsb_exists in Hf as [cd [Hcd Hf]]. rewrite (Hno cd Hcd) in Hf. discriminate.
    - intros ar Hin Hst. unfold check_arg_types in Ha. rewrite forallb_forall in Ha. specialize (Ha ar Hin).
      apply active_check in Ha; [|exact Hst].
      destruct (rule_chain (pfuel prog) prog (a_pred ar)) as [ch|] eqn:Ech; [|discriminate].
      exists (pfuel prog), ch. split; [exact Ech|]. intros x t v Hxt Hv.
      rewrite forallb_forall in Ha. specialize (Ha (x, t) Hxt). simpl in Ha. rewrite Hv in Ha.
      apply has_typeb_sound. exact Ha.
    - intros vr Hvr. unfold check_domains in Hd. rewrite forallb_forall in Hd. specialize (Hd vr Hvr).
      apply existsb_exists in Hd as [t [Ht Hdom]].
      exists t. split; [apply declared_types_sound; exact Ht | apply dom_okb_sound; exact Hdom].
  Qed.
End Sound.

Lemma Sub_trans1 : forall prog d s c, In s (class_supers prog d) -> Sub prog s c -> Sub prog d c.
Proof. intros. eapply Sub_step; eassumption. Qed.

Lemma bfs_sound : forall prog fuel q l, bfs fuel prog q = Some l -> forall t, In t l -> exists c, In c q /\ Sub prog c t.
Proof.
  intros prog fuel. induction fuel as [|f IH]; intros q l H t Ht; simpl in H.
  - destruct q; [inversion H; subst; destruct Ht | discriminate].
  - destruct q as [|c r]; [inversion H; subst; destruct Ht|].
    destruct (bfs f prog (r ++ class_supers prog c)) as [l'|] eqn:E; [|discriminate].
    inversion H; subst. destruct Ht as [<- | Ht].
    + exists c. split; [left; reflexivity | apply Sub_refl].
    + destruct (IH _ _ E t Ht) as [x [Hx Hs]]. apply in_app_or in Hx as [Hx | Hx].
      * exists x. split; [right; exact Hx | exact Hs].
      * exists c. split; [left; reflexivity | eapply Sub_step; eassumption].
Qed.

Lemma bfs_complete : forall prog fuel q l, bfs fuel prog q = Some l -> forall c t, In c q -> Sub prog c t -> In t l.
Proof.
  intros prog fuel. induction fuel as [|f IH]; intros q l H c t Hc Hs; simpl in H.
  - destruct q; [destruct Hc | discriminate].
  - destruct q as [|c0 r]; [destruct Hc|].
    destruct (bfs f prog (r ++ class_supers prog c0)) as [l'|] eqn:E; [|discriminate].
    inversion H; subst. destruct Hc as [-> | Hc].
    + inversion Hs as [c1 | d s c1 Hin Hs']; subst.
      * left. reflexivity.
      * right. eapply IH; [exact E | apply in_or_app; right; exact Hin | exact Hs'].
    + right. eapply IH; [exact E | apply in_or_app; left; exact Hc | exact Hs].
Qed.

(* type::new_instance: the item is registered with exactly the supertypes of its class (as a set) *)
Theorem registered_with_spec : forall prog fuel c l, registered_with fuel prog c = Some l -> forall t, In t l <-> Sub prog c t.
Proof.
  intros prog fuel c l H t. unfold registered_with in H. split.
  - intros Ht. destruct (bfs_sound _ _ _ _ H t Ht) as [x [[<- | []] Hs]]. exact Hs.
  - intros Hs. eapply bfs_complete; [exact H | left; reflexivity | exact Hs].
Qed.

(* hence, whatever the multiplicities: o is in the instances of t iff it was created with a class that is a subtype of t *)
Theorem instances_of_spec : forall prog fuel news t o,
  (forall oc, In oc news -> registered_with fuel prog (snd oc) <> None) ->
  (In o (instances_of fuel prog news t) <-> exists c, In (o, c) news /\ Sub prog c t).
Proof.
  intros prog fuel news t o Hfuel. unfold instances_of. rewrite in_flat_map. split.
  - intros [[o' c] [Hin Hx]]. simpl in Hx.
    destruct (registered_with fuel prog c) as [l|] eqn:E; [|destruct Hx].
    apply in_map_iff in Hx as [t' [Ho Ht']]. subst o'. apply filter_In in Ht' as [Ht' Heq]. apply N.eqb_eq in Heq. subst t'.
    exists c. split; [exact Hin | apply (registered_with_spec _ _ _ _ E); exact Ht'].
  - intros [c [Hin Hs]]. exists (o, c). split; [exact Hin|]. simpl.
    destruct (registered_with fuel prog c) as [l|] eqn:E; [|exfalso; apply (Hfuel (o, c) Hin); exact E].
    apply in_map_iff. exists t. split; [reflexivity|]. apply filter_In. split; [|apply N.eqb_refl].
    apply (registered_with_spec _ _ _ _ E). exact Hs.
Qed.

(* diamond inheritance: D : L, R;  L : T;  R : T  -- T receives the new D twice (the duplicate is real) *)
Example diamond_duplicates :
  let prog := mkProg [mkClass 1%N KClass [] [] []; mkClass 2%N KClass [1%N] [] []; mkClass 3%N KClass [1%N] [] [];
                      mkClass 4%N KClass [2%N; 3%N] [] []] [] [] in
  registered_with 10 prog 4%N = Some [4%N; 2%N; 3%N; 1%N; 1%N] /\
  instances_of 10 prog [(100%N, 4%N); (101%N, 1%N)] 1%N = [100%N; 100%N; 101%N].
Proof. split; reflexivity. Qed.

Lemma group_lits_In : forall d g a, In a (group_lits d g) <-> In (a, g) (dv_allows d).
Proof.
  intros d g a. unfold group_lits. rewrite in_map_iff. split.
  - intros [[a' g'] [Ha Hin]]. simpl in Ha. subst a'. apply filter_In in Hin as [Hin Hg]. simpl in Hg.
    apply N.eqb_eq in Hg. subst g'. exact Hin.
  - intros Hin. exists (a, g). split; [reflexivity|]. apply filter_In. split; [exact Hin | simpl; apply N.eqb_refl].
Qed.

Lemma groups_In : forall d a g, In (a, g) (dv_allows d) -> In g (groups d).
Proof.
  intros d a g H. unfold groups. apply nodup_In. apply in_map_iff. exists (a, g). split; [reflexivity | exact H].
Qed.

Lemma chosen_unique : forall sigma d k a g a' g',
  chosen sigma d k -> nth_error (dv_allows d) k = Some (a, g) -> In a' (group_lits d g') -> sigma a' = true -> g' = g.
Proof.
  intros sigma d k a g a' g' [a0 [g0 [_ [_ Hothers]]]] Hnth Hin Hs.
  apply group_lits_In in Hin. apply In_nth_error in Hin as [j Hj].
  destruct (Nat.eq_dec j k) as [-> | Hjk].
  - rewrite Hnth in Hj. injection Hj as _ <-. reflexivity.
  - rewrite (Hothers j a' g' Hjk Hj) in Hs. discriminate.
Qed.

Theorem derived_selects_chosen : forall sigma d dlit k a g,
  disj_sem sigma d dlit -> chosen sigma d k -> nth_error (dv_allows d) k = Some (a, g) ->
  dlit g = true /\ forall g', In g' (groups d) -> g' <> g -> dlit g' = false.
Proof.
  intros sigma d dlit k a g Hd Hc Hnth.
  assert (Hin : In (a, g) (dv_allows d)) by (eapply nth_error_In; exact Hnth).
  split.
  - rewrite (Hd g (groups_In _ _ _ Hin)). apply existsb_exists. exists a. split; [apply group_lits_In; exact Hin|].
    destruct Hc as [a0 [g0 [Hk [Ha _]]]]. rewrite Hnth in Hk. injection Hk as <- _. exact Ha.
  - intros g' Hg' Hne. rewrite (Hd g' Hg').
    destruct (existsb sigma (group_lits d g')) eqn:E; [|reflexivity].
    apply existsb_exists in E as [a' [Ha' Hs]]. destruct (Hne (chosen_unique _ _ _ _ _ _ _ Hc Hnth Ha' Hs)).
Qed.

(* hence whatever is linked to the groups by the clauses of new_enum ({!d_g, x == field_g}) equals the field of the
   chosen instance: bool, int, real, tp and object fields alike *)
Theorem derived_denotes_field : forall (A : Type) sigma d dlit k a g (field : ident -> A) (x : A),
  disj_sem sigma d dlit -> chosen sigma d k -> nth_error (dv_allows d) k = Some (a, g) ->
  (forall g', In g' (groups d) -> dlit g' = true -> x = field g') ->
  x = field g.
Proof.
  intros A sigma d dlit k a g field x Hd Hc Hnth Hlink.
  destruct (derived_selects_chosen _ _ _ _ _ _ Hd Hc Hnth) as [Hg _].
  apply Hlink; [|exact Hg]. eapply groups_In. eapply nth_error_In. exact Hnth.
Qed.

(* the mutual exclusion clauses var_item::get adds are consequences (the clause set is consistent with every choice) *)
Theorem exclusion_clauses_hold : forall sigma d dlit k,
  disj_sem sigma d dlit -> chosen sigma d k -> excl_clauses sigma d dlit.
Proof.
  intros sigma d dlit k Hd Hc g g' v Hg Hg' Hne Hv.
  destruct (sigma v) eqn:Ev; [|apply andb_false_r].
  (* v is true, so its group g' is that of the chosen value, and g is another one *)
  pose proof Hc as [a [g0 [Hk _]]].
  rewrite (chosen_unique _ _ _ _ _ _ _ Hc Hk Hv Ev) in Hne.
  rewrite (proj2 (derived_selects_chosen _ _ _ _ _ _ Hd Hc Hk) g Hg Hne). reflexivity.
Qed.

Example derived_example :
  (* three instances; the field of the first two is the same item 7, that of the third is item 8; the second is chosen *)
  let d := mkDvar [(1%N, 7%N); (2%N, 7%N); (3%N, 8%N)] in
  let sigma := fun v : ident => N.eqb v 2%N in
  let dlit := fun g : ident => N.eqb g 7%N in
  groups d = [7%N; 8%N] /\ disj_sem sigma d dlit /\ chosen sigma d 1.
Proof.
  cbv zeta. split; [reflexivity|]. split.
  - intros g Hg. simpl in Hg. destruct Hg as [<- | [<- | []]]; reflexivity.
  - exists 2%N, 7%N. split; [reflexivity|]. split; [reflexivity|].
    intros j a' g' Hj Hn. destruct j as [|[|[|j]]]; simpl in Hn; try (inversion Hn; subst; reflexivity).
    + exfalso. apply Hj. reflexivity.
    + destruct j; discriminate.
Qed.
