(* C02 -- proofs for plan/NoGood.v: the protocol is exactly "the clause holds in every solution"; a database whose
   clauses all obey it keeps every solution; a root-level conflict then means there is no solution; the shape checks
   identify the recorded clause with the clause the protocol speaks about. *)
From Coq Require Import List Bool Arith.
From ORatio Require Import plan.NoGood.
Import ListNotations.

Lemma lit_eqb_eq a b : lit_eqb a b = true <-> a = b.
Proof.
  destruct a as [v s], b as [w t]. unfold lit_eqb; cbn. rewrite andb_true_iff, Nat.eqb_eq, eqb_true_iff.
  split; [intros [H1 H2]; subst; reflexivity|intro H; injection H; auto].
Qed.

Lemma lit_in_In l A : lit_in l A = true <-> In l A.
Proof.
  unfold lit_in. rewrite existsb_exists. split.
  - intros [x [H1 H2]]. apply lit_eqb_eq in H2. subst x. exact H1.
  - intro H. exists l. split; [exact H|apply lit_eqb_eq; reflexivity].
Qed.

Lemma subset_clause_true M a b : subset a b = true -> clause_true M a = true -> clause_true M b = true.
Proof.
  unfold subset, clause_true. intros S T. apply existsb_exists in T. destruct T as [l [Hl Tl]].
  rewrite forallb_forall in S. apply existsb_exists. exists l. split; [apply lit_in_In; exact (S l Hl)|exact Tl].
Qed.

Lemma same_set_clause_true M a b : same_set a b = true -> clause_true M a = clause_true M b.
Proof.
  unfold same_set. intro H. apply andb_true_iff in H. destruct H as [H1 H2].
  apply eq_true_iff_eq. split; apply subset_clause_true; assumption.
Qed.

Lemma lit_true_neg M l : lit_true M (neg l) = negb (lit_true M l).
Proof. unfold lit_true, neg; cbn. destruct (M (lvar l)), (lsign l); reflexivity. Qed.

Lemma neg_neg l : neg (neg l) = l.
Proof. destruct l as [v s]. unfold neg; cbn. rewrite negb_involutive. reflexivity. Qed.

Lemma clause_true_rev M c : clause_true M (rev c) = clause_true M c.
Proof.
  induction c as [|l c IH]; [reflexivity|]. cbn [rev]. unfold clause_true in *. rewrite existsb_app, IH. cbn.
  rewrite orb_false_r. apply orb_comm.
Qed.

Lemma neg_clause_true M ds : clause_true M (map neg ds) = negb (extends M ds).
Proof.
  induction ds as [|d ds IH]; [reflexivity|]. unfold clause_true, extends in *; cbn.
  rewrite IH, lit_true_neg, negb_andb. reflexivity.
Qed.

Lemma nogood_clause_true M ds : clause_true M (nogood_clause ds) = negb (extends M ds).
Proof. unfold nogood_clause. rewrite clause_true_rev. apply neg_clause_true. Qed.

Lemma choice_clause_true M ch ds : clause_true M (choice_clause ch ds) = lit_true M ch || negb (extends M ds).
Proof. rewrite <- neg_clause_true. reflexivity. Qed.

Definition holds_all (M : assignment) (A : list lit) : Prop := forall l, In l A -> lit_true M l = true.

(* unit propagation refutes only clause sets without a model *)
Lemma true_unassigned M A c l : holds_all M A -> In l c -> lit_true M l = true -> In l (unassigned A c).
Proof.
  intros H Hl T. apply filter_In. split; [exact Hl|]. apply negb_true_iff.
  destruct (lit_in (neg l) A) eqn:E; [|reflexivity].
  apply lit_in_In in E. specialize (H _ E). rewrite lit_true_neg, T in H. discriminate.
Qed.

Lemma conflicting_false M A c : holds_all M A -> conflicting A c = true -> clause_true M c = false.
Proof.
  intros H C. unfold conflicting in C. apply andb_true_iff in C. destruct C as [_ C].
  destruct (unassigned A c) eqn:U; [|discriminate].
  destruct (clause_true M c) eqn:E; [|reflexivity]. apply existsb_exists in E. destruct E as [l [Hl T]].
  pose proof (true_unassigned M A c l H Hl T) as I. rewrite U in I. destruct I.
Qed.

Lemma unit_forced M A c l : holds_all M A -> unit_of A c = Some l -> clause_true M c = true -> lit_true M l = true.
Proof.
  intros H U T. unfold unit_of in U. destruct (satisfied A c); [discriminate|].
  destruct (unassigned A c) as [|l0 [|l1 r]] eqn:E; try discriminate. injection U as <-.
  apply existsb_exists in T. destruct T as [x [Hx Tx]].
  pose proof (true_unassigned M A c x H Hx Tx) as I. rewrite E in I. destruct I as [<-|[]]. exact Tx.
Qed.

Lemma first_unit_forced M A cs l :
  holds_all M A -> first_unit A cs = Some l -> forallb (clause_true M) cs = true -> lit_true M l = true.
Proof.
  intros H. induction cs as [|c cs IH]; cbn [first_unit forallb]; intros F T; [discriminate|].
  apply andb_true_iff in T. destruct T as [T1 T2].
  destruct (unit_of A c) as [l0|] eqn:U.
  - injection F as F. subst l0. exact (unit_forced M A c l H U T1).
  - exact (IH F T2).
Qed.

Lemma up_sound fuel : forall A cs, up fuel A cs = true ->
  forall M, holds_all M A -> forallb (clause_true M) cs = true -> False.
Proof.
  induction fuel as [|f IH]; intros A cs U M H T; cbn [up] in U; [discriminate|].
  destruct (existsb (conflicting A) cs) eqn:C.
  - apply existsb_exists in C. destruct C as [c [Hc C]]. pose proof (conflicting_false M A c H C) as F.
    rewrite forallb_forall in T. rewrite (T c Hc) in F. discriminate.
  - destruct (first_unit A cs) as [l|] eqn:FU; [|discriminate].
    pose proof (first_unit_forced M A cs l H FU T) as L.
    apply (IH (l :: A) cs U M); [|exact T]. intros x [<-|X]; [exact L|exact (H x X)].
Qed.

Theorem up_refutes_sound cs : up_refutes cs = true -> forall M, forallb (clause_true M) cs = false.
Proof. intros U M. apply not_true_is_false. intro T. apply (up_sound _ [] cs U M); [intros l []|exact T]. Qed.

Section Protocol.
  (* the solutions of the problem within the current graph (models of the problem clauses that are consistent with
     the theories, make gamma true and leave no active flaw unsolved) -- left abstract: the protocol is about them *)
  Variable Sol : assignment -> Prop.

  Definition legit (e : event) : Prop :=
    match e with
    | EEntailed c => forall M, Sol M -> clause_true M c = true
    | ENoGood ds => forall M, Sol M -> extends M ds = false                                (* no solution extends the prefix *)
    | EChoice ch ds => forall M, Sol M -> extends M ds = true -> lit_true M ch = true      (* the choice is forced for the prefix *)
    end.

  Lemma legit_iff_keeps_solutions e : legit e <-> (forall M, Sol M -> clause_true M (clause_of e) = true).
  Proof.
    destruct e as [c|ds|ch ds]; cbn [legit clause_of].
    - reflexivity.
    - split; intros H M S; specialize (H M S).
      + rewrite nogood_clause_true, H. reflexivity.
      + rewrite nogood_clause_true in H. destruct (extends M ds); [discriminate|reflexivity].
    - split; intros H M S.
      + rewrite choice_clause_true. destruct (extends M ds) eqn:E; [rewrite (H M S E); reflexivity|apply orb_true_r].
      + intro E. specialize (H M S). rewrite choice_clause_true, E in H. cbn in H. rewrite orb_false_r in H. exact H.
  Qed.

  (* a clause that removes a solution breaks the protocol *)
  Lemma illegit_loses_a_solution e M : Sol M -> clause_true M (clause_of e) = false -> ~ legit e.
  Proof. intros S F L. rewrite (proj1 (legit_iff_keeps_solutions e) L M S) in F. discriminate. Qed.

  Lemma protocol_keeps_solutions es : Forall legit es -> forall M, Sol M -> forallb (clause_true M) (map clause_of es) = true.
  Proof.
    induction 1 as [|e es L Ls IH]; intros M S; [reflexivity|]. cbn [map forallb].
    rewrite (proj1 (legit_iff_keeps_solutions e) L M S). exact (IH M S).
  Qed.

  (* if every recorded clause obeys the protocol, a conflict at root level means: no solution *)
  Theorem root_conflict_no_solution es :
    Forall legit es -> up_refutes (map clause_of es) = true -> forall M, ~ Sol M.
  Proof.
    intros L U M S. pose proof (up_refutes_sound _ U M) as F. rewrite (protocol_keeps_solutions es L M S) in F. discriminate.
  Qed.
End Protocol.

Theorem check_nogood_sound c standing popped :
  check_nogood c standing popped = true ->
  forall M, clause_true M c = clause_true M (clause_of (ENoGood (standing ++ [popped]))).
Proof.
  unfold check_nogood. intros H M. rewrite (same_set_clause_true M _ _ H). cbn [clause_of]. unfold nogood_clause.
  rewrite clause_true_rev. reflexivity.
Qed.

Theorem check_choice_sound c ds :
  check_choice c ds = true ->
  exists ch, var_in (lvar ch) ds = false /\ forall M, clause_true M c = clause_true M (clause_of (EChoice ch ds)).
Proof.
  unfold check_choice. destruct (filter (fun l => negb (var_in (lvar l) ds)) c) as [|ch [|x r]] eqn:F; try discriminate.
  intro H. exists ch. split.
  - assert (I : In ch (filter (fun l => negb (var_in (lvar l) ds)) c)) by (rewrite F; left; reflexivity).
    apply filter_In in I. destruct I as [_ I]. apply negb_true_iff in I. exact I.
  - intro M. exact (same_set_clause_true M _ _ H).
Qed.

(* a clause with the same truth value as the protocol clause in every assignment is legitimate exactly when the
   protocol event is *)
Lemma equivalent_clause_legit (Sol : assignment -> Prop) c e :
  (forall M, clause_true M c = clause_true M (clause_of e)) ->
  (legit Sol e <-> forall M, Sol M -> clause_true M c = true).
Proof.
  intro E. rewrite legit_iff_keeps_solutions. split; intros H M S; [rewrite E|rewrite <- E]; exact (H M S).
Qed.

(* the last literal of a chronological no-good is the negation of the FIRST decision (gamma in the planner):
   every such clause is guarded by the graph variable *)
Lemma nogood_last_is_first_decision d ds : exists c, nogood_clause (d :: ds) = c ++ [neg d].
Proof. unfold nogood_clause. cbn [map rev]. eexists. reflexivity. Qed.

(* h_1::get_estimated_cost gives a resolver an infinite cost when its rho is false or one of its preconditions is not
   expanded / has an infinite cost, and a flaw the cost of its cheapest resolver.  solver::solve() calls next() when an
   ACTIVE flaw has an infinite cost.  With the clauses the graph posts (Section hypotheses: flaw::expand, the causal
   links of flaw::init / new_causal_link, h_1::prune) an inductively derived infinite cost means: no solution within
   the current graph extends the current trail, i.e. the chronological no-good obeys the protocol.  Costs that are
   infinite because of a causal CYCLE (h_1::propagate_costs' `visited` test) are not covered: named gap. *)
Section InfiniteCost.
  Variable Sol : assignment -> Prop.
  Variables flaw resolver : Type.
  Variable phi : flaw -> lit.
  Variable rho : resolver -> lit.
  Variable resolvers : flaw -> list resolver.
  Variable precs : resolver -> list flaw.
  Variable expanded : flaw -> bool.
  Variable gamma : lit.
  (* flaw::expand:  !phi | rho_1 | .. | rho_n *)
  Hypothesis H_expand : forall f M, Sol M -> expanded f = true -> lit_true M (phi f) = true ->
                                    existsb (fun r => lit_true M (rho r)) (resolvers f) = true.
  (* flaw::init / new_causal_link:  !rho | phi_precondition *)
  Hypothesis H_link : forall r f M, Sol M -> In f (precs r) -> lit_true M (rho r) = true -> lit_true M (phi f) = true.
  (* h_1::prune:  !gamma | !phi  for the flaws still in the queue *)
  Hypothesis H_prune : forall f M, Sol M -> expanded f = false -> lit_true M gamma = true -> lit_true M (phi f) = false.

  Variable trail : list lit.          (* the literals currently assigned true *)

  Notation inf := (inf flaw resolver rho resolvers precs expanded trail).

  Lemma inf_dead : forall f, inf f ->
    forall M, Sol M -> holds_all M trail -> lit_true M gamma = true -> lit_true M (phi f) = false.
  Proof.
    fix IH 2. intros f H M S T G. destruct H as [f E|f E Hr].
    - exact (H_prune f M S E G).
    - destruct (lit_true M (phi f)) eqn:P; [exfalso|reflexivity].
      pose proof (H_expand f M S E P) as X. apply existsb_exists in X. destruct X as [r [Hin Htrue]].
      destruct (Hr r Hin) as [Hfalse|[f' [Hpre Hinf]]].
      + apply lit_in_In in Hfalse. specialize (T _ Hfalse). rewrite lit_true_neg, Htrue in T. discriminate.
      + pose proof (H_link r f' M S Hpre Htrue) as A. rewrite (IH f' Hinf M S T G) in A. discriminate.
  Qed.

  (* the no-good of next() obeys the protocol when (i) the trail is forced by the decisions in every solution,
     (ii) gamma and the phi of a flaw with an inductively infinite cost are on the trail *)
  Theorem infinite_cost_nogood_legit decisions f :
    (forall M, Sol M -> extends M decisions = true -> forall l, In l trail -> lit_true M l = true) ->
    In gamma trail -> In (phi f) trail -> inf f -> legit Sol (ENoGood decisions).
  Proof.
    intros HT Hg Hp Hinf M S. destruct (extends M decisions) eqn:E; [|reflexivity]. exfalso.
    pose proof (HT M S E) as T. pose proof (inf_dead f Hinf M S T (T _ Hg)) as D. rewrite (T _ Hp) in D. discriminate.
  Qed.
End InfiniteCost.

(* a problem whose solutions are the assignments with  v0 = true, v2 = false: the no-good for the decision prefix
   [v0; v2] obeys the protocol, the one for [v0] does not (it would remove every solution) *)
Definition ex_sol (M : assignment) : Prop := M 0 = true /\ M 2 = false.
Example ex_nogood_legit : legit ex_sol (ENoGood [mkLit 0 true; mkLit 2 true]).
Proof. intros M [H0 H2]. unfold extends, lit_true; cbn. rewrite H0, H2. reflexivity. Qed.
Example ex_nogood_illegit : ~ legit ex_sol (ENoGood [mkLit 0 true]).
Proof.
  intro L. specialize (L (fun v => Nat.eqb v 0) (conj eq_refl eq_refl)). cbn in L. discriminate.
Qed.
(* the hypotheses of root_conflict_no_solution are satisfiable: gamma = v0 decided, the flaw's only resolver v1 refuted *)
Example ex_root_conflict :
  let es := [EEntailed [mkLit 0 true]; EEntailed [mkLit 0 false; mkLit 1 true]; ENoGood [mkLit 0 true; mkLit 1 true]] in
  Forall (legit (fun M => M 0 = true /\ M 1 = true /\ M 1 = false)) es /\ up_refutes (map clause_of es) = true.
Proof.
  split; [|vm_compute; reflexivity].
  repeat constructor; cbn [legit]; intros M [H0 [H1 H1']]; rewrite H1 in H1'; discriminate.
Qed.
(* the shape checks accept the clauses as the code builds them, and reject a no-good that lacks the last decision *)
Example ex_shapes :
  check_nogood [mkLit 5 false; mkLit 3 false; mkLit 1 false] [mkLit 1 true; mkLit 3 true] (mkLit 5 true) = true /\
  check_nogood [mkLit 3 false; mkLit 1 false] [mkLit 1 true; mkLit 3 true] (mkLit 5 true) = false /\
  check_choice [mkLit 9 true; mkLit 1 false; mkLit 3 false] [mkLit 1 true; mkLit 3 true] = true /\
  check_choice [mkLit 9 true] [mkLit 1 true; mkLit 3 true] = false.
Proof. vm_compute. repeat split. Qed.
(* a flaw (0) whose only resolver has its rho (v10) false on the trail has an infinite cost *)
Example ex_inf : inf nat nat (fun r => mkLit (10 + r) true) (fun f => [f]) (fun _ => []) (fun _ => true) [mkLit 10 false] 0.
Proof. apply inf_expanded; [reflexivity|]. intros r [E|[]]. subst r. left. reflexivity. Qed.
