(* Invariant preservation for the composite operations below propagate: clause allocation, record, clause::propagate, the
   watcher loop, pop and pop_until. *)
From Coq Require Import List Arith Bool Lia Permutation Sorted.
From ORatio Require Import smt.SatCoreBase smt.SatCoreSpec smt.SatCore proofs.SatCoreBase_Proofs proofs.SatCoreInv_Proofs
  proofs.SatCorePrim_Proofs.
Import ListNotations.

Lemma perm_swap_ends : forall A (x l1 : A) pre post, Permutation (x :: pre ++ l1 :: post) (l1 :: pre ++ x :: post).
Proof.
  intros. apply perm_trans with (x :: l1 :: pre ++ post).
  - apply perm_skip. apply Permutation_sym, Permutation_middle.
  - eapply perm_trans. apply perm_swap. apply perm_skip. apply Permutation_middle.
Qed.

Section Step.
  Context {TS : Type}.
  Variable T : asg -> Prop.
  Variable sort : (lit -> lit -> bool) -> list lit -> list lit.
  Hypothesis sort_perm : forall f l, Permutation (sort f l) l.
  Variable th_pop : TS -> TS.
  Notation state := (@state TS).

  (* what a propagation-side step may change: the trail grows, clauses are permuted, nothing else that matters *)
  Definition pstep (s s' : state) : Prop :=
    log s' = log s /\ trail_lim s' = trail_lim s /\ decisions s' = decisions s /\
    length (cls s') = length (cls s) /\ length (assigns s') = length (assigns s) /\
    (exists ext, trail s' = ext ++ trail s) /\
    (forall c, Permutation (lits_of s' c) (lits_of s c)) /\ thst s' = thst s /\ constrs s' = constrs s /\
    (forall q, In q (trail s) -> nth (fst q) (level s') 0 = nth (fst q) (level s) 0 /\
                                 nth (fst q) (reason s') None = nth (fst q) (reason s) None) /\ ub s' = ub s.
  Lemma pstep_refl : forall s, pstep s s.
  Proof. intros. unfold pstep. repeat split; auto. exists []. auto. Qed.
  Lemma pstep_trans : forall s1 s2 s3, pstep s1 s2 -> pstep s2 s3 -> pstep s1 s3.
  Proof.
    intros s1 s2 s3 (A1 & A2 & A3 & A4 & A5 & [e1 A6] & A7 & A8 & A9 & A10 & A11) (B1 & B2 & B3 & B4 & B5 & [e2 B6] & B7 & B8 & B9 & B10 & B11).
    unfold pstep. repeat split; try congruence.
    - exists (e2 ++ e1). rewrite B6, A6. now rewrite app_assoc.
    - intros c. eapply perm_trans; [apply B7|apply A7].
    - destruct (B10 q) as [G _]. rewrite A6. apply in_or_app. auto. rewrite G. apply A10; auto.
    - destruct (B10 q) as [_ G]. rewrite A6. apply in_or_app. auto. rewrite G. apply A10; auto.
  Qed.
  Lemma pstep_lits : forall s s' c l, pstep s s' -> In l (lits_of s' c) <-> In l (lits_of s c).
  Proof.
    intros s s' c l (_ & _ & _ & _ & _ & _ & A7 & _). split; apply Permutation_in; [|apply Permutation_sym]; apply A7.
  Qed.
  Lemma pstep_in_trail : forall s s' p, pstep s s' -> In p (trail s) -> In p (trail s').
  Proof. intros s s' p (_ & _ & _ & _ & _ & [e E] & _) H. rewrite E. apply in_or_app. auto. Qed.

  Lemma unit_entailed : forall (s : state) l0 rest, Inv0 T s ->
    entails T (axioms (log s)) (l0 :: rest) -> (forall r, In r rest -> false_in (trail s) r) ->
    entails T (axioms (log s) ++ units (decisions s)) [l0].
  Proof.
    intros s l0 rest I Hc Hf a Ta M. apply sat_clause_single.
    assert (Ma : models a (axioms (log s))) by (apply models_app in M; tauto).
    specialize (Hc a Ta Ma). apply sat_clause_cons in Hc. destruct Hc as [Hc|[r [Hr Hs]]]; auto.
    exfalso. pose proof (false_entailed T s r I (Hf r Hr) a Ta M) as Hn. apply sat_clause_single in Hn.
    apply sat_lit_neg in Hn. contradiction.
  Qed.

  Lemma clause_new_inv : forall (s : state) ls s' id, Inv T s -> lits_ok T s ls -> clause_new s ls = (s', id) ->
    Inv T s' /\ id = length (cls s) /\ lits_of s' id = ls /\ id < length (cls s') /\
    assigns s' = assigns s /\ prop_q s' = prop_q s /\ trail s' = trail s /\ trail_lim s' = trail_lim s /\
    decisions s' = decisions s /\ log s' = log s /\ thst s' = thst s /\ constrs s' = constrs s /\
    length (cls s') = S (length (cls s)) /\ (forall c, c < length (cls s) -> lits_of s' c = lits_of s c).
  Proof.
    intros s ls s' id I Hok E. unfold clause_new in E.
    pose proof (alloc_inv T s ls Hok I) as I1.
    assert (Hl : lits_of (set_cls s (cls s ++ [ls])) (length (cls s)) = ls).
    { rewrite lits_of_app_new. now rewrite Nat.eqb_refl. }
    assert (Hlen : length (cls (set_cls s (cls s ++ [ls]))) = S (length (cls s))).
    { simpl. rewrite app_length. simpl. lia. }
    assert (Hold : forall c, c < length (cls s) -> lits_of (set_cls s (cls s ++ [ls])) c = lits_of s c).
    { intros c Hc. rewrite lits_of_app_new. destruct (Nat.eqb_spec c (length (cls s))); auto. lia. }
    destruct ls as [|l0 [|l1 r]]; inversion E; subst; clear E.
    - split. now apply set_ub_inv. repeat split; auto; simpl; rewrite app_length; simpl; lia.
    - split. now apply set_ub_inv. repeat split; auto; simpl; rewrite app_length; simpl; lia.
    - destruct Hok as [Hr [Ht Hs]].
      split.
      + apply watch_add_inv; simpl. rewrite app_length; simpl; lia.
        * change (In (lneg (lneg l1)) (lits_of (set_cls s (cls s ++ [l0 :: l1 :: r])) (length (cls s)))).
          rewrite Hl, lneg_invol. simpl; auto.
        * apply watch_add_inv; auto. lia. rewrite Hl, lneg_invol. simpl; auto.
      + repeat split; auto; try lia. simpl. rewrite app_length. simpl. lia.
  Qed.

  Lemma record_inv : forall (s : state) kind lits, Inv T s ->
    entry_ok T (log s) kind lits ->
    entails T (axioms ((kind, lits) :: log s)) lits ->
    (forall l, In l lits -> fst l < length (assigns s)) ->
    (forall l, In l lits -> ~ In (lneg l) lits) ->
    (forall r, In r (tl lits) -> false_in (trail s) r) ->
    (length lits = 1 -> trail_lim s = []) ->
    Inv T (record sort s kind lits).
  Proof.
    intros s kind lits I Hk He Hr Ht Hf H1. unfold record.
    pose proof (hook_inv T s kind lits Hk I) as Ih. set (sh := hook s kind lits) in *.
    assert (Elog : log sh = (kind, lits) :: log s) by reflexivity.
    destruct lits as [|l0 tail]. now apply set_ub_inv.
    destruct tail as [|l1 tail'].
    - destruct (enqueue sh l0 None) as [s1 b] eqn:E. simpl.
      eapply enqueue_inv; [exact Ih|exact E| | |].
      + apply Hr. simpl; auto.
      + simpl. left. apply H1. reflexivity.
      + rewrite Elog. eapply entails_mono; [|exact He]. apply incl_appl, incl_refl.
    - set (tail := l1 :: tail') in *.
      assert (Hp : Permutation (l0 :: sort (level_gt sh) tail) (l0 :: tail)) by (apply perm_skip, sort_perm).
      assert (Hok : lits_ok T sh (l0 :: sort (level_gt sh) tail)).
      { split; [|split].
        - intros l Hl. apply Hr. eapply Permutation_in; eauto.
        - intros l Hl Hn. apply (Ht l). eapply Permutation_in; eauto. eapply Permutation_in; eauto.
        - rewrite Elog. intros a Ta M. eapply sat_clause_perm. apply Permutation_sym, Hp. apply He; auto. }
      destruct (clause_new sh (l0 :: sort (level_gt sh) tail)) as [s1 id] eqn:E1.
      destruct (clause_new_inv sh _ s1 id Ih Hok E1) as (I1 & Hid & Hl & Hlt & Ha & Hq & Htr & Hlim & Hdec & Hlog & _).
      destruct (enqueue s1 l0 (Some id)) as [s2 b] eqn:E2.
      apply set_constrs_inv. eapply enqueue_inv; [exact I1|exact E2| | |].
      + rewrite Ha. apply Hr. simpl; auto.
      + simpl. exists (sort (level_gt sh) tail). split; auto. intros r Hin. rewrite Htr.
        apply Hf. cbn [tl]. eapply Permutation_in. apply sort_perm. exact Hin.
      + eapply unit_entailed. apply I1. rewrite <- Hl. apply (i_cls_sound T s1 (proj1 I1)). exact Hlt.
        intros r Hin. rewrite Htr. apply Hf. cbn [tl]. eapply Permutation_in. apply sort_perm. exact Hin.
  Qed.

  Lemma clause_new_frame : forall (s : state) ls s' id, clause_new s ls = (s', id) ->
    assigns s' = assigns s /\ prop_q s' = prop_q s /\ trail s' = trail s /\ trail_lim s' = trail_lim s /\
    decisions s' = decisions s /\ log s' = log s /\ thst s' = thst s /\ constrs s' = constrs s /\
    level s' = level s /\ reason s' = reason s.
  Proof.
    intros s ls s' id E. unfold clause_new in E. destruct ls as [|l0 [|l1 r]]; inversion E; subst; simpl; repeat split; auto.
  Qed.
  Lemma enqueue_frame : forall (s : state) p c s' b, enqueue s p c = (s', b) ->
    trail_lim s' = trail_lim s /\ decisions s' = decisions s /\ log s' = log s /\ thst s' = thst s /\
    length (assigns s') = length (assigns s) /\ (exists ext, trail s' = ext ++ trail s) /\ cls s' = cls s /\
    constrs s' = constrs s /\ watches s' = watches s.
  Proof.
    intros s p c s' b E. unfold enqueue in E. destruct (value_lit s p); inversion E; subst; simpl; repeat split; auto;
      try (exists []; reflexivity). apply upd_length. exists [p]; reflexivity.
  Qed.
  Lemma enqueue_ubs : forall (s : state) p c s' b, enqueue s p c = (s', b) -> ub s' = ub s.
  Proof. intros s p c s' b E. unfold enqueue in E. destruct (value_lit s p); inversion E; reflexivity. Qed.
  Lemma record_frame : forall (s : state) kind lits,
    trail_lim (record sort s kind lits) = trail_lim s /\ decisions (record sort s kind lits) = decisions s /\
    log (record sort s kind lits) = (kind, lits) :: log s /\ thst (record sort s kind lits) = thst s /\
    length (assigns (record sort s kind lits)) = length (assigns s) /\
    (exists ext, trail (record sort s kind lits) = ext ++ trail s).
  Proof.
    intros. unfold record. set (sh := hook s kind lits).
    destruct lits as [|l0 [|l1 t]].
    - simpl. repeat split; auto. exists []; auto.
    - destruct (enqueue sh l0 None) as [s1 b] eqn:E. simpl fst.
      destruct (enqueue_frame _ _ _ _ _ E) as (A & B & C & D & G & H & _). subst sh. simpl in *. repeat split; auto.
    - destruct (clause_new sh (l0 :: sort (level_gt sh) (l1 :: t))) as [s1 id] eqn:E1.
      destruct (enqueue s1 l0 (Some id)) as [s2 b] eqn:E2.
      destruct (clause_new_frame _ _ _ _ E1) as (A1 & A2 & A3 & A4 & A5 & A6 & A7 & _).
      destruct (enqueue_frame _ _ _ _ _ E2) as (A & B & C & D & G & [ext H] & _). subst sh. simpl in *.
      repeat split; try congruence. exists ext. congruence.
  Qed.

  Lemma value_lit_assigns : forall (s s' : state) p, assigns s' = assigns s -> value_lit s' p = value_lit s p.
  Proof. intros. unfold value_lit, value_var. now rewrite H. Qed.
  Lemma split_nf_some : forall (s : state) l pre x post, split_nf s l = Some (pre, x, post) ->
    l = pre ++ x :: post /\ (forall r, In r pre -> value_lit s r = LF) /\ value_lit s x <> LF.
  Proof.
    induction l as [|y t IH]; intros pre x post H; simpl in H. discriminate.
    destruct (is_false s y) eqn:Ef.
    - destruct (split_nf s t) as [[[pre' x'] post']|] eqn:E; inversion H; subst.
      destruct (IH _ _ _ eq_refl) as [H1 [H2 H3]]. subst. repeat split; auto.
      intros r [<-|Hr]; auto. now apply is_false_iff.
    - inversion H; subst. repeat split; auto. intros r []. intros Hx. apply is_false_iff in Hx. congruence.
  Qed.
  Lemma split_nf_none : forall (s : state) l, split_nf s l = None -> forall r, In r l -> value_lit s r = LF.
  Proof.
    induction l as [|y t IH]; intros H r Hr; simpl in H. destruct Hr.
    destruct (is_false s y) eqn:Ef; try discriminate.
    destruct (split_nf s t) as [[[pre' x'] post']|] eqn:E; try discriminate.
    destruct Hr as [<-|Hr]. now apply is_false_iff. apply IH; auto.
  Qed.
  Lemma nodup_fst_eq : forall (tr : list lit) p q, NoDup (map fst tr) -> In p tr -> In q tr -> fst p = fst q -> p = q.
  Proof.
    induction tr as [|x t IH]; intros p q ND Hp Hq E. destruct Hp.
    simpl in ND. inversion ND; subst. destruct Hp as [->|Hp], Hq as [->|Hq]; auto.
    - exfalso. apply H1. rewrite E. now apply in_map.
    - exfalso. apply H1. rewrite <- E. now apply in_map.
  Qed.

  (* enqueue leaves the levels and reasons of the trail alone; the state need only agree on assignment and trail with one
     that satisfies the invariant (sat_core::record enqueues after hook and clause_new) *)
  Lemma enqueue_level : forall (s0 : state), Inv0 T s0 -> forall (s : state) p c s' b,
    assigns s = assigns s0 -> trail s = trail s0 -> enqueue s p c = (s', b) ->
    forall q, In q (trail s) -> nth (fst q) (level s') 0 = nth (fst q) (level s) 0 /\
                                nth (fst q) (reason s') None = nth (fst q) (reason s) None.
  Proof.
    intros s0 I s p c s' b Ha Ht E q Hq. unfold enqueue in E. destruct (value_lit s p) eqn:V; inversion E; subst; auto.
    simpl. rewrite (value_lit_assigns s0 s p Ha) in V. destruct (value_lit_undef T s0 p I V) as [_ Hn].
    rewrite !nth_upd_neq; auto; intros Eq; apply Hn; rewrite Eq, <- Ht; now apply in_map.
  Qed.

  (* clause c is given the literals ls - a permutation of its own that leaves the head of a reason clause in place - and is
     registered under q, whose negation it contains *)
  Lemma rewatch_inv : forall (s : state) c ls q, Inv T s -> c < length (cls s) -> Permutation ls (lits_of s c) -> In (lneg q) ls ->
    (forall q0 suf, (exists pre, trail s = pre ++ q0 :: suf) -> nth (fst q0) (reason s) None = Some c ->
       exists rest, ls = q0 :: rest /\ forall r, In r rest -> false_in suf r) ->
    Inv T (watch_add (set_cls s (upd (cls s) c ls)) q c) /\ pstep s (watch_add (set_cls s (upd (cls s) c ls)) q c) /\
    lits_of (watch_add (set_cls s (upd (cls s) c ls)) q c) c = ls.
  Proof.
    intros s c ls q I Hc Hp Hq Hhd.
    assert (Hl : forall c', lits_of (watch_add (set_cls s (upd (cls s) c ls)) q c) c' = if Nat.eqb c c' then ls else lits_of s c').
    { intros c'. exact (lits_of_upd s c ls c' Hc). }
    split; [|split].
    - apply watch_add_inv. simpl. now rewrite upd_length. change (In (lneg q) (lits_of (watch_add (set_cls s (upd (cls s) c ls)) q c) c)).
      rewrite Hl, Nat.eqb_refl. exact Hq.
      apply relits_inv; auto.
      + intros l Hl0. eapply Permutation_in; eauto.
      + intros i Hi. destruct (i_watch T s (proj1 I) i c Hi) as [_ Hm]. eapply Permutation_in; [apply Permutation_sym; exact Hp|exact Hm].
      + intros a Ta M. eapply sat_clause_perm. apply Permutation_sym, Hp. apply (i_cls_sound T s (proj1 I) c Hc a Ta M).
    - unfold pstep. simpl. rewrite upd_length. repeat split; auto. exists []; auto.
      intros c'. change (Permutation (lits_of (watch_add (set_cls s (upd (cls s) c ls)) q c) c') (lits_of s c')). rewrite Hl.
      destruct (Nat.eqb_spec c c') as [<-|]; auto.
    - rewrite Hl. now rewrite Nat.eqb_refl.
  Qed.

  Lemma clause_propagate_inv : forall (s : state) c p s' b, Inv T s -> c < length (cls s) -> In p (trail s) ->
    In (lneg p) (lits_of s c) -> clause_propagate s c p = (s', b) ->
    Inv T s' /\ pstep s s' /\ (b = false -> forall l, In l (lits_of s' c) -> value_lit s' l = LF).
  Proof.
    intros s c p s' b I Hc Hp Hmem E. unfold clause_propagate in E.
    assert (Hnp : ~ In p (lits_of s c)).
    { intros Hin. apply (i_cls_taut T s (proj1 I) c p Hin). exact Hmem. }
    set (lits := lits_of s c) in *.
    set (lits1 := match lits with
                  | l0 :: l1 :: r => if Nat.eqb (fst l0) (fst p) then l1 :: l0 :: r else lits
                  | _ => lits end) in *.
    assert (P1 : Permutation lits1 lits).
    { subst lits1. destruct lits as [|l0 [|l1 r]]; auto. destruct (Nat.eqb (fst l0) (fst p)); auto. apply perm_swap. }
    pose proof (proj1 I) as I0.
    (* a reason clause is not touched by the swap: its head is true, p's negation is not *)
    assert (F2 : forall q suf, (exists pre, trail s = pre ++ q :: suf) -> nth (fst q) (reason s) None = Some c ->
                 exists rest, lits1 = q :: rest /\ forall r, In r rest -> false_in suf r).
    { intros q suf [pre Et] Hr. destruct (trail_ok_in _ _ _ _ _ (i_trail T s I0) Et) as [_ [H2 _]].
      destruct (H2 c Hr) as [rest [Hl Hf]]. fold lits in Hl. exists rest. split; auto.
      subst lits1. rewrite Hl. destruct rest as [|l1 r]; auto.
      destruct (Nat.eqb_spec (fst q) (fst p)) as [Eq|]; auto. exfalso.
      assert (Hq : In q (trail s)) by (rewrite Et; apply in_or_app; simpl; auto).
      assert (p = q) by (eapply nodup_fst_eq; eauto; apply I0). subst q. apply Hnp. rewrite Hl. simpl; auto. }
    assert (Hmem1 : In (lneg p) lits1) by (eapply Permutation_in; [apply Permutation_sym; exact P1|exact Hmem]).
    destruct lits1 as [|l0 rest] eqn:E1. destruct Hmem1.
    destruct (is_true s l0) eqn:Et.
    - (* lits[0] is true: keep watching p *)
      inversion E; subst; clear E. destruct (rewatch_inv s c (l0 :: rest) p I Hc P1 Hmem1 F2) as (I1 & S1 & _).
      split; auto. split; auto. discriminate.
    - destruct (split_nf s rest) as [[[pre x] post]|] eqn:Es.
      + (* a new literal to watch; c is no reason clause, since its head is not true *)
        inversion E; subst; clear E.
        destruct (split_nf_some s rest pre x post Es) as [Er [Hpre Hx]].
        set (rest' := match pre with [] => x :: post | l1 :: pre' => x :: pre' ++ l1 :: post end).
        assert (P2 : Permutation (l0 :: rest') lits).
        { eapply perm_trans; [|exact P1]. apply perm_skip. subst rest' rest. destruct pre as [|l1 pre']; auto.
          simpl. apply perm_swap_ends. }
        destruct (rewatch_inv s c (l0 :: rest') (lneg x) I Hc P2) as (I1 & S1 & _).
        { rewrite lneg_invol. subst rest'. destruct pre; simpl; auto. }
        { intros q suf Hq Hr. exfalso. destruct (F2 q suf Hq Hr) as [rest0 [Hl _]]. inversion Hl; subst.
          destruct Hq as [pre0 Etr].
          assert (Hq : In q (trail s)) by (rewrite Etr; apply in_or_app; simpl; auto).
          apply (value_lit_in_trail T s q I0) in Hq. apply is_true_iff in Hq. congruence. }
        split; auto. split; auto. discriminate.
      + (* unit (or conflicting) under the assignment *)
        pose proof (split_nf_none s rest Es) as Hfalse.
        destruct (rewatch_inv s c (l0 :: rest) p I Hc P1 Hmem1 F2) as (I2 & S2 & Hl2).
        set (s2 := watch_add (set_cls s (upd (cls s) c (l0 :: rest))) p c) in *.
        assert (Hf2 : forall r, In r rest -> false_in (trail s2) r).
        { intros r Hr. apply (value_lit_false T s r I0). auto. }
        assert (Hin0 : In l0 lits) by (eapply Permutation_in; [exact P1|simpl; auto]).
        assert (I3 : Inv T s').
        { eapply enqueue_inv; [exact I2|exact E| | |].
          - apply (i_cls_range T s I0 c l0). exact Hin0.
          - simpl. exists rest. split; auto.
          - eapply unit_entailed. apply I2. rewrite <- Hl2. apply (i_cls_sound T s2 (proj1 I2)). simpl. rewrite upd_length. exact Hc. exact Hf2. }
        destruct (enqueue_frame _ _ _ _ _ E) as (B1 & B2 & B3 & B4 & B5 & [ext B6] & B7 & B8 & B9).
        split; [exact I3|split].
        * eapply pstep_trans; [exact S2|]. unfold pstep. rewrite B1, B2, B3, B4, B5, B7, B8. unfold lits_of. rewrite B7.
          repeat split; auto. exists ext. exact B6.
          apply (enqueue_level s2 (proj1 I2) s2 l0 (Some c) s' b eq_refl eq_refl E q). exact H.
          apply (enqueue_level s2 (proj1 I2) s2 l0 (Some c) s' b eq_refl eq_refl E q). exact H.
          exact (enqueue_ubs s2 l0 (Some c) s' b E).
        * intros ->. destruct (enqueue_false _ _ _ _ E) as [-> Hv]. intros l Hl. rewrite Hl2 in Hl.
          destruct Hl as [<-|Hl]; auto. apply (false_in_value T s2 l (proj1 I2)). auto.
  Qed.

  (* the inner loop of sat_core::propagate *)
  Lemma visit_inv : forall tmp (s : state) p s' r, Inv T s -> In p (trail s) ->
    (forall c, In c tmp -> c < length (cls s) /\ In (lneg p) (lits_of s c)) ->
    visit s p tmp = (s', r) ->
    Inv T s' /\ pstep s s' /\
    match r with
    | None => True
    | Some (c, rest) => c < length (cls s') /\ In (lneg p) (lits_of s' c) /\
                        (forall l, In l (lits_of s' c) -> value_lit s' l = LF) /\
                        (forall c', In c' rest -> c' < length (cls s') /\ In (lneg p) (lits_of s' c'))
    end.
  Proof.
    induction tmp as [|c t IH]; intros s p s' r I Hp Ht E; simpl in E.
    - inversion E; subst. split; auto. split; auto. apply pstep_refl.
    - destruct (clause_propagate s c p) as [s1 ok] eqn:Ec.
      destruct (Ht c (or_introl eq_refl)) as [Hc Hnp].
      destruct (clause_propagate_inv s c p s1 ok I Hc Hp Hnp Ec) as (I1 & P1 & Hf).
      assert (Ht1 : forall c', In c' t -> c' < length (cls s1) /\ In (lneg p) (lits_of s1 c')).
      { intros c' Hc'. destruct (Ht c' (or_intror Hc')) as [H1 H2].
        pose proof P1 as (_ & _ & _ & A4 & _). rewrite A4. split; auto. apply (pstep_lits s s1); auto. }
      destruct ok.
      + destruct (IH s1 p s' r I1 (pstep_in_trail _ _ _ P1 Hp) Ht1 E) as (I2 & P2 & Hr).
        split; auto. split; auto. eapply pstep_trans; eauto.
      + inversion E; subst. split; auto. split; auto. split; [|split; [|split]]; auto.
        pose proof P1 as (_ & _ & _ & A4 & _). rewrite A4. auto.
        apply (pstep_lits s s'); auto.
  Qed.

  Definition bstep (s s' : state) : Prop :=
    log s' = log s /\ cls s' = cls s /\ length (assigns s') = length (assigns s) /\ constrs s' = constrs s /\
    watches s' = watches s /\ prop_q s' = prop_q s /\ (exists pre, trail s = pre ++ trail s') /\
    (exists k, trail_lim s' = skipn k (trail_lim s) /\ decisions s' = skipn k (decisions s)).
  Lemma bstep_refl : forall s, bstep s s.
  Proof. intros. unfold bstep. repeat split; auto. exists []; auto. exists 0; auto. Qed.
  Lemma bstep_trans : forall s1 s2 s3, bstep s1 s2 -> bstep s2 s3 -> bstep s1 s3.
  Proof.
    intros s1 s2 s3 (A1 & A2 & A3 & A4 & A5 & A6 & [p1 A7] & [k1 [A8 A9]]) (B1 & B2 & B3 & B4 & B5 & B6 & [p2 B7] & [k2 [B8 B9]]).
    unfold bstep. repeat split; try congruence.
    - exists (p1 ++ p2). rewrite A7, B7. now rewrite app_assoc.
    - exists (k2 + k1). rewrite B8, B9, A8, A9. rewrite !skipn_skipn'. auto.
  Qed.

  Lemma pop_one_frame : forall (s : state) p t, trail s = p :: t ->
    log (pop_one s) = log s /\ cls (pop_one s) = cls s /\ length (assigns (pop_one s)) = length (assigns s) /\
    constrs (pop_one s) = constrs s /\ watches (pop_one s) = watches s /\ prop_q (pop_one s) = prop_q s /\
    trail (pop_one s) = t /\ trail_lim (pop_one s) = trail_lim s /\ decisions (pop_one s) = decisions s /\ thst (pop_one s) = thst s.
  Proof. intros s p t E. unfold pop_one. rewrite E. simpl. rewrite upd_length. repeat split; auto. Qed.

  Lemma pop_while_inv0 : forall fuel lim (s : state), Inv0 T s -> prop_q s = [] ->
    Inv0 T (pop_while fuel lim s) /\ bstep s (pop_while fuel lim s) /\
    trail_lim (pop_while fuel lim s) = trail_lim s /\ decisions (pop_while fuel lim s) = decisions s /\
    thst (pop_while fuel lim s) = thst s /\
    (length (trail s) <= lim + fuel -> length (trail (pop_while fuel lim s)) <= lim) /\
    (lim <= length (trail s) -> lim <= length (trail (pop_while fuel lim s))).
  Proof.
    induction fuel as [|f IH]; intros lim s I Hq; simpl.
    - split; [exact I|]. split; [apply bstep_refl|]. repeat split; auto. intros; lia.
    - destruct (Nat.ltb_spec lim (length (trail s))) as [Hlt|Hge].
      + destruct (trail s) as [|p t] eqn:Et. simpl in Hlt. lia.
        assert (I1 : Inv0 T (pop_one s)). { eapply pop_one_inv0; eauto. rewrite Hq. auto. }
        destruct (pop_one_frame s p t Et) as (A1 & A2 & A3 & A4 & A5 & A6 & A7 & A8 & A9 & A10).
        destruct (IH lim (pop_one s) I1) as (I2 & B & C1 & C2 & C3 & C4 & C5). congruence.
        split; auto. split; [|split; [|split; [|split; [|split]]]]; try congruence.
        * eapply bstep_trans; [|exact B]. unfold bstep. repeat split; auto. exists [p]. rewrite Et, A7. auto.
          exists 0. simpl. auto.
        * intros H. apply C4. rewrite A7. simpl in *. lia.
        * intros H. apply C5. rewrite A7. simpl in *. lia.
      + split; [exact I|]. split; [apply bstep_refl|]. repeat split; auto.
  Qed.

  Lemma pop_inv : forall (s : state), Inv T s -> prop_q s = [] ->
    Inv T (pop th_pop s) /\ bstep s (pop th_pop s) /\
    trail_lim (pop th_pop s) = tl (trail_lim s) /\ decisions (pop th_pop s) = tl (decisions s) /\
    (forall lim lims, trail_lim s = lim :: lims -> length (trail (pop th_pop s)) = lim).
  Proof.
    intros s [I L] Hq. unfold pop. destruct (trail_lim s) as [|lim lims] eqn:El.
    - split. apply set_ub_inv. split; auto. split.
      + unfold bstep. simpl. repeat split; auto. exists []; auto. exists 0; auto.
      + simpl. pose proof (i_decs_len T s I) as Hd. rewrite El in Hd. destruct (decisions s); try discriminate.
        repeat split; auto. intros; discriminate.
    - destruct (pop_while_inv0 (length (trail s)) lim s I Hq) as (I1 & B & C1 & C2 & C3 & C4 & C5).
      set (s1 := pop_while (length (trail s)) lim s) in *.
      assert (Hlim : lim <= length (trail s)). { unfold LimOK in L. rewrite El in L. now inversion L. }
      assert (Hlen : length (trail s1) = lim). { specialize (C4 ltac:(lia)). specialize (C5 Hlim). lia. }
      assert (E1 : trail_lim s1 = lim :: lims) by congruence.
      assert (Hq1 : prop_q s1 = []). { destruct B as (_ & _ & _ & _ & _ & B6 & _). congruence. }
      pose proof (drop_level_inv T s1 lim lims (th_pop (thst s1)) I1 Hq1 E1 Hlen) as I2.
      unfold drop_level in I2. rewrite E1 in I2. simpl tl in I2.
      assert (Ed : tl (decisions s1) = tl (decisions s)) by congruence.
      split; [exact I2|].
      split; [|split; [|split]].
        * destruct B as (B1 & B2 & B3 & B4 & B5 & B6 & B7 & _). unfold bstep. simpl. repeat split; auto.
          exists 1. rewrite El, C2. simpl. split; auto.
        * reflexivity.
        * simpl. now rewrite C2.
        * intros lim0 lims0 E0. inversion E0. subst lim0. exact Hlen.
  Qed.

  Lemma pop_until_inv : forall fuel bt (s : state), Inv T s -> prop_q s = [] ->
    Inv T (pop_until_f th_pop fuel bt s) /\ bstep s (pop_until_f th_pop fuel bt s) /\
    (decision_level s <= bt + fuel -> decision_level (pop_until_f th_pop fuel bt s) <= bt) /\
    (bt <= decision_level s -> bt <= decision_level (pop_until_f th_pop fuel bt s)).
  Proof.
    induction fuel as [|f IH]; intros bt s I Hq; simpl.
    - split; [exact I|]. split; [apply bstep_refl|]. split; intros; lia.
    - destruct (Nat.ltb_spec bt (decision_level s)) as [Hlt|Hge].
      + destruct (pop_inv s I Hq) as (I1 & B1 & E1 & E2 & _).
        assert (Hq1 : prop_q (pop th_pop s) = []). { destruct B1 as (_ & _ & _ & _ & _ & B6 & _). congruence. }
        destruct (IH bt (pop th_pop s) I1 Hq1) as (I2 & B2 & C1 & C2).
        assert (Hd : decision_level (pop th_pop s) = decision_level s - 1).
        { unfold decision_level. rewrite E1. destruct (trail_lim s); simpl; lia. }
        split; auto. split. eapply bstep_trans; eauto. split; intros; [apply C1|apply C2]; lia.
      + split; [exact I|]. split; [apply bstep_refl|]. split; intros; lia.
  Qed.

  (* pop_until is pop, repeated while the level is above the target *)
  Lemma pop_until_ind : forall (P : state -> Prop) bt,
    (forall s : state, Inv T s -> prop_q s = [] -> bt < decision_level s -> P s -> P (pop th_pop s)) ->
    forall fuel (s : state), Inv T s -> prop_q s = [] -> P s -> P (pop_until_f th_pop fuel bt s).
  Proof.
    intros P bt Hstep. induction fuel as [|f IH]; intros s I Hq Hp; simpl; auto.
    destruct (Nat.ltb_spec bt (decision_level s)) as [Hlt|]; auto.
    destruct (pop_inv s I Hq) as (I1 & B & _). destruct B as (_ & _ & _ & _ & _ & B6 & _).
    apply IH; auto. congruence.
  Qed.

  (* where the model raises [ub]: never below a level boundary, never for a non-empty clause *)
  Lemma pop_while_ubs : forall fuel lim (s : state), ub (pop_while fuel lim s) = ub s.
  Proof.
    induction fuel as [|f IH]; intros lim s; simpl; auto.
    destruct (Nat.ltb_spec lim (length (trail s))); auto. rewrite IH. unfold pop_one.
    destruct (trail s); auto. simpl in H. lia.
  Qed.
  Lemma pop_ubs : forall (s : state), trail_lim s <> [] -> ub (pop th_pop s) = ub s.
  Proof. intros s H. unfold pop. destruct (trail_lim s); [contradiction|]. simpl. apply pop_while_ubs. Qed.
  Lemma pop_until_ubs : forall fuel bt (s : state), ub (pop_until_f th_pop fuel bt s) = ub s.
  Proof.
    induction fuel as [|f IH]; intros bt s; simpl; auto.
    destruct (Nat.ltb_spec bt (decision_level s)); auto. rewrite IH. apply pop_ubs.
    unfold decision_level in H. destruct (trail_lim s); simpl in H; [lia|discriminate].
  Qed.
  Lemma record_ubs : forall (s : state) k lits, lits <> [] -> ub (record sort s k lits) = ub s.
  Proof.
    intros s k lits Hne. unfold record. destruct lits as [|l0 [|l1 t]]; [contradiction| |].
    - destruct (enqueue (hook s k [l0]) l0 None) as [s1 b] eqn:E. exact (enqueue_ubs _ _ _ _ _ E).
    - set (sh := hook s k (l0 :: l1 :: t)).
      pose proof (sort_perm (level_gt sh) (l1 :: t)) as P. unfold clause_new.
      destruct (sort (level_gt sh) (l1 :: t)) as [|x r]. { apply Permutation_length in P. discriminate. }
      match goal with |- context [enqueue ?a ?b ?c] => destruct (enqueue a b c) as [s2 ok] eqn:E end.
      exact (enqueue_ubs _ _ _ _ _ E).
  Qed.
End Step.
