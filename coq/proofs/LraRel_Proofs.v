(* C11: the literal returned by new_lt / new_leq / new_geq / new_gt / new_eq means exactly its relation, and requesting it
   leaves the solution set unchanged. *)
From Coq Require Import QArith List Lia Lqa.
From ORatio Require Import smt.Lra smt.LraSem proofs.LraBase_Proofs proofs.LraTab_Proofs proofs.LraInv_Proofs proofs.LraThm_Proofs.
Import ListNotations.
Local Open Scope Q_scope.
#[local] Arguments Qred : simpl never.
#[local] Arguments Qplus : simpl never.
#[local] Arguments Qmult : simpl never.
#[local] Arguments Qopp : simpl never.
#[local] Arguments Qminus : simpl never.
#[local] Arguments Qdiv : simpl never.
#[local] Arguments Qinv : simpl never.
#[local] Arguments Qeq_bool : simpl never.
#[local] Arguments Qle_bool : simpl never.

(* the relation as a bound on the normalised expression: `<=`, `<` are upper bounds, `>=`, `>` lower bounds *)
Definition op_dir (o : op) : dir := match o with Leq => Upper | Geq => Lower end.
Lemma asrt_atom_true a : asrt_atom a true = (a_x a, op_dir (a_o a), a_v a).
Proof. unfold asrt_atom. destruct (a_o a); reflexivity. Qed.
Lemma sat_dir_eq_iff d y b b' : qd_eq b b' -> (sat_dir d y b <-> sat_dir d y b').
Proof. intro E. split; apply sat_dir_eq; try reflexivity; auto using qd_eq_sym. Qed.

Lemma rel_as_bound r A B y k : y + k == A - B -> (rel_holds r A B <-> sat_dir (op_dir (rel_op r)) y (Qred (- k), rel_eps r)).
Proof.
  intro E. rewrite (sat_dir_eq_iff _ y _ (- k, rel_eps r)) by (split; simpl; [apply Qred_correct | reflexivity]).
  destruct r; simpl; [rewrite sat_upper_strict by lra | rewrite sat_upper_weak by lra | rewrite sat_lower_weak by lra | rewrite sat_lower_strict by lra]; split; lra.
Qed.

(* the literal of an assertion on x whose constant is (equal to) c *)
Lemma asrt_lit_meaning s al rho a x c :
  model s al rho -> In a (asrts s) -> a_x a = x -> qd_eq (a_v a) c ->
  (lit_holds al (a_b a, true) = true <-> sat_dir (op_dir (a_o a)) (rho x) c).
Proof.
  intros M Ha <- Hv. unfold lit_holds. simpl. rewrite (m_asrts _ _ _ M a Ha), asrt_atom_true. exact (sat_dir_eq_iff _ _ _ _ Hv).
Qed.

Lemma decided_sound o lo hi c y v :
  decided o lo hi c = Some v -> (forall l, lo = Some l -> sat_lower y l) -> (forall u, hi = Some u -> sat_upper y u) ->
  (v = true <-> sat_dir (op_dir o) y c).
Proof.
  unfold decided. intros H HL HU. destruct o; simpl.
  - destruct (ub_le hi c) eqn:E1.
    + injection H as <-. unfold ub_le in E1. destruct hi as [u |]; [| discriminate]. apply qd_leb_true in E1.
      split; auto. intros _. eapply sat_upper_mono; [exact E1 | apply HU; reflexivity].
    + destruct (lb_gt lo c) eqn:E2; [| discriminate]. injection H as <-. unfold lb_gt in E2. destruct lo as [l |]; [| discriminate].
      apply qd_ltb_true in E2. split; [discriminate |]. intro K. exfalso. eapply sat_cross; [exact E2 | apply HL; reflexivity | exact K].
  - destruct (lb_ge lo c) eqn:E1.
    + injection H as <-. unfold lb_ge in E1. destruct lo as [l |]; [| discriminate]. apply qd_leb_true in E1.
      split; auto. intros _. eapply sat_lower_mono; [exact E1 | apply HL; reflexivity].
    + destruct (ub_lt hi c) eqn:E2; [| discriminate]. injection H as <-. unfold ub_lt in E2. destruct hi as [u |]; [| discriminate].
      apply qd_ltb_true in E2. split; [discriminate |]. intro K. exfalso. eapply sat_cross; [exact E2 | exact K | apply HU; reflexivity].
Qed.

Lemma find_asrt_some A x o v b : find_asrt A x o v = Some b -> exists a, In a A /\ a_b a = b /\ a_x a = x /\ a_o a = o /\ qd_eq (a_v a) v.
Proof.
  induction A as [| a t IH]; simpl; [discriminate |].
  destruct (Nat.eqb (a_x a) x && op_eqb (a_o a) o && qd_eqb (a_v a) v) eqn:E.
  - intro H; injection H as <-. apply andb_true_iff in E. destruct E as [E E3]. apply andb_true_iff in E. destruct E as [E1 E2].
    apply Nat.eqb_eq in E1. apply qd_eqb_true in E3. exists a. split; [left; auto | split; [auto | split; [auto | split; [| exact E3]]]].
    destruct (a_o a), o; simpl in E2; congruence.
  - intro H. destruct (IH H) as [a' [K1 K2]]. exists a'. split; auto.
Qed.

(* models of the larger state restrict to models of the smaller one *)
Lemma new_var_lin_exprs_incl s l : incl (exprs s) (exprs (fst (new_var_lin s l))).
Proof.
  unfold new_var_lin. destruct (find_expr (exprs s) l); simpl; [apply incl_refl |]. intros z Hz. right. right. exact Hz.
Qed.
Lemma model_restrict_nvl s l al rho : model (fst (new_var_lin s l)) al rho -> model s al rho.
Proof.
  intros [M1 M2 M3 M4 M5]. destruct (new_var_lin_fields s l) as [EA [EC [EL [ET ES]]]].
  constructor; auto.
  - intros m x K. apply M2. apply new_var_lin_exprs_incl. exact K.
  - intros a Ha. apply M3. rewrite EA. exact Ha.
  - intros p q c K. apply M4. rewrite EC. exact K.
  - intros a Ha. apply M5. unfold root_atoms in *. rewrite ET. exact Ha.
Qed.
Lemma model_restrict_asrt s a al rho : model (add_asrt s a) al rho -> model s al rho.
Proof.
  intros [M1 M2 M3 M4 M5]. constructor; auto. intros a' Ha. apply M3. simpl. apply in_or_app. auto.
Qed.
Lemma model_restrict_conj s e al rho : model (add_conj s e) al rho -> model s al rho.
Proof.
  intros [M1 M2 M3 M4 M5]. constructor; auto. intros p q c K. apply M4. simpl. auto.
Qed.

Lemma slack_meaning s l rho :
  sat_defs (exprs (fst (new_var_lin s l))) rho -> rho (snd (new_var_lin s l)) == evalq rho l.
Proof.
  unfold new_var_lin. destruct (find_expr (exprs s) l) as [x |] eqn:E; simpl; intro D.
  - apply find_expr_some in E. destruct E as [m [K1 K2]]. rewrite (D m x K1). apply lin_eqb_evalq. exact K2.
  - apply D. left. reflexivity.
Qed.

(* at root level every model satisfies every current bound *)
Lemma model_root_bounds s al rho : wf s -> layers s = [] -> model s al rho -> sat_bounds (cb s) rho.
Proof.
  intros W R M. apply bounds_contain_solutions; auto. { exact (m_defs s al rho M). }
  intros a Ha. apply (m_root s al rho M). unfold all_atoms in Ha. unfold root_atoms.
  pose proof (wf_stack s W) as H. rewrite R in H. destruct (snaps s); simpl in H; [| destruct (trail s); tauto].
  destruct (trail s) as [| t0 ts]; [tauto |]. destruct ts; [| tauto]. simpl in *. rewrite app_nil_r in Ha. exact Ha.
Qed.

Lemma query_bounds_sound s l al rho lo hi :
  wf s -> layers s = [] -> model s al rho ->
  (lb_lin s l = Some lo -> sat_lower (evalq rho l) lo) /\ (ub_lin s l = Some hi -> sat_upper (evalq rho l) hi).
Proof.
  intros W Root M. pose proof (model_root_bounds s al rho W Root M) as SB.
  split; intro H; [eapply (side_lin_sound Lower) | eapply (side_lin_sound Upper)]; eauto.
Qed.

Lemma rel_expr_meaning s a b rho :
  sat_rows (tableau s) rho ->
  evalq rho (rel_expr s a b) + lconst (subst_basic (tableau s) (lin_sub a b)) == evalq rho a - evalq rho b.
Proof.
  intro R. rewrite <- evalq_lin_sub. rewrite <- (subst_basic_evalq (tableau s) (lin_sub a b) rho R).
  unfold rel_expr, evalq. simpl. ring.
Qed.

Lemma lit_true_holds al : al 0%nat = false -> lit_holds al TRUE_lit = true /\ lit_holds al FALSE_lit = false.
Proof. intro H. unfold lit_holds, TRUE_lit, FALSE_lit. simpl. rewrite H. auto. Qed.
Lemma lit_const_holds al (v : bool) : al 0%nat = false -> (lit_holds al (if v then TRUE_lit else FALSE_lit) = true <-> v = true).
Proof. intro H. destruct (lit_true_holds al H) as [T Fl]. destruct v; [rewrite T | rewrite Fl]; split; congruence. Qed.

Theorem new_rel_restrict s r a b fresh al rho : model (fst (fst (new_rel r a b fresh s))) al rho -> model s al rho.
Proof.
  destruct (new_rel_cases r a b fresh s) as [v D | v s1 slack D2 | bv s1 slack F | s1 slack]; simpl; auto.
  - apply model_restrict_nvl.
  - apply model_restrict_nvl.
  - intro M. apply model_restrict_asrt in M. apply model_restrict_nvl in M. exact M.
Qed.

Theorem new_rel_meaning s r a b fresh s' l n :
  wf s -> layers s = [] -> rel_args_ok s a b -> fresh_ok s fresh ->
  new_rel r a b fresh s = (s', l, n) ->
  forall al rho, model s' al rho -> (lit_holds al l = true <-> rel_holds r (evalq rho a) (evalq rho b)).
Proof.
  intros W Root Args F Eq al rho M.
  pose proof (rel_expr_ok s a b W Args) as LO.
  pose proof (wf_new_var_lin s _ W Root LO) as W1.
  destruct (new_var_lin_fields s (rel_expr s a b)) as [_ [_ [EL _]]].
  pose proof (new_rel_restrict s r a b fresh al rho) as M0. rewrite Eq in M0. specialize (M0 M).
  (* the relation is the bound rel_cright on the value of the normalised expression, hence on the slack *)
  assert (Main : forall y, y == evalq rho (rel_expr s a b) ->
            (rel_holds r (evalq rho a) (evalq rho b) <-> sat_dir (op_dir (rel_op r)) y (rel_cright s r a b))).
  { intros y Hy. apply rel_as_bound. rewrite Hy. apply rel_expr_meaning, (model_rows s al rho W M0). }
  pose proof (new_rel_cases r a b fresh s) as Cases. rewrite Eq in Cases.
  inversion Cases as [v D E1 | v s1 slack D2 E1 | bv s1 slack Fd E1 | s1 slack E1]; subst;
    [rewrite (Main _ (Qeq_refl _)) | rewrite (Main _ (slack_meaning s _ rho (m_defs _ _ _ M))); fold slack ..].
  - (* decided by the bounds of the expression *)
    pose proof (model_root_bounds s' al rho W Root M) as SB. rewrite (lit_const_holds al v (m_false _ _ _ M)).
    apply (decided_sound _ _ _ _ _ v D); intros o Ho; [eapply (side_lin_sound Lower) | eapply (side_lin_sound Upper)]; eauto.
  - (* decided by the bounds of the slack *)
    assert (R1 : layers s1 = []) by (unfold s1; rewrite EL; exact Root).
    pose proof (model_root_bounds s1 al rho W1 R1 M) as SB. rewrite (lit_const_holds al v (m_false _ _ _ M)).
    apply (decided_sound _ _ _ _ _ v D2); intros o Ho; [exact (SB slack Lower o Ho) | exact (SB slack Upper o Ho)].
  - (* an existing assertion is shared *)
    apply find_asrt_some in Fd. destruct Fd as [a0 [Ha [<- [Hx [<- Hv]]]]]. exact (asrt_lit_meaning s1 al rho a0 slack _ M Ha Hx Hv).
  - (* a new assertion *)
    apply (asrt_lit_meaning _ al rho (mkA fresh (rel_op r) slack (rel_cright s r a b)) slack _ M); [| reflexivity | split; reflexivity].
    simpl. apply in_or_app. right. left. reflexivity.
Qed.

(* TRUE / FALSE are returned only when the root bounds decide the relation: special case of the theorem *)
Corollary new_rel_true_only_if_entailed s r a b fresh s' n :
  wf s -> layers s = [] -> rel_args_ok s a b -> fresh_ok s fresh ->
  new_rel r a b fresh s = (s', TRUE_lit, n) -> forall al rho, model s' al rho -> rel_holds r (evalq rho a) (evalq rho b).
Proof.
  intros W R A F E al rho M. apply (new_rel_meaning s r a b fresh s' TRUE_lit n W R A F E al rho M).
  apply (lit_true_holds al (m_false _ _ _ M)).
Qed.
Corollary new_rel_false_only_if_refuted s r a b fresh s' n :
  wf s -> layers s = [] -> rel_args_ok s a b -> fresh_ok s fresh ->
  new_rel r a b fresh s = (s', FALSE_lit, n) -> forall al rho, model s' al rho -> ~ rel_holds r (evalq rho a) (evalq rho b).
Proof.
  intros W R A F E al rho M K. apply (new_rel_meaning s r a b fresh s' FALSE_lit n W R A F E al rho M) in K.
  destruct (lit_true_holds al (m_false _ _ _ M)) as [_ Fl]. congruence.
Qed.

Lemma sat_atom_ext rho rho' a : (rho (fst (fst a)) == rho' (fst (fst a))) -> sat_atom rho a -> sat_atom rho' a.
Proof.
  destruct a as [[x d] b]. simpl. intros E. destruct d; [apply sat_lower_eq | apply sat_upper_eq]; auto; split; reflexivity.
Qed.

(* extension over the fresh slack *)
Lemma model_extend_nvl s l al rho :
  wf s -> lin_ok s l -> model s al rho ->
  exists rho', model (fst (new_var_lin s l)) al rho' /\ forall v, (v < nvars s)%nat -> rho' v = rho v.
Proof.
  intros W [LS LV] M. unfold new_var_lin. destruct (find_expr (exprs s) l) as [x |] eqn:E; simpl.
  - exists rho. split; auto.
  - set (n := nvars s). exists (fun v => if Nat.eqb v n then evalq rho l else rho v).
    assert (Same : forall v, (v < n)%nat -> (if Nat.eqb v n then evalq rho l else rho v) = rho v).
    { intros v Hv. destruct (Nat.eqb v n) eqn:En; auto. apply Nat.eqb_eq in En. lia. }
    split; [| exact Same]. destruct M as [M1 M2 M3 M4 M5].
    assert (EvalSame : forall m, (forall v, In v (lkeys m) -> (v < n)%nat) ->
               evalq (fun v => if Nat.eqb v n then evalq rho l else rho v) m == evalq rho m).
    { intros m Hm. apply evalq_ext. intros v Hv. rewrite Same; [reflexivity | apply Hm; exact Hv]. }
    constructor; lra_proj; auto.
    + intros m x [K | [K | K]].
      * injection K as <- <-. rewrite Nat.eqb_refl. symmetry. apply EvalSame. intros v Hv. apply LV. exact Hv.
      * injection K as <- <-. rewrite evalq_lin_var. reflexivity.
      * destruct (wf_exprs s W m x K) as [Hx Hm]. rewrite Same by exact Hx. rewrite (EvalSame m Hm). apply M2. exact K.
    + intros a0 Ha. destruct (wf_asrts s W a0 Ha) as [_ [Hx _]]. rewrite (M3 a0 Ha).
      split; apply sat_atom_ext; unfold asrt_atom; destruct (a_o a0); simpl; rewrite Same by exact Hx; reflexivity.
    + intros a0 Ha. apply (sat_atom_ext rho); [| apply M5; exact Ha]. destruct a0 as [[x d] b0]. simpl.
      rewrite Same; [reflexivity |]. apply (wf_atoms_rng s W x d b0). apply root_in_all; auto.
Qed.

Definition decide_bound (o : op) (y : Q) (c : qd) : bool :=
  match o with
  | Leq => if qltb (snd c) 0 then qltb y (fst c) else Qle_bool y (fst c)
  | Geq => if qltb 0 (snd c) then qltb (fst c) y else Qle_bool (fst c) y
  end.
Lemma decide_bound_spec o y c : decide_bound o y c = true <-> sat_dir (op_dir o) y c.
Proof.
  destruct c as [c k]. unfold decide_bound. simpl. destruct o; simpl.
  - destruct (qltb k 0) eqn:E.
    + apply qltb_true in E. rewrite qltb_true. symmetry. apply sat_upper_strict. exact E.
    + apply qltb_false in E. rewrite qleb_true. symmetry. apply sat_upper_weak. exact E.
  - destruct (qltb 0 k) eqn:E.
    + apply qltb_true in E. rewrite qltb_true. symmetry. apply sat_lower_strict. exact E.
    + apply qltb_false in E. rewrite qleb_true. symmetry. apply sat_lower_weak. exact E.
Qed.

Lemma model_extend_asrt s a0 al rho :
  (forall a', In a' (asrts s) -> a_b a' <> a_b a0) -> (forall p q c, In (p, q, c) (conjs s) -> fst p <> a_b a0 /\ fst q <> a_b a0 /\ fst c <> a_b a0) ->
  a_b a0 <> 0%nat -> model s al rho ->
  exists al', model (add_asrt s a0) al' rho /\ forall v, v <> a_b a0 -> al' v = al v.
Proof.
  intros HA HC H0 [M1 M2 M3 M4 M5].
  set (bv := decide_bound (a_o a0) (rho (a_x a0)) (a_v a0)).
  exists (fun v => if Nat.eqb v (a_b a0) then bv else al v).
  assert (Same : forall v, v <> a_b a0 -> (if Nat.eqb v (a_b a0) then bv else al v) = al v).
  { intros v Hv. destruct (Nat.eqb v (a_b a0)) eqn:E; auto. apply Nat.eqb_eq in E. congruence. }
  split; [| exact Same]. constructor; unfold add_asrt; lra_proj; auto.
  - rewrite Same; auto.
  - intros a' Ha. apply in_app_or in Ha. destruct Ha as [Ha | [<- | []]].
    + rewrite Same by (apply HA; exact Ha). apply M3. exact Ha.
    + rewrite Nat.eqb_refl, asrt_atom_true. apply decide_bound_spec.
  - intros p q c K. destruct (HC p q c K) as [Hp [Hq Hc]]. unfold lit_holds. rewrite !Same by auto. apply (M4 p q c K).
Qed.

Theorem new_rel_extend s r a b fresh al rho :
  wf s -> layers s = [] -> rel_args_ok s a b -> fresh_ok s fresh ->
  (forall p q c, In (p, q, c) (conjs s) -> (fst p < fresh)%nat /\ (fst q < fresh)%nat) ->
  model s al rho ->
  exists al' rho', model (fst (fst (new_rel r a b fresh s))) al' rho' /\
                   (forall v, (v < nvars s)%nat -> rho' v = rho v) /\ (forall v, v <> fresh -> al' v = al v).
Proof.
  intros W Root Args [F0 [FA FC]] FPQ M.
  pose proof (rel_expr_ok s a b W Args) as LO.
  pose proof (wf_new_var_lin s _ W Root LO) as W1.
  destruct (new_var_lin_fields s (rel_expr s a b)) as [EA [EC [EL [ET [ES EN]]]]].
  destruct (model_extend_nvl s _ al rho W LO M) as [rho1 [M1 Same1]].
  destruct (new_rel_cases r a b fresh s) as [v D | v s1 slack D2 | bv s1 slack F | s1 slack]; cbn [fst].
  - exists al, rho. auto.
  - exists al, rho1. auto.
  - exists al, rho1. auto.
  - set (a0 := mkA fresh (rel_op r) slack (rel_cright s r a b)).
    destruct (model_extend_asrt s1 a0 al rho1) as [al' [M2 Same2]]; auto.
    + unfold s1. rewrite EA. intros a' Ha. specialize (FA a' Ha). simpl. lia.
    + unfold s1. rewrite EC. intros p q c K. specialize (FC p q c K). destruct (FPQ p q c K). simpl. lia.
    + exists al', rho1. auto.
Qed.

Lemma lit_eqb_eq a b : lit_eqb a b = true -> a = b.
Proof.
  destruct a as [v1 s1], b as [v2 s2]. unfold lit_eqb. simpl. rewrite andb_true_iff. intros [E1 E2].
  apply Nat.eqb_eq in E1. apply Bool.eqb_prop in E2. congruence.
Qed.
Lemma find_conj_some C a b c : find_conj C a b = Some c -> In (a, b, c) C.
Proof.
  induction C as [| [[x y] z] t IH]; simpl; [discriminate |]. destruct (lit_eqb x a && lit_eqb y b) eqn:E.
  - intro H; injection H as <-. apply andb_true_iff in E. destruct E as [E1 E2]. apply lit_eqb_eq in E1. apply lit_eqb_eq in E2. subst. auto.
  - auto.
Qed.
Lemma lvalue_ext al (al' : nat -> bool) p b : (forall v bv, al v = Some bv -> al' v = bv) -> lvalue al p = Some b -> lit_holds al' p = b.
Proof.
  intros X H. unfold lvalue in H. destruct (al (fst p)) as [bv |] eqn:E; [| discriminate]. injection H as <-.
  unfold lit_holds. rewrite (X _ _ E). reflexivity.
Qed.

(* the body of Lra.new_conj2 after the std::sort swap (new_conj2_core), so that the swap can be split off *)
Definition conj_core (al : assign) (p q : lit) (fresh : nat) (s : state) : state * lit * nat :=
  match lvalue al p with
  | Some false => (s, FALSE_lit, 0%nat)
  | vp =>
      let keep_p := match vp with Some true => false | _ => true end in
      if match lvalue al q with Some false => true | _ => false end then (s, FALSE_lit, 0%nat)
      else if keep_p && lit_eqb q (lneg p) then (s, FALSE_lit, 0%nat)
      else
        let keep_q := match lvalue al q with Some true => false | _ => negb (keep_p && lit_eqb q p) end in
        match keep_p, keep_q with
        | false, false => (s, TRUE_lit, 0%nat)
        | true, false => (s, p, 0%nat)
        | false, true => (s, q, 0%nat)
        | true, true =>
            match find_conj (conjs s) p q with
            | Some c => (s, c, 0%nat)
            | None => (mkS (nvars s) (cb s) (vals s) (tableau s) (exprs s) (asrts s) ((p, q, (fresh, true)) :: conjs s)
                           (layers s) (trail s) (snaps s), (fresh, true), 1%nat)
            end
        end
  end.
Lemma new_conj2_core al a b fresh s :
  new_conj2 al a b fresh s = if Nat.ltb (fst b) (fst a) then conj_core al b a fresh s else conj_core al a b fresh s.
Proof. unfold new_conj2. destruct (Nat.ltb (fst b) (fst a)); reflexivity. Qed.

Lemma conj_core_meaning al p q fresh s s' c n (al' : nat -> bool) :
  conj_core al p q fresh s = (s', c, n) ->
  (forall v bv, al v = Some bv -> al' v = bv) -> al' 0%nat = false ->
  (forall x y z, In (x, y, z) (conjs s') -> lit_holds al' z = lit_holds al' x && lit_holds al' y) ->
  lit_holds al' c = lit_holds al' p && lit_holds al' q.
Proof.
  intros H X F0 MC. destruct (lit_true_holds al' F0) as [TT FF]. unfold conj_core in H.
  destruct (lvalue al p) as [[|] |] eqn:Vp.
  - (* p true at root *)
    rewrite (lvalue_ext al al' p true X Vp). simpl.
    destruct (lvalue al q) as [[|] |] eqn:Vq; simpl in H.
    + injection H as <- <- <-. rewrite TT. symmetry. apply (lvalue_ext al al' q true X Vq).
    + injection H as <- <- <-. rewrite FF. symmetry. apply (lvalue_ext al al' q false X Vq).
    + injection H as <- <- <-. reflexivity.
  - injection H as <- <- <-. rewrite FF, (lvalue_ext al al' p false X Vp). reflexivity.
  - (* p undefined *)
    destruct (lvalue al q) as [[|] |] eqn:Vq; simpl in H.
    + destruct (lit_eqb q (lneg p)) eqn:Eneg.
      * injection H as <- <- <-. apply lit_eqb_eq in Eneg. subst q. rewrite FF, lit_holds_neg. destruct (lit_holds al' p); reflexivity.
      * injection H as <- <- <-. rewrite (lvalue_ext al al' q true X Vq). rewrite andb_true_r. reflexivity.
    + injection H as <- <- <-. rewrite FF, (lvalue_ext al al' q false X Vq). rewrite andb_false_r. reflexivity.
    + destruct (lit_eqb q (lneg p)) eqn:Eneg.
      * injection H as <- <- <-. apply lit_eqb_eq in Eneg. subst q. rewrite FF, lit_holds_neg. destruct (lit_holds al' p); reflexivity.
      * destruct (lit_eqb q p) eqn:Eqp; simpl in H.
        -- injection H as <- <- <-. apply lit_eqb_eq in Eqp. subst q. destruct (lit_holds al' p); reflexivity.
        -- destruct (find_conj (conjs s) p q) as [c0 |] eqn:FC.
           ++ injection H as <- <- <-. apply find_conj_some in FC. apply MC. exact FC.
           ++ injection H as <- <- <-. apply MC. simpl. left. reflexivity.
Qed.

Lemma new_conj2_meaning al g l fresh s s' c n (al' : nat -> bool) :
  new_conj2 al g l fresh s = (s', c, n) ->
  (forall v bv, al v = Some bv -> al' v = bv) -> al' 0%nat = false ->
  (forall x y z, In (x, y, z) (conjs s') -> lit_holds al' z = lit_holds al' x && lit_holds al' y) ->
  lit_holds al' c = lit_holds al' g && lit_holds al' l.
Proof.
  intros H X F0 MC. rewrite new_conj2_core in H. destruct (Nat.ltb (fst l) (fst g)).
  - rewrite andb_comm. eapply conj_core_meaning; eauto.
  - eapply conj_core_meaning; eauto.
Qed.

Lemma new_conj2_restrict al g l fresh s al' rho : model (fst (fst (new_conj2 al g l fresh s))) al' rho -> model s al' rho.
Proof.
  destruct (new_conj2_state al g l fresh s) as [-> | [p' [q' ->]]]; auto. apply model_restrict_conj.
Qed.

Theorem new_eq_meaning s al a b fresh s' c n :
  wf s -> layers s = [] -> rel_args_ok s a b -> fresh_ok s fresh ->
  new_eq al a b fresh s = (s', c, n) ->
  forall al' rho, model s' al' rho -> (forall v bv, al v = Some bv -> al' v = bv) ->
    (lit_holds al' c = true <-> evalq rho a == evalq rho b).
Proof.
  intros W Root Args F Eq al' rho M X. unfold new_eq in Eq.
  pose proof (wf_new_rel s Rgeq a b fresh W Root Args F) as H1.
  destruct (new_rel Rgeq a b fresh s) as [[s1 g] n1] eqn:E1. cbn [fst snd] in H1. destruct H1 as [W1 [R1 [F1 N1]]].
  pose proof (rel_args_ok_mono s s1 a b N1 Args) as Args1.
  pose proof (wf_new_rel s1 Rleq a b (fresh + n1) W1 R1 Args1 F1) as H2.
  destruct (new_rel Rleq a b (fresh + n1) s1) as [[s2 l] n2] eqn:E2. cbn [fst snd] in H2. destruct H2 as [W2 [R2 [F2 N2]]].
  destruct (new_conj2 al g l (fresh + n1 + n2) s2) as [[s3 c3] n3] eqn:E3. injection Eq as <- <- <-.
  assert (M2 : model s2 al' rho). { pose proof (new_conj2_restrict al g l (fresh + n1 + n2) s2 al' rho) as K. rewrite E3 in K. apply K. exact M. }
  assert (M1 : model s1 al' rho). { pose proof (new_rel_restrict s1 Rleq a b (fresh + n1) al' rho) as K. rewrite E2 in K. apply K. exact M2. }
  pose proof (new_rel_meaning s Rgeq a b fresh s1 g n1 W Root Args F E1 al' rho M1) as G.
  pose proof (new_rel_meaning s1 Rleq a b (fresh + n1) s2 l n2 W1 R1 Args1 F1 E2 al' rho M2) as L.
  rewrite (new_conj2_meaning al g l (fresh + n1 + n2) s2 s3 c3 n3 al' E3 X (m_false _ _ _ M) (m_conjs _ _ _ M)).
  rewrite andb_true_iff, G, L. simpl. split; [intros [K1 K2]; lra | intro K; split; lra].
Qed.
