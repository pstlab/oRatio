(* The integer instance: Z as an ordered group and idl_dom as a distance domain (`domspec`).
   inf() = INF is the sentinel; legal matrix entries are INF or |x| < LIM = 2^60 (the model flags anything else as a fault),
   legal bounds of constraints satisfy |d| < LIM - 1 so that -d - 1 is a legal bound again. *)
From Coq Require Import List ZArith Bool Lia Qcanon.
From ORatio Require Import smt.DlDom proofs.DlOrd_Proofs proofs.DlGraph_Proofs proofs.DlSpec_Proofs.
Import ListNotations.
Local Open Scope Z_scope.

Definition Zog : ogroup.
Proof.
  refine (mkog Z 0 Z.add Z.opp Z.lt Z.ltb _ _ _ _ _ _ _ _ _); intros; lia.
Defined.

Definition idl_itp (x : Z) : xd Zog := if Z.eqb x INF then Inf else Fin (x : Zog).
Definition idl_mok (x : Z) : Prop := x = INF \/ Z.abs x < LIM.
Definition idl_wt (d : Z) (g : Zog) : Prop := Z.abs d < LIM /\ g = d.

Lemma INF_LIM : 2 * LIM < INF. Proof. reflexivity. Qed.

Definition idl_spec (sat : bool) : domspec Zog Z (idl_dom sat).
Proof.
  pose proof INF_LIM as IL. assert (L1 : 1 < LIM) by reflexivity.
  refine (mkds Zog Z (idl_dom sat) idl_itp idl_mok idl_wt False (fun g => - g - 1) _ _ _ _ _ _ _ _ _ _ _ _ _ _ _ _ _ _ _ _);
    unfold idl_mok, idl_wt in *; cbn [dzero dinf dadd dsub dneg dltb dleb dfin dok dwok dpred dsub1 idl_dom G g0 gadd gopp glt Zog].
  - split; [right; reflexivity | reflexivity].
  - split; [left; reflexivity | reflexivity].
  - intros d g [H ->]. split; [right; exact H |]. split.
    + unfold idl_itp. destruct (Z.eqb_spec d INF); [lia | reflexivity].
    + apply orb_true_iff. right. apply Z.ltb_lt. exact H.
  - intros d H. apply Z.ltb_lt in H. exists d. split; [lia | reflexivity].
  - (* ds_add *)
    intros a d gd Ma [Hd ->] Hf Hok.
    assert (Fa : a <> INF).
    { destruct Hf as [[] | Hf]. intro E. apply Hf. unfold idl_itp. subst a. reflexivity. }
    destruct Ma as [Ma | Ma]; [contradiction |].
    apply orb_true_iff in Hok. destruct Hok as [Hok | Hok]; [apply Z.eqb_eq in Hok; lia |]. apply Z.ltb_lt in Hok.
    split; [right; exact Hok |]. unfold idl_itp.
    destruct (Z.eqb_spec (a + d) INF); [lia |]. destruct (Z.eqb_spec a INF); [lia |]. reflexivity.
  - (* ds_add2 *)
    intros a b Ma Mb Hf Hok. destruct Hf as [[] | [Fa Fb]].
    assert (Ea : a <> INF) by (intro E; apply Fa; unfold idl_itp; subst a; reflexivity).
    assert (Eb : b <> INF) by (intro E; apply Fb; unfold idl_itp; subst b; reflexivity).
    destruct Ma as [Ma | Ma]; [contradiction |]. destruct Mb as [Mb | Mb]; [contradiction |].
    apply orb_true_iff in Hok. destruct Hok as [Hok | Hok]; [apply Z.eqb_eq in Hok; lia |]. apply Z.ltb_lt in Hok.
    split; [right; exact Hok |]. unfold idl_itp.
    destruct (Z.eqb_spec (a + b) INF); [lia |].
    destruct (Z.eqb_spec a INF); [lia |]. destruct (Z.eqb_spec b INF); [lia |]. reflexivity.
  - (* ds_t1 *)
    intros a b d gd Ma Mb [Hd ->]. unfold idl_itp.
    destruct (Z.eqb_spec a INF) as [Ea | Ea]; cbn [negb andb].
    + cbn [xadd]. apply xle_inf.
    + destruct Ma as [Ma | Ma]; [contradiction |].
      destruct (Z.eqb_spec b INF) as [Eb | Eb].
      * subst b. destruct (Z.ltb_spec a (INF - d)); [left; exact I | lia].
      * destruct Mb as [Mb | Mb]; [contradiction |].
        destruct (Z.ltb_spec a (b - d)); [left; cbn; lia | cbn; unfold gle; cbn; lia].
  - (* ds_t2 *)
    intros a b c Ma Mb Mc Hf. destruct Hf as [[] | [Fa Fb]].
    assert (Ea : a <> INF) by (intro E; apply Fa; unfold idl_itp; subst a; reflexivity).
    assert (Eb : b <> INF) by (intro E; apply Fb; unfold idl_itp; subst b; reflexivity).
    destruct Ma as [Ma | Ma]; [contradiction |]. destruct Mb as [Mb | Mb]; [contradiction |].
    unfold idl_itp. destruct (Z.eqb_spec a INF); [contradiction |]. destruct (Z.eqb_spec b INF); [contradiction |].
    destruct (Z.eqb_spec c INF) as [Ec | Ec].
    + subst c. destruct (Z.ltb_spec (a + b) INF); [left; exact I | lia].
    + destruct Mc as [Mc | Mc]; [contradiction |].
      destruct (Z.ltb_spec (a + b) c); [left; cbn; lia | cbn; unfold gle; cbn; lia].
  - (* ds_lt_neg *)
    intros x d gd Mx [Hd ->]. unfold idl_itp. destruct (Z.eqb_spec x INF) as [Ex | Ex].
    + subst x. split; [intro H; apply Z.ltb_lt in H; lia | intros []].
    + cbn. rewrite Z.ltb_lt. reflexivity.
  - (* ds_le *)
    intros x d gd Mx [Hd ->]. unfold idl_itp. destruct (Z.eqb_spec x INF) as [Ex | Ex].
    + subst x. split; [intro H; apply Z.leb_le in H; lia | intros []].
    + cbn. unfold gle; cbn. rewrite Z.leb_le. lia.
  - (* ds_gt *)
    intros x d gd Mx [Hd ->]. unfold idl_itp. destruct (Z.eqb_spec x INF) as [Ex | Ex].
    + subst x. split; [intros _; exact I | intros _; apply Z.ltb_lt; lia].
    + cbn. rewrite Z.ltb_lt. reflexivity.
  - (* ds_ge_neg *)
    intros x d gd Mx [Hd ->]. unfold idl_itp. destruct (Z.eqb_spec x INF) as [Ex | Ex].
    + subst x. split; [intros _; exact I | intros _; apply Z.leb_le; lia].
    + cbn. rewrite Z.leb_le. lia.
  - (* ds_pred *)
    intros d gd Hw [Hd ->]. apply Z.ltb_lt in Hw. split; lia.
  - intros d g g' [_ ->] [_ ->]. reflexivity.
  - intro g. lia.
  - (* ds_pred_disc *)
    intros x gx d gd Mx Ix Hw [Hd ->] Hlt. unfold gle; cbn. lia.
  - (* ds_nojunk *)
    intros _ x Mx Ix. unfold idl_itp in Ix. destruct (Z.eqb_spec x INF); [assumption | discriminate].
  - (* ds_negx_le *)
    intros x d gd Mx [Hd ->]. unfold idl_itp. destruct (Z.eqb_spec x INF) as [Ex | Ex].
    + subst x. split; [intros _; exact I | intros _; apply Z.leb_le; lia].
    + destruct Mx as [Mx | Mx]; [contradiction |]. cbn. unfold gle; cbn. rewrite Z.leb_le. lia.
  - (* ds_le_x *)
    intros x d gd Mx [Hd ->]. unfold idl_itp. destruct (Z.eqb_spec x INF) as [Ex | Ex].
    + subst x. split; [intros _; exact I | intros _; apply Z.leb_le; lia].
    + cbn. unfold gle; cbn. rewrite Z.leb_le. lia.
  - (* ds_wt_neg *)
    intros d g Hw [Hd ->]. split; lia.
Defined.
