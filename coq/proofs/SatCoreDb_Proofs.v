(* The database never loses information: any assignment that satisfies the root-level literals and every live clause
   satisfies every axiom (added clause / next() no-good).  Together with the soundness direction (SatCoreRun_Proofs)
   this says that the live database + root trail is EQUIVALENT to the axioms, after any history.
   It reduces "all variables assigned and propagation succeeded => every added clause is satisfied" to the
   two-watched-literal completeness "quiescent => every live clause has a true literal".
   DbInv is a joint invariant in the sense of SatCoreRun_Proofs (db_joint): the steps that add no axiom are handled by the
   relation dbstep, new_clause and the no-good of next() add one and are handled directly. *)
From Coq Require Import List Arith Bool Lia Permutation.
From ORatio Require Import smt.SatCoreBase smt.SatCoreSpec smt.SatCore proofs.SatCoreBase_Proofs proofs.SatCoreInv_Proofs
  proofs.SatCorePrim_Proofs proofs.SatCoreStep_Proofs proofs.SatCoreAnalyze_Proofs
  proofs.SatCoreRun_Proofs proofs.SatCoreLog_Proofs proofs.SatCoreThm_Proofs.
Import ListNotations.

Section Db.
  Context {TS : Type}.
  Variable T : asg -> Prop.
  Variable sort : (lit -> lit -> bool) -> list lit -> list lit.
  Hypothesis Hsort : sort_contract sort.
  Variable th_propagate : TS -> list lbool -> nat -> lit -> TS * list (list lit) * option (list lit).
  Variable th_check : TS -> list lbool -> nat -> TS * list (list lit) * option (list lit).
  Variable th_push th_pop : TS -> TS.
  Variable FUEL : nat.
  Hypothesis Hth : theory_contract T th_propagate th_check.
  Notation state := (@state TS).
  Let sort_perm := proj1 Hsort.
  Let sort_sorted := proj2 Hsort.
  Let thp_ok := proj1 Hth.
  Let thc_ok := proj2 Hth.

  Definition holds (a : asg) (s : state) : Prop :=
    sat_lit a TRUE_lit /\ (forall q, In q (trail s) -> lvl s q = 0 -> sat_lit a q) /\
    (forall c, In c (constrs s) -> sat_clause a (lits_of s c)).
  Definition bound (s : state) : Prop := NoDup (constrs s) /\ forall c, In c (constrs s) -> c < length (cls s).
  Lemma bound_same : forall (s s' : state), constrs s' = constrs s -> length (cls s) <= length (cls s') -> bound s -> bound s'.
  Proof. intros s s' Hc Hl [N B]. split; rewrite Hc; auto. intros c H. specialize (B c H). lia. Qed.
  Lemma bound_push : forall (s s' : state) id, constrs s' = constrs s ++ [id] -> length (cls s) <= id -> id < length (cls s') ->
    bound s -> bound s'.
  Proof.
    intros s s' id Hc Hid Hl [N B]. split; rewrite Hc.
    - apply NoDup_app_single; auto. intros H. specialize (B id H). lia.
    - intros c H. apply in_app_or in H. destruct H as [H|[<-|[]]]; auto. specialize (B c H). lia.
  Qed.
  (* a clause is allocated and made live: what the new database says *)
  Lemma holds_push : forall (s s' : state) ls, bound s -> cls s' = cls s ++ [ls] -> constrs s' = constrs s ++ [length (cls s)] ->
    (forall q, In q (trail s) -> lvl s q = 0 -> In q (trail s') /\ lvl s' q = 0) ->
    bound s' /\ forall a, holds a s' -> holds a s /\ sat_clause a ls.
  Proof.
    intros s s' ls Bd Hc Hk Ht. split.
    - apply (bound_push s s' (length (cls s))); auto. rewrite Hc, app_length. simpl. lia.
    - intros a (H0 & H1 & H2). split; [split; [exact H0|split]|].
      + intros q Hq Hl. destruct (Ht q Hq Hl). auto.
      + intros c Hin. destruct (H2 c) as [x [Hx Hs]]. rewrite Hk. apply in_or_app; auto. exists x. split; auto.
        unfold lits_of in *. rewrite Hc, app_nth1 in Hx; auto. apply (proj2 Bd c Hin).
      + destruct (H2 (length (cls s))) as [x [Hx Hs]]. rewrite Hk. apply in_or_app. simpl; auto.
        unfold lits_of in Hx. rewrite Hc, app_nth2, Nat.sub_diag in Hx by lia. exists x. auto.
  Qed.
  Definition DbInv (s : state) : Prop := bound s /\ (forall a, holds a s -> models a (axioms (log s))).

  (* a step that adds no axiom and from whose result the earlier root literals and live clauses can be read back *)
  Definition dbstep (s s' : state) : Prop :=
    bound s -> axioms (log s') = axioms (log s) /\ (forall a, holds a s' -> holds a s) /\ bound s'.
  Lemma dbstep_refl : forall s, dbstep s s.
  Proof. intros. unfold dbstep. auto. Qed.
  Lemma dbstep_trans : forall s1 s2 s3, dbstep s1 s2 -> dbstep s2 s3 -> dbstep s1 s3.
  Proof.
    intros s1 s2 s3 H12 H23 B1. destruct (H12 B1) as (A1 & A2 & A3). destruct (H23 A3) as (C1 & C2 & C3).
    split. congruence. split; auto.
  Qed.
  Lemma dbstep_inv : forall s s', dbstep s s' -> DbInv s -> DbInv s'.
  Proof. intros s s' H [D1 D2]. destruct (H D1) as (A1 & A2 & A3). split; auto. intros a Ha. rewrite A1. apply D2. auto. Qed.

  (* generic sufficient condition *)
  Lemma dbstep_frame : forall (s s' : state),
    (bound s -> axioms (log s') = axioms (log s)) ->
    (bound s -> forall q, In q (trail s) -> lvl s q = 0 -> In q (trail s') /\ lvl s' q = 0) ->
    (bound s -> forall c, In c (constrs s) -> In c (constrs s')) ->
    (bound s -> forall c l, In c (constrs s) -> In l (lits_of s' c) -> In l (lits_of s c)) ->
    (bound s -> bound s') ->
    dbstep s s'.
  Proof.
    intros s s' H1 H2 H3 H4 H5 B. split; auto. split; auto.
    intros a (A1 & A2 & A3). split; auto. split.
    - intros q Hq Hl. destruct (H2 B q Hq Hl) as [G1 G2]. apply A2; auto.
    - intros c Hc. destruct (A3 c (H3 B c Hc)) as [l [Hl Hs]]. exists l. split; [eapply H4; eauto|exact Hs].
  Qed.

  Lemma pstep_dbstep : forall s s', pstep s s' -> dbstep s s'.
  Proof.
    intros s s' (A1 & A2 & A3 & A4 & A5 & [e A6] & A7 & A8 & A9 & A10 & _). apply dbstep_frame; intros B.
    - now rewrite A1.
    - intros q Hq Hl. split. rewrite A6. apply in_or_app; auto. unfold lvl in *. rewrite (proj1 (A10 q Hq)); auto.
    - intros c Hc. now rewrite A9.
    - intros c l _ Hl. eapply Permutation_in; [apply A7|exact Hl].
    - apply (bound_same s s'); auto. lia.
  Qed.

  Lemma same_db_dbstep : forall (s s' : state), axioms (log s') = axioms (log s) -> trail s' = trail s -> level s' = level s ->
    constrs s' = constrs s -> cls s' = cls s -> dbstep s s'.
  Proof.
    intros s s' H1 H2 H3 H4 H5. apply dbstep_frame; intros B; auto.
    - intros q Hq Hl. rewrite H2. unfold lvl in *. rewrite H3. auto.
    - intros c Hc. now rewrite H4.
    - intros c l _ Hl. unfold lits_of in *. now rewrite H5 in Hl.
    - apply (bound_same s s'); auto. rewrite H5. lia.
  Qed.

  (* sat_core::record: the earlier database can be read back; a recorded clause whose head was unassigned (alone only at
     root level) is implied by the new one *)
  Lemma record_db : forall (s : state) k lits, Inv T s -> bound s ->
    bound (record sort s k lits) /\
    forall a, holds a (record sort s k lits) -> holds a s /\
      (forall l0 tail, lits = l0 :: tail -> value_lit s l0 = LU -> fst l0 < length (assigns s) ->
                       (tail = [] -> trail_lim s = []) -> sat_clause a lits).
  Proof.
    intros s k lits I Bd. destruct (record_keeps T sort s k lits I) as [_ Hk].
    assert (Ht : forall q, In q (trail s) -> lvl s q = 0 -> In q (trail (record sort s k lits)) /\ lvl (record sort s k lits) q = 0).
    { intros q Hq Hl. destruct (Hk q Hq). split; auto. congruence. }
    destruct (record_store sort sort_perm s k lits) as [(Hlen & Hc & Hcs)|(ls & Hp & Hc & Hcs)].
    - split. apply (bound_same s _); auto. rewrite Hc. lia.
      intros a (H0 & H1 & H2). split.
      + split; auto. split. intros q Hq Hl. destruct (Ht q Hq Hl); auto.
        intros c Hin. unfold lits_of in *. rewrite <- Hc. apply H2. rewrite Hcs. exact Hin.
      + intros l0 tail -> Hu Hr Hroot. destruct tail; [|simpl in Hlen; lia]. exists l0. split. simpl; auto.
        destruct (record_head sort s k l0 [] Hu) as [Hin Hl]. rewrite (i_len_level T s (proj1 I)). exact Hr.
        apply H1; auto. rewrite Hl. unfold decision_level. now rewrite (Hroot eq_refl).
    - destruct (holds_push s _ ls Bd Hc Hcs Ht) as [Bd' H]. split; auto. intros a Ha. destruct (H a Ha) as [G1 G2]. split; auto.
      intros. eapply sat_clause_perm; eauto.
  Qed.
  Lemma record_dbstep : forall (s : state) k lits, Inv T s -> k <> 4 -> k <> 1 -> dbstep s (record sort s k lits).
  Proof.
    intros s k lits I Hk4 Hk1 Bd. destruct (record_db s k lits I Bd) as [Bd' H]. split.
    - rewrite (record_log sort s k lits). apply axioms_cons_other; auto.
    - split; auto. intros a Ha. apply (H a Ha).
  Qed.

  Lemma pop_until_dbstep : forall fuel bt (s : state), Inv T s -> prop_q s = [] -> dbstep s (pop_until_f th_pop fuel bt s).
  Proof.
    intros fuel bt s I Hq. destruct (pop_until_inv T th_pop fuel bt s I Hq) as (_ & B & _).
    destruct B as (B1 & B2 & B3 & B4 & B5 & B6 & B7 & B8).
    apply dbstep_frame; intros Bd.
    - now rewrite B1.
    - intros q Hq0 Hl. destruct (pop_until_keeps T th_pop fuel bt s q I Hq Hq0 ltac:(lia)) as [G1 G2]. split; auto. congruence.
    - intros c Hc. now rewrite B4.
    - intros c l _ Hl. unfold lits_of in *. now rewrite B2 in Hl.
    - apply (bound_same s _); auto. rewrite B2. lia.
  Qed.

  Lemma abr_dbstep : forall (s : state) cnfl, Inv T s -> conflicting T s cnfl ->
    dbstep s (analyze_backjump_record sort th_pop s cnfl).
  Proof.
    intros s cnfl I Hc. unfold analyze_backjump_record.
    destruct (analyze s cnfl) as [[s1 lits] bt] eqn:Ea.
    destruct (analyze_spec T s cnfl s1 lits bt I Hc Ea) as [C1 C2 C3 C4 C5 C6 C7 C8 C9 C10 C11 C12 C13 C14 C15 C16 C17].
    unfold pop_until.
    destruct (pop_until_inv T th_pop (decision_level s1) bt s1 C1 C2) as (I3 & _).
    eapply dbstep_trans; [|eapply dbstep_trans; [apply (pop_until_dbstep (decision_level s1) bt s1 C1 C2)|]].
    - apply dbstep_frame; intros Bd.
      + now rewrite C3.
      + intros q Hq0 Hl. destruct (C14 q Hq0 ltac:(destruct Hc as (_ & Hdl & _); lia)) as [G1 G2]. split; auto. congruence.
      + intros c Hc0. now rewrite C9.
      + intros c l _ Hl. unfold lits_of in *. now rewrite C4 in Hl.
      + apply (bound_same s s1); auto. rewrite C4. lia.
    - apply record_dbstep; auto; discriminate.
  Qed.

  Lemma lemmas_dbstep : forall lemmas (s : state), Inv T s -> Forall (lemma_ok T s) lemmas ->
    dbstep s (fold_left (fun s l => record sort s 2 l) lemmas s).
  Proof.
    induction lemmas as [|lem t IH]; intros s I Hl; simpl. apply dbstep_refl.
    inversion Hl; subst. pose proof (record_lemma_inv T sort sort_perm s lem I H1) as I1.
    pose proof (record_tstep T sort s lem I) as T1.
    eapply dbstep_trans. apply (record_dbstep s 2 lem I); discriminate.
    apply IH; auto. eapply Forall_impl; [|exact H2]. intros a Ha. eapply lemma_ok_tstep; eauto.
  Qed.
  Lemma apply_theory_dbstep : forall (s : state) r s' cf, Inv T s -> th_result_ok T s r -> apply_theory sort s r = (s', cf) -> dbstep s s'.
  Proof.
    intros s [[ts lemmas] cf0] s' cf I [H1 H2] E. unfold apply_theory in E. inversion E; subst. simpl in *.
    eapply dbstep_trans. 2: { apply lemmas_dbstep. apply set_thst_inv; auto. exact H1. }
    apply same_db_dbstep; auto.
  Qed.

  Lemma enqueue_dbstep : forall (s : state) p c s' b, Inv0 T s -> enqueue s p c = (s', b) -> dbstep s s'.
  Proof.
    intros s p c s' b I E. destruct (enqueue_frame _ _ _ _ _ E) as (_ & _ & B3 & _ & _ & [e B6] & B7 & B8 & _).
    apply dbstep_frame; intros Bd.
    - now rewrite B3.
    - intros q Hq0 Hl. split. rewrite B6. apply in_or_app; auto. unfold lvl in *.
      rewrite (proj1 (enqueue_level T s I s p c s' b eq_refl eq_refl E q Hq0)). exact Hl.
    - intros c0 Hc. now rewrite B8.
    - intros c0 l _ Hl. unfold lits_of in *. now rewrite B7 in Hl.
    - apply (bound_same s s'); auto. rewrite B7. lia.
  Qed.

  (* the part of the rule that concerns propagate(): no phase adds an axiom, from each the earlier root literals and live
     clauses can be read back *)
  Lemma db_jprop : jprop T sort th_propagate th_check th_pop DbInv DbInv.
  Proof.
    constructor.
    - intros s ts I D _ _. revert D. apply dbstep_inv, same_db_dbstep; auto.
    - intros s ts cnfl I D _ _. revert D. apply dbstep_inv, same_db_dbstep; auto.
    - intros s p q s2 I D Eq Ev. destruct (bcp_spec T s p q s2 None I Eq Ev) as (_ & _ & _ & _ & _ & P2 & _).
      revert D. apply dbstep_inv. eapply dbstep_trans; [|apply pstep_dbstep; exact P2]. apply same_db_dbstep; auto.
    - intros s p q s2 c rest I D Eq Ev. destruct (bcp_spec T s p q s2 _ I Eq Ev) as (_ & _ & _ & _ & _ & P2 & _).
      revert D. apply dbstep_inv. eapply dbstep_trans; [|eapply dbstep_trans; [apply pstep_dbstep; exact P2|]]; apply same_db_dbstep; auto.
    - intros s p s3 I D Hp Hpl Ea. revert D. apply dbstep_inv. apply (apply_theory_dbstep s _ s3 None I (thp_ok s p I Hp Hpl) Ea).
    - intros s p s3 cnfl I D Hp Hpl Ea. revert D. apply dbstep_inv.
      eapply dbstep_trans; [apply (apply_theory_dbstep s _ s3 _ I (thp_ok s p I Hp Hpl) Ea)|]. apply same_db_dbstep; auto.
    - intros s cl I D Hc. revert D. apply dbstep_inv, abr_dbstep; auto.
  Qed.

  (* operations that add an axiom *)
  Lemma root_lvl0 : forall (s : state) q, Inv T s -> root_level s = true -> In q (trail s) -> lvl s q = 0.
  Proof.
    intros s q I Hr Hq. destruct (root_decisions T s (proj1 I) Hr) as [Hl _].
    pose proof (lvl_le_dl T s q (proj1 I) Hq) as H. unfold decision_level in H. rewrite Hl in H. simpl in H. lia.
  Qed.
  Lemma holds_true_lit : forall a (s : state) x, Inv T s -> root_level s = true -> holds a s -> value_lit s x = LT -> sat_lit a x.
  Proof.
    intros a s x I Hr (H0 & H1 & _) Hv. destruct (value_lit_true T s x (proj1 I) Hv) as [Hin| ->]; auto.
    apply H1; auto. apply root_lvl0; auto.
  Qed.

  Lemma nc_filter_none : forall (s : state) l p acc, nc_filter s p l acc = None ->
    exists x, In x l /\ (value_lit s x = LT \/ exists q, (p = Some q \/ In q l) /\ x = lneg q).
  Proof.
    intros s. induction l as [|x t IH]; intros p acc E; simpl in E. discriminate.
    destruct (is_true s x || opt_lit_eqb x (option_map lneg p)) eqn:E1.
    - apply orb_true_iff in E1. destruct E1 as [E1|E1].
      + exists x. split. simpl; auto. left. now apply is_true_iff.
      + destruct p as [q|]; simpl in E1; [|discriminate]. apply lit_eqb_eq in E1. exists x. split. simpl; auto.
        right. exists q. auto.
    - destruct (negb (is_false s x) && negb (opt_lit_eqb x p)).
      + destruct (IH _ _ E) as [y [Hy Hc]]. exists y. split. simpl; auto. destruct Hc as [Hc|[q [[Hq|Hq] Ey]]]; auto.
        * inversion Hq; subst. right. exists q. split; auto. right. simpl; auto.
        * right. exists q. split; auto. right. simpl; auto.
      + destruct (IH _ _ E) as [y [Hy Hc]]. exists y. split. simpl; auto. destruct Hc as [Hc|[q [[Hq|Hq] Ey]]]; auto.
        * right. exists q. auto.
        * right. exists q. split; auto. right. simpl; auto.
  Qed.

  Lemma new_clause_db : forall (s : state) lits s', Inv T s -> DbInv s -> root_level s = true ->
    (forall l, In l lits -> fst l < length (assigns s)) -> new_clause sort s lits = (s', true) -> DbInv s'.
  Proof.
    intros s lits s' I [Bd D] Hroot Hr E.
    destruct (new_clause_inv T sort sort_perm sort_sorted s lits s' true I Hroot Hr E) as (I' & _ & Hlog & _).
    unfold new_clause in E. set (sh := hook s 4 lits) in *.
    assert (Ih : Inv T sh). { apply hook_inv; auto. split; [discriminate|intros [H|H]; discriminate]. }
    assert (Hax : forall a, sat_clause a lits -> models a (axioms (log s)) -> models a (axioms (log s'))).
    { intros a Hs Hm. rewrite Hlog. intros c Hc. destruct (axioms_cons_ax 4 lits (log s) (or_introl eq_refl)) as [Hi _].
      apply Hi in Hc. destruct Hc as [<-|Hc]; auto. }
    assert (Hsh : forall a, holds a sh -> holds a s) by (intros a H; exact H).
    destruct (nc_filter sh None (sort var_lt lits) []) as [ls|] eqn:En.
    - destruct (nc_filter_spec sh _ None [] ls En (sort_sorted lits)) as (R1 & R2 & R3 & _).
      { split; [constructor|split; [|split]]; try (intros; discriminate); intros y x []. }
      assert (Hsub : forall x, In x ls -> In x lits).
      { intros x Hx. destruct (R2 x Hx) as [[]|[H _]]. eapply Permutation_in; [apply sort_perm|exact H]. }
      destruct ls as [|l0 [|l1 r]]; [inversion E| |].
      + (* unit: enqueued at root level *)
        destruct (R2 l0 (or_introl eq_refl)) as [[]|[_ Hu]].
        unfold enqueue in E. rewrite Hu in E. inversion E; subst. clear E. split.
        * apply (bound_same s _); auto.
        * intros a (H0 & H1 & H2). apply Hax.
          -- exists l0. split. apply Hsub; simpl; auto. apply H1. simpl; auto. unfold lvl. simpl.
             rewrite nth_upd_eq. destruct (root_decisions T sh (proj1 Ih) Hroot) as [Hl _]. unfold decision_level. now rewrite Hl.
             change (fst l0 < length (level s)). rewrite (i_len_level T s (proj1 I)). apply Hr. apply Hsub. simpl; auto.
          -- apply D. split; auto. split.
             ++ intros q Hq Hl. apply H1. simpl; auto. unfold lvl in *. simpl.
                destruct (value_lit_undef T sh l0 (proj1 Ih) Hu) as [_ Hn]. rewrite nth_upd_neq; auto.
                intros Eq. apply Hn. rewrite Eq. now apply in_map.
             ++ intros c Hc. apply H2. exact Hc.
      + (* a new live clause *)
        destruct (clause_new sh (l0 :: l1 :: r)) as [s1 id] eqn:Ec. inversion E; subst. clear E.
        destruct (clause_new_frame _ _ _ _ Ec) as (A1 & A2 & A3 & A4 & A5 & A6 & A7 & A8 & A9 & A10).
        assert (Hcls : cls s1 = cls s ++ [l0 :: l1 :: r] /\ id = length (cls s)).
        { unfold clause_new in Ec. inversion Ec; subst; simpl; auto. }
        destruct Hcls as [Hcls Hid].
        destruct (holds_push s (set_constrs s1 (constrs s1 ++ [id])) (l0 :: l1 :: r) Bd Hcls) as [Bd' H].
        { simpl. now rewrite A8, Hid. }
        { intros q Hq Hl. simpl. rewrite A3. unfold lvl in *. simpl. now rewrite A9. }
        split; auto. intros a Ha. destruct (H a Ha) as [G1 [x [Hx Hs]]]. apply Hax; auto. exists x. auto.
    - (* satisfied at root, or a tautology *)
      inversion E; subst. clear E. split. exact Bd. intros a Ha. apply Hax; [|apply D; exact Ha].
      destruct (nc_filter_none sh _ _ _ En) as [x [Hx Hc]].
      assert (HxL : forall y, In y (sort var_lt lits) -> In y lits) by (intros y Hy; eapply Permutation_in; [apply sort_perm|exact Hy]).
      destruct Hc as [Hv|[q [[Hq|Hq] ->]]].
      + exists x. split; auto. apply (holds_true_lit a sh x Ih Hroot Ha Hv).
      + discriminate.
      + destruct (sat_lit_dec a q) as [Hs|Hs]; [exists q|exists (lneg q)]; auto.
  Qed.

  Notation propagate := (propagate sort th_propagate th_check th_pop FUEL).
  Notation assume := (assume sort th_propagate th_check th_push th_pop FUEL).
  Notation next := (next sort th_propagate th_check th_pop FUEL).
  Notation check_loop := (check_loop sort th_propagate th_check th_push th_pop FUEL).
  Notation step := (step sort th_propagate th_check th_push th_pop FUEL).
  Notation run := (run sort th_propagate th_check th_push th_pop FUEL).
  Notation run_ok := (run_ok sort th_propagate th_check th_push th_pop FUEL).

  Lemma pop_dbstep : forall (s : state), Inv T s -> prop_q s = [] -> root_level s = false -> dbstep s (pop th_pop s).
  Proof.
    intros s I Hq Hnr. destruct (root_level_false s Hnr) as [Hdl _].
    pose proof (pop_until_dbstep 1 (decision_level s - 1) s I Hq) as H. simpl in H.
    destruct (Nat.ltb_spec (decision_level s - 1) (decision_level s)); [exact H|lia].
  Qed.

  (* the no-good of next(): a new axiom, represented by the recorded clause (or by the unit literal at root level) *)
  Lemma nogood_db : forall (s : state), Inv T s -> DbInv s -> prop_q s = [] -> next_ok s = true -> root_level s = false ->
    DbInv (record sort (pop th_pop s) 1 (map lneg (decisions s))).
  Proof.
    intros s I Dbs Hq Hok Hnr. destruct (nogood_facts T th_pop s I Hq Hok Hnr) as (d & ds & Ed & Hun & Hrange & _ & _ & Hroot & _).
    destruct (pop_inv T th_pop s I Hq) as (I1 & _). destruct (dbstep_inv _ _ (pop_dbstep s I Hq Hnr) Dbs) as [Bd1 D1].
    destruct (record_db (pop th_pop s) 1 (map lneg (decisions s)) I1 Bd1) as [Bd' H]. split; auto.
    intros a Ha. destruct (H a Ha) as [G1 G2]. rewrite (record_log sort). intros c Hc.
    apply (proj1 (axioms_cons_ax 1 _ _ (or_intror eq_refl))) in Hc. destruct Hc as [<-|Hc]; [|apply D1; auto].
    apply (G2 (lneg d) (map lneg ds)); auto. now rewrite Ed. exact (Hrange d (or_introl eq_refl)).
    intros E. apply Hroot. destruct ds; [reflexivity|discriminate].
  Qed.

  Lemma simplify_loop_constrs : forall cs (s : state) kept c, In c (constrs (simplify_loop s cs kept)) -> In c (rev kept ++ cs).
  Proof.
    induction cs as [|x t IH]; intros s kept c H; simpl in *. now rewrite app_nil_r.
    destruct (simp_go s (lits_of s x) (lits_of s x) []) as [sat ls]. destruct sat.
    - apply IH in H. apply in_app_or in H. apply in_or_app. simpl. tauto.
    - apply IH in H. simpl in H. rewrite <- app_assoc in H. exact H.
  Qed.
  Lemma simplify_loop_constrs_nodup : forall cs (s : state) kept, NoDup (rev kept ++ cs) -> NoDup (constrs (simplify_loop s cs kept)).
  Proof.
    induction cs as [|x t IH]; intros s kept H; simpl. now rewrite app_nil_r in H.
    destruct (simp_go s (lits_of s x) (lits_of s x) []) as [sat ls]. destruct sat.
    - apply IH. apply NoDup_remove in H. apply H.
    - apply IH. simpl. rewrite <- app_assoc. exact H.
  Qed.
  Lemma simplify_loop_db : forall (s : state), Inv T s -> root_level s = true -> DbInv s -> DbInv (simplify_loop s (constrs s) []).
  Proof.
    intros s I Hr [Bd D]. destruct (simplify_loop_same (constrs s) s []) as (C1 & _ & C3 & _ & _ & _ & _ & C8 & C9). split.
    - split. apply simplify_loop_constrs_nodup. apply Bd. intros c Hc. rewrite C9. apply (proj2 Bd). apply simplify_loop_constrs in Hc. exact Hc.
    - intros a (H0 & H1 & H2). rewrite C1. apply D. rewrite C3 in H1.
      assert (Ht : forall q, In q (trail s) -> sat_lit a q).
      { intros q Hq. apply H1; auto. unfold lvl. rewrite C8. apply (root_lvl0 s q I Hr Hq). }
      pose proof (simplify_loop_models T s (proj1 I) (constrs s) s [] eq_refl a H0 Ht) as Hiff. simpl in Hiff.
      split; auto. split. intros q Hq _. auto. apply Hiff. exact H2.
  Qed.

  Lemma db_joint : joint T sort th_propagate th_check th_pop DbInv DbInv.
  Proof.
    constructor.
    - exact db_jprop.
    - intros s p ts I D Hq. revert D. apply dbstep_inv, same_db_dbstep; auto.
    - intros s p c s' b I D E. revert D. apply dbstep_inv. apply (enqueue_dbstep s p c s' b (proj1 I) E).
    - intros s I D Hq Hnr. revert D. apply dbstep_inv, pop_dbstep; auto.
    - intros s I D. apply nogood_db; auto.
    - intros s I [Bd D]. split. apply (bound_same s _); auto. intros a (H0 & H1 & H2). apply D. split; auto. split; auto.
      intros q Hq Hl. apply H1; auto. unfold lvl in *. simpl. rewrite app_nth1; auto.
      rewrite (i_len_level T s (proj1 I)). apply (i_range T s (proj1 I) q Hq).
    - intros s l s' I D Hroot Hr E. eapply new_clause_db; eauto.
    - auto.
  Qed.

  (* whole histories: as long as no operation has answered "inconsistent at root" *)
  Theorem run_db : forall ops o (s : state), Inv T s -> DbInv s -> run_ok (ops ++ [o]) s = true -> ub (run ops s) = false -> DbInv (run ops s).
  Proof.
    intros ops o s I D Hok Hub.
    apply (run_rule T sort sort_perm sort_sorted th_propagate th_check th_push th_pop FUEL thp_ok thc_ok DbInv DbInv db_joint ops o s I D Hok Hub).
    intros _ s1 I1 D1 Hr1 _. apply simplify_loop_db; auto.
  Qed.

  Lemma init_db : forall ts : TS, DbInv (init ts).
  Proof.
    intros ts. split. split. constructor. intros c []. intros a (H0 & _). unfold init, axioms, log_clauses. simpl. intros c [<-|[]].
    apply sat_clause_single. exact H0.
  Qed.
End Db.

Section DbClosed.
  Context {TS : Type}.
  Variables (T : asg -> Prop) (sort : (lit -> lit -> bool) -> list lit -> list lit).
  Variables (thp : TS -> list lbool -> nat -> lit -> TS * list (list lit) * option (list lit))
            (thc : TS -> list lbool -> nat -> TS * list (list lit) * option (list lit)) (thpush thpop : TS -> TS) (FUEL : nat).
  Hypothesis Hsort : sort_contract sort.
  Hypothesis Hth : theory_contract T thp thc.
  Notation run := (run sort thp thc thpush thpop FUEL).
  Notation run_ok := (run_ok sort thp thc thpush thpop FUEL).

  (* the database + root literals imply every axiom; in particular every clause ever given to new_clause *)
  Theorem c07_database_complete : forall ops o ts, run_ok (ops ++ [o]) (init ts) = true -> ub (run ops (init ts)) = false ->
    forall a, a 0 = false ->
    (forall q, In q (trail (run ops (init ts))) -> nth (fst q) (level (run ops (init ts))) 0 = 0 -> sat_lit a q) ->
    (forall c, In c (constrs (run ops (init ts))) -> sat_clause a (lits_of (run ops (init ts)) c)) ->
    models a (axioms (log (run ops (init ts)))).
  Proof.
    intros ops o ts Hok Hub a H0 H1 H2.
    destruct (run_db T sort Hsort thp thc thpush thpop FUEL Hth ops o (init ts) (init_inv T ts) (init_db ts) Hok Hub) as [_ D].
    apply D. split; auto.
  Qed.

  (* what is left of (v): if the assignment is total and every live clause has a true literal, every added clause is satisfied *)
  Definition asg_of (s : @state TS) : asg := fun v => match value_var s v with LT => true | _ => false end.
  Theorem c07_total_assignment_satisfies_added_clauses_partial : forall ops o ts,
    run_ok (ops ++ [o]) (init ts) = true -> ub (run ops (init ts)) = false ->
    (forall c, In c (constrs (run ops (init ts))) -> exists l, In l (lits_of (run ops (init ts)) c) /\ value_lit (run ops (init ts)) l = LT) ->
    forall c, In c (added (log (run ops (init ts)))) -> sat_clause (asg_of (run ops (init ts))) c.
  Proof.
    intros ops o ts Hok Hub Hlive c Hc. set (s := run ops (init ts)) in *.
    assert (Hok1 : run_ok ops (init ts) = true) by (apply (run_ok_app sort thp thc thpush thpop FUEL ops o); exact Hok).
    pose proof (reach_inv T sort thp thc thpush thpop FUEL Hsort Hth ops ts Hok1 Hub) as I. fold s in I.
    assert (Hval : forall l, value_lit s l = LT -> sat_lit (asg_of s) l).
    { intros [v b] Hv. unfold sat_lit, asg_of, value_lit in *. simpl in *. destruct (value_var s v), b; auto; discriminate. }
    assert (M : models (asg_of s) (axioms (log s))).
    { apply (c07_database_complete ops o ts Hok Hub).
      - unfold asg_of. fold s. rewrite (value_var_0 T s (proj1 I)). reflexivity.
      - intros q Hq _. apply Hval. apply (value_lit_in_trail T s q (proj1 I) Hq).
      - intros c0 Hc0. destruct (Hlive c0 Hc0) as [l [Hl Hv]]. exists l. split; auto. }
    apply M. unfold added, axioms in *. destruct Hc as [<-|Hc]. simpl; auto. right.
    unfold log_clauses in *. apply in_map_iff in Hc. destruct Hc as [e [<- He]]. apply in_map. apply filter_In in He.
    destruct He as [He1 He2]. apply filter_In. split; auto. unfold kind_in in *. simpl in *.
    apply orb_true_iff in He2. destruct He2 as [He2|He2]. rewrite He2. reflexivity. discriminate.
  Qed.
End DbClosed.

