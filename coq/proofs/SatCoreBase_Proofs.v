(* Lemmas about the vocabulary of smt/SatCoreBase.v: vectors-as-lists, literals, semantics. *)
From Coq Require Import List Arith Bool Lia Permutation Sorted.
From ORatio Require Import smt.SatCoreBase.
Import ListNotations.

Lemma upd_length : forall A (l : list A) i v, length (upd l i v) = length l.
Proof. induction l as [|x t IH]; intros [|i] v; simpl; auto. Qed.

Lemma nth_upd_eq : forall A (l : list A) i v d, i < length l -> nth i (upd l i v) d = v.
Proof. induction l as [|x t IH]; intros [|i] v d H; simpl in *; try lia; auto. apply IH. lia. Qed.

Lemma nth_upd_neq : forall A (l : list A) i j v d, i <> j -> nth j (upd l i v) d = nth j l d.
Proof.
  induction l as [|x t IH]; intros [|i] [|j] v d H; simpl; auto; try congruence.
Qed.

Lemma upd_oob : forall A (l : list A) i v, length l <= i -> upd l i v = l.
Proof. induction l as [|x t IH]; intros [|i] v H; simpl in *; auto; try lia. f_equal. apply IH. lia. Qed.

Lemma nth_upd : forall A (l : list A) i j v d,
  nth j (upd l i v) d = if Nat.eqb i j then (if Nat.ltb i (length l) then v else nth j l d) else nth j l d.
Proof.
  intros. destruct (Nat.eqb_spec i j) as [->|Hn].
  - destruct (Nat.ltb_spec j (length l)).
    + apply nth_upd_eq; auto.
    + now rewrite upd_oob.
  - apply nth_upd_neq; auto.
Qed.

Lemma nth_app_l : forall A (l l' : list A) i d, i < length l -> nth i (l ++ l') d = nth i l d.
Proof. intros. apply app_nth1. auto. Qed.

(* appending copies of the default does not change what nth reads *)
Lemma nth_app_default : forall A (l e : list A) d i, (forall x, In x e -> x = d) -> nth i (l ++ e) d = nth i l d.
Proof.
  intros A l e d i He. destruct (Nat.lt_ge_cases i (length l)). now rewrite app_nth1.
  rewrite app_nth2 by auto. rewrite (nth_overflow l) by auto. destruct (nth_in_or_default (i - length l) e d) as [Hin|E]; auto.
Qed.

Lemma list_ext : forall A (l1 l2 : list A) d, length l1 = length l2 -> (forall i, i < length l1 -> nth i l1 d = nth i l2 d) -> l1 = l2.
Proof.
  induction l1 as [|x t IH]; intros [|y u] d Hl H; simpl in *; try discriminate; auto.
  f_equal.
  - apply (H 0). lia.
  - apply (IH u d). lia. intros i Hi. apply (H (S i)). lia.
Qed.

Lemma skipn_skipn' : forall A (l : list A) a b, skipn a (skipn b l) = skipn (a + b) l.
Proof.
  intros A l a b. revert l. induction b as [|b IH]; intros l. now rewrite Nat.add_0_r.
  destruct l as [|x t]. now rewrite !skipn_nil. rewrite Nat.add_succ_r. simpl. apply IH.
Qed.
Lemma app_suffix_len : forall A (a b c d : list A), a ++ b = c ++ d -> length b = length d -> b = d.
Proof.
  intros A a. induction a as [|x a IH]; intros b c d E Hl.
  - destruct c as [|y c]; auto. exfalso. simpl in E. subst b. simpl in Hl. rewrite app_length in Hl. lia.
  - destruct c as [|y c].
    + exfalso. simpl in E. subst d. simpl in Hl. rewrite app_length in Hl. lia.
    + simpl in E. inversion E. eapply IH; eauto.
Qed.

Lemma memv_In : forall x l, memv x l = true <-> In x l.
Proof.
  induction l as [|y t IH]; simpl. split; [discriminate|tauto].
  rewrite orb_true_iff, IH, Nat.eqb_eq. split; intros [H|H]; auto.
Qed.
Lemma memv_false : forall x l, memv x l = false <-> ~ In x l.
Proof. intros. rewrite <- memv_In. destruct (memv x l); split; congruence. Qed.

Lemma lit_eqb_eq : forall p q, lit_eqb p q = true <-> p = q.
Proof.
  intros [v a] [w b]. unfold lit_eqb. simpl. rewrite andb_true_iff, Nat.eqb_eq, eqb_true_iff.
  split. intros [-> ->]; auto. intros H; inversion H; auto.
Qed.
Lemma lit_eqb_refl : forall p, lit_eqb p p = true.
Proof. intros. apply lit_eqb_eq. auto. Qed.
Lemma lit_eqb_neq : forall p q, lit_eqb p q = false <-> p <> q.
Proof. intros. rewrite <- lit_eqb_eq. destruct (lit_eqb p q); split; congruence. Qed.
Lemma lit_eq_dec : forall p q : lit, {p = q} + {p <> q}.
Proof. intros. destruct (lit_eqb p q) eqn:E. left. now apply lit_eqb_eq. right. now apply lit_eqb_neq. Qed.

Lemma lneg_invol : forall p, lneg (lneg p) = p.
Proof. intros [v b]. unfold lneg. simpl. now rewrite negb_involutive. Qed.
Lemma lneg_neq : forall p, lneg p <> p.
Proof. intros [v b] H. unfold lneg in H. simpl in H. inversion H. destruct b; discriminate. Qed.
Lemma lneg_var : forall p, fst (lneg p) = fst p.
Proof. auto. Qed.
Lemma lneg_inj : forall p q, lneg p = lneg q -> p = q.
Proof. intros. rewrite <- (lneg_invol p), <- (lneg_invol q). now f_equal. Qed.
Lemma same_var : forall p q : lit, fst p = fst q -> q = p \/ q = lneg p.
Proof. intros [v a] [w b] H. simpl in H. subst. unfold lneg. simpl. destruct a, b; auto. Qed.

Lemma index_inj : forall p q, index p = index q -> p = q.
Proof.
  intros [v a] [w b]. unfold index. simpl. intros H.
  assert (v = w) by (destruct a, b; lia). subst. f_equal. destruct a, b; auto; lia.
Qed.
Lemma index_lt : forall p n, fst p < n -> index p < 2 * n.
Proof. intros [v b] n H. unfold index. simpl in *. destruct b; lia. Qed.

Lemma sat_litb_iff : forall a p, sat_litb a p = true <-> sat_lit a p.
Proof. intros. unfold sat_litb, sat_lit. apply eqb_true_iff. Qed.

Lemma sat_lit_neg : forall a p, sat_lit a (lneg p) <-> ~ sat_lit a p.
Proof.
  intros a [v b]. unfold sat_lit, lneg. simpl. destruct (a v), b; simpl; split; intros; try congruence; auto.
Qed.
Lemma sat_lit_dec : forall a p, sat_lit a p \/ sat_lit a (lneg p).
Proof. intros a [v b]. unfold sat_lit, lneg. simpl. destruct (a v), b; auto. Qed.

Lemma sat_clauseb_iff : forall a c, sat_clauseb a c = true <-> sat_clause a c.
Proof.
  intros. unfold sat_clauseb, sat_clause. rewrite existsb_exists.
  split; intros [p [H1 H2]]; exists p; split; auto; now apply sat_litb_iff.
Qed.

Lemma sat_clause_incl : forall a c d, incl c d -> sat_clause a c -> sat_clause a d.
Proof. intros a c d H [p [H1 H2]]. exists p. auto. Qed.
Lemma sat_clause_perm : forall a c d, Permutation c d -> sat_clause a c -> sat_clause a d.
Proof. intros. eapply sat_clause_incl; eauto. intros x Hx. eapply Permutation_in; eauto. Qed.
Lemma sat_clause_cons : forall a p c, sat_clause a (p :: c) <-> sat_lit a p \/ sat_clause a c.
Proof.
  intros. split.
  - intros [q [[->|H1] H2]]; auto. right. exists q; auto.
  - intros [H|[q [H1 H2]]]. exists p; simpl; auto. exists q; simpl; auto.
Qed.
Lemma sat_clause_app : forall a c d, sat_clause a (c ++ d) <-> sat_clause a c \/ sat_clause a d.
Proof.
  intros. split.
  - intros [q [H1 H2]]. apply in_app_or in H1. destruct H1; [left|right]; exists q; auto.
  - intros [[q [H1 H2]]|[q [H1 H2]]]; exists q; split; auto; apply in_or_app; auto.
Qed.
Lemma sat_clause_nil : forall a, ~ sat_clause a [].
Proof. intros a [q [[] _]]. Qed.
Lemma sat_clause_single : forall a p, sat_clause a [p] <-> sat_lit a p.
Proof. intros. rewrite sat_clause_cons. split; [intros [H|H]; auto; now apply sat_clause_nil in H | auto]. Qed.

Lemma models_app : forall a F G, models a (F ++ G) <-> models a F /\ models a G.
Proof.
  intros. unfold models. split.
  - intros H. split; intros c Hc; apply H; apply in_or_app; auto.
  - intros [H1 H2] c Hc. apply in_app_or in Hc. destruct Hc; auto.
Qed.
Lemma models_cons : forall a c F, models a (c :: F) <-> sat_clause a c /\ models a F.
Proof.
  intros. unfold models. split.
  - intros H. split. apply H. simpl; auto. intros d Hd. apply H. simpl; auto.
  - intros [H1 H2] d [<-|Hd]; auto.
Qed.
Lemma models_incl : forall a F G, incl F G -> models a G -> models a F.
Proof. intros a F G H HG c Hc. apply HG. auto. Qed.
Lemma models_units : forall a ls, models a (units ls) <-> forall p, In p ls -> sat_lit a p.
Proof.
  intros. unfold models, units. split.
  - intros H p Hp. apply sat_clause_single. apply H. apply in_map_iff. exists p; auto.
  - intros H c Hc. apply in_map_iff in Hc. destruct Hc as [p [<- Hp]]. apply sat_clause_single. auto.
Qed.

Lemma entails_mono : forall T F G c, incl F G -> entails T F c -> entails T G c.
Proof. intros T F G c H HF a Ta HG. apply HF; auto. eapply models_incl; eauto. Qed.
Lemma entails_incl : forall T F c d, incl c d -> entails T F c -> entails T F d.
Proof. intros T F c d H HF a Ta HG. eapply sat_clause_incl; eauto. Qed.
Lemma entails_in : forall T F c, In c F -> entails T F c.
Proof. intros T F c H a _ HF. auto. Qed.

(* resolution on one literal *)
Lemma entails_resolve : forall T F p c d,
  entails T F (p :: c) -> entails T F (lneg p :: d) -> entails T F (c ++ d).
Proof.
  intros T F p c d H1 H2 a Ta HF. specialize (H1 a Ta HF). specialize (H2 a Ta HF).
  apply sat_clause_app. apply sat_clause_cons in H1. apply sat_clause_cons in H2.
  destruct H1 as [H1|H1]; auto. destruct H2 as [H2|H2]; auto.
  apply sat_lit_neg in H2. contradiction.
Qed.

(* insertion sort is a permutation *)
Lemma ins_sorted_perm : forall A (lt : A -> A -> bool) x l, Permutation (ins_sorted lt x l) (x :: l).
Proof.
  induction l as [|y t IH]; simpl; auto.
  destruct (lt x y); auto. eapply perm_trans. apply perm_skip. apply IH. apply perm_swap.
Qed.
Lemma isort_perm : forall A (lt : A -> A -> bool) l, Permutation (isort lt l) l.
Proof.
  intros. unfold isort.
  assert (H : forall l acc, Permutation (fold_left (fun acc x => ins_sorted lt x acc) l acc) (acc ++ l)).
  { induction l0 as [|x t IH]; intros acc; simpl. now rewrite app_nil_r.
    eapply perm_trans. apply IH. eapply perm_trans. apply Permutation_app_tail. apply ins_sorted_perm.
    simpl. apply Permutation_middle. }
  apply (H l []).
Qed.

(* ... and sorts, for any strict test [lt] that decides a transitive order [R] *)
Lemma ins_sorted_sorted : forall A (lt : A -> A -> bool) (R : A -> A -> Prop),
  (forall x y, lt x y = true -> R x y) -> (forall x y, lt x y = false -> R y x) -> (forall x y z, R x y -> R y z -> R x z) ->
  forall x l, StronglySorted R l -> StronglySorted R (ins_sorted lt x l).
Proof.
  intros A lt R H1 H2 H3 x l H. induction H as [|y t Ht IH Hy]; simpl. repeat constructor.
  destruct (lt x y) eqn:E.
  - constructor. constructor; auto. constructor. auto. eapply Forall_impl; [|exact Hy]. simpl. intros z Hz. eapply H3; eauto.
  - constructor; auto. rewrite Forall_forall in *. intros z Hz.
    eapply Permutation_in in Hz; [|apply ins_sorted_perm]. destruct Hz as [<-|Hz]; auto.
Qed.
Lemma isort_sorted : forall A (lt : A -> A -> bool) (R : A -> A -> Prop),
  (forall x y, lt x y = true -> R x y) -> (forall x y, lt x y = false -> R y x) -> (forall x y z, R x y -> R y z -> R x z) ->
  forall l, StronglySorted R (isort lt l).
Proof.
  intros A lt R H1 H2 H3 l. unfold isort.
  assert (H : forall l acc, StronglySorted R acc -> StronglySorted R (fold_left (fun acc x => ins_sorted lt x acc) l acc)).
  { induction l0 as [|x t IH]; intros acc Ha; simpl; auto. apply IH. now apply ins_sorted_sorted. }
  apply H. constructor.
Qed.

Lemma erase1_spec : forall x l l', erase1 x l = Some l' -> exists a b, l = a ++ x :: b /\ l' = a ++ b /\ ~ In x a.
Proof.
  induction l as [|y t IH]; simpl; intros l' H. discriminate.
  destruct (Nat.eqb_spec x y) as [->|Hn].
  - inversion H; subst. exists [], l'. simpl. auto.
  - destruct (erase1 x t) as [r|] eqn:E; simpl in H; inversion H; subst.
    destruct (IH r eq_refl) as [a [b [H1 [H2 H3]]]]. subst.
    exists (y :: a), b. simpl. repeat split; auto. intros [H0|H0]; auto.
Qed.
