(* The query functions of lra_theory: bounds(lin) / lb(lin) / ub(lin) are exact interval arithmetic over the per-variable bounds
   (sound for every assignment within the bounds, and attained), equates(l0, l1) is exactly "the two intervals intersect" and
   never answers false when some assignment within the bounds makes the two expressions equal. *)
From Coq Require Import QArith List.
From ORatio Require Import smt.Lra smt.LraSem proofs.LraBase_Proofs proofs.LraTab_Proofs proofs.LraInv_Proofs proofs.LraRel_Proofs.
Import ListNotations.
Local Open Scope Q_scope.

Definition in_interval (z : qd) (lo hi : option qd) : Prop :=
  (forall l, lo = Some l -> qd_le l z) /\ (forall u, hi = Some u -> qd_le z u).
Definition nonempty_interval (lo hi : option qd) : Prop := forall l u, lo = Some l -> hi = Some u -> qd_le l u.

Lemma lb_le_ub_true lo hi : lb_le_ub lo hi = true <-> nonempty_interval lo hi.
Proof.
  unfold lb_le_ub, nonempty_interval. destruct lo as [l |], hi as [u |]; split; intro H; auto; try (intros; discriminate).
  - intros l' u' E1 E2. injection E1 as <-. injection E2 as <-. apply qd_leb_true. exact H.
  - apply qd_leb_true. apply H; reflexivity.
Qed.

Definition qd_max (a b : qd) : qd := if qd_leb a b then b else a.
Definition qd_min (a b : qd) : qd := if qd_leb a b then a else b.
Lemma qd_max_ge_l a b : qd_le a (qd_max a b).
Proof. unfold qd_max. destruct (qd_leb a b) eqn:E; [apply qd_leb_true; exact E | apply qd_le_refl]. Qed.
Lemma qd_max_ge_r a b : qd_le b (qd_max a b).
Proof. unfold qd_max. destruct (qd_leb a b) eqn:E; [apply qd_le_refl | apply qd_leb_false in E; apply qd_lt_le; exact E]. Qed.
Lemma qd_max_le a b c : qd_le a c -> qd_le b c -> qd_le (qd_max a b) c.
Proof. unfold qd_max. destruct (qd_leb a b); auto. Qed.
Lemma qd_min_le_l a b : qd_le (qd_min a b) a.
Proof. unfold qd_min. destruct (qd_leb a b) eqn:E; [apply qd_le_refl | apply qd_leb_false in E; apply qd_lt_le; exact E]. Qed.
Lemma qd_min_le_r a b : qd_le (qd_min a b) b.
Proof. unfold qd_min. destruct (qd_leb a b) eqn:E; [apply qd_leb_true; exact E | apply qd_le_refl]. Qed.

(* equates = the intervals have a common point (for non-empty intervals) *)
Theorem equates_iff_common_point s l0 l1 :
  nonempty_interval (lb_lin s l0) (ub_lin s l0) -> nonempty_interval (lb_lin s l1) (ub_lin s l1) ->
  (equates s l0 l1 = true <->
   exists z, in_interval z (lb_lin s l0) (ub_lin s l0) /\ in_interval z (lb_lin s l1) (ub_lin s l1)).
Proof.
  intros N0 N1. unfold equates. rewrite andb_true_iff, !lb_le_ub_true. unfold nonempty_interval in *. split.
  - intros [H10 H01].
    destruct (lb_lin s l0) as [a |] eqn:E0, (lb_lin s l1) as [b |] eqn:E1.
    + exists (qd_max a b). split; split.
      * intros l E. injection E as <-. apply qd_max_ge_l.
      * intros u E. apply qd_max_le; [apply (N0 a u); auto | apply (H10 b u); auto].
      * intros l E. injection E as <-. apply qd_max_ge_r.
      * intros u E. apply qd_max_le; [apply (H01 a u); auto | apply (N1 b u); auto].
    + exists a. split; split; try (intros l E; discriminate).
      * intros l E. injection E as <-. apply qd_le_refl.
      * intros u E. apply (N0 a u); auto.
      * intros u E. apply (H01 a u); auto.
    + exists b. split; split; try (intros l E; discriminate).
      * intros u E. apply (H10 b u); auto.
      * intros l E. injection E as <-. apply qd_le_refl.
      * intros u E. apply (N1 b u); auto.
    + destruct (ub_lin s l0) as [u0 |] eqn:U0, (ub_lin s l1) as [u1 |] eqn:U1.
      * exists (qd_min u0 u1). split; split; try (intros l E; discriminate); intros u E; injection E as <-; [apply qd_min_le_l | apply qd_min_le_r].
      * exists u0. split; split; try (intros l E; discriminate). intros u E; injection E as <-; apply qd_le_refl.
      * exists u1. split; split; try (intros l E; discriminate). intros u E; injection E as <-; apply qd_le_refl.
      * exists (0, 0). split; split; intros l E; discriminate.
  - intros [z [[A1 A2] [B1 B2]]]. split; intros l u El Eu.
    + eapply qd_le_trans; [apply B1; exact El | apply A2; exact Eu].
    + eapply qd_le_trans; [apply A1; exact El | apply B2; exact Eu].
Qed.

(* no false negatives: an assignment within the current bounds under which the two expressions are equal forces `true` *)
Theorem equates_no_false_negative s l0 l1 rho :
  sat_bounds (cb s) rho -> evalq rho l0 == evalq rho l1 -> equates s l0 l1 = true.
Proof.
  intros SB E. unfold equates. apply andb_true_iff. split; apply lb_le_ub_true; intros l u El Eu.
  - destruct (qd_le_total l u) as [K | K]; auto. exfalso.
    pose proof (side_lin_sound Lower s rho l1 l SB El) as L. pose proof (side_lin_sound Upper s rho l0 u SB Eu) as U.
    eapply (sat_cross (evalq rho l0) l u K); auto. eapply sat_lower_eq; [symmetry; exact E | split; reflexivity | exact L].
  - destruct (qd_le_total l u) as [K | K]; auto. exfalso.
    pose proof (side_lin_sound Lower s rho l0 l SB El) as L. pose proof (side_lin_sound Upper s rho l1 u SB Eu) as U.
    eapply (sat_cross (evalq rho l0) l u K); auto. eapply sat_upper_eq; [symmetry; exact E | split; reflexivity | exact U].
Qed.

(* bounds(lin) is sound for every Q_delta assignment within the per-variable bounds (LraInv_Proofs.side_lin_value), and
   attained: some assignment within the bounds evaluates the expression to exactly lb(lin) / ub(lin) *)
Lemma bsum_value ch vl ts acc : (forall v c, In (v, c) ts -> ch v c = Some (Some (vl v))) -> bsum ch ts acc = Some (value_terms vl ts acc).
Proof.
  revert acc. induction ts as [| [v c] t IH]; intros acc H; simpl; auto.
  rewrite (H v c (or_introl eq_refl)). apply IH. intros w d K. apply H. right. exact K.
Qed.

Definition any_point (s : state) (v : var) : qd :=
  match lbv s v with Some l => l | None => match ubv s v with Some u => u | None => (0, 0) end end.
Lemma any_point_within s v : consistent (cb s) -> within (cb s) v (any_point s v).
Proof. apply consistent_point. Qed.

Definition pick (s : state) (low : bool) (l : lin) (v : var) : qd :=
  match coef v (lterms l) with
  | Some c => match (if Bool.eqb (qpos c) low then lbv s v else ubv s v) with Some b => b | None => any_point s v end
  | None => any_point s v
  end.
Definition is_lower (d : dir) : bool := match d with Lower => true | Upper => false end.
Lemma pick_bound s d c v : (if Bool.eqb (qpos c) (is_lower d) then lbv s v else ubv s v) = bval (cb s (idx v (sdir d c))).
Proof. unfold sdir. destruct d, (qpos c); reflexivity. Qed.
Lemma pick_within s d l v : consistent (cb s) -> within (cb s) v (pick s (is_lower d) l v).
Proof.
  intro C. unfold pick. destruct (coef v (lterms l)) as [c |]; [| apply any_point_within; auto]. rewrite pick_bound.
  destruct (bval (cb s (idx v (sdir d c)))) as [b |] eqn:E; [eapply bound_within; eauto | apply any_point_within; auto].
Qed.

Theorem side_lin_attained d s l b :
  consistent (cb s) -> ksorted (lkeys l) -> side_lin d s l = Some b ->
  (forall v, within (cb s) v (pick s (is_lower d) l v)) /\ value_terms (pick s (is_lower d) l) (lterms l) (qd_of_q (lconst l)) = b.
Proof.
  intros C S H. split; [intro v; apply pick_within; auto |]. rewrite side_lin_bsum in H.
  rewrite (bsum_value (bound_choice s d) (pick s (is_lower d) l)) in H; [congruence |].
  intros v c Hin. pose proof (bsum_some_in _ _ _ _ v c H Hin) as Nn. unfold pick. rewrite (In_alook v _ c S Hin : coef v (lterms l) = Some c), pick_bound.
  unfold bound_choice in *. destruct (bval (cb s (idx v (sdir d c)))); [reflexivity | destruct Nn; reflexivity].
Qed.

(* an end is infinite exactly when one of the per-variable bounds it needs is infinite *)
Lemma bsum_none_iff ch ts acc : bsum ch ts acc = None <-> exists v c, In (v, c) ts /\ ch v c = None.
Proof.
  revert acc. induction ts as [| [v c] t IH]; intro acc; simpl.
  - split; [discriminate | intros [v [c [[] _]]]].
  - assert (Tail : forall acc', ch v c <> None -> (bsum ch t acc' = None <-> exists w d, ((v, c) = (w, d) \/ In (w, d) t) /\ ch w d = None)).
    { intros acc' N. rewrite IH. split; intros [w [d [K1 K2]]]; exists w, d; [auto |].
      destruct K1 as [K1 | K1]; [injection K1 as -> ->; contradiction | auto]. }
    destruct (ch v c) as [[b |] |] eqn:E; [apply Tail; discriminate | apply Tail; discriminate |].
    split; auto. intros _. exists v, c. auto.
Qed.
Theorem side_lin_infinite_iff d s l :
  side_lin d s l = None <-> exists v c, In (v, c) (lterms l) /\ (if qpos c then bval (cb s (idx v d)) else bval (cb s (idx v (opp d)))) = None.
Proof.
  rewrite side_lin_bsum, bsum_none_iff. unfold bound_choice, sdir.
  split; intros [v [c [H K]]]; exists v, c; (split; [exact H |]); destruct (qpos c); destruct (bval _); simpl in *; congruence.
Qed.

(* on reachable states the intervals are non-empty, so equates is exactly "a common point exists" *)
Lemma reach_intervals_nonempty s l : reach s -> nonempty_interval (lb_lin s l) (ub_lin s l).
Proof.
  intros R lo hi E1 E2. pose proof (wf_reach s R) as W. destruct (wf_level s W) as [C _]. eapply lb_lin_le_ub_lin; eauto.
Qed.
Theorem equates_spec s l0 l1 : reach s ->
  (equates s l0 l1 = true <-> exists z, in_interval z (lb_lin s l0) (ub_lin s l0) /\ in_interval z (lb_lin s l1) (ub_lin s l1)).
Proof. intro R. apply equates_iff_common_point; apply reach_intervals_nonempty; auto. Qed.
Theorem top_equates_complete s l0 l1 al rho : reach s -> layers s = [] -> model s al rho -> evalq rho l0 == evalq rho l1 -> equates s l0 l1 = true.
Proof.
  intros R Root M E. apply (equates_no_false_negative s l0 l1 rho); auto.
  apply (model_root_bounds s al rho (wf_reach s R) Root M).
Qed.
