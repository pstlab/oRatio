(* clause::propagate keeps the two-watched-literal discipline (the heart of sat_core::propagate's inner loop). *)
From Coq Require Import List Arith Bool ZArith Lia Permutation Sorted.
From ORatio Require Import smt.SatCoreBase smt.SatCoreSpec smt.SatCore proofs.SatCoreBase_Proofs proofs.SatCoreInv_Proofs
  proofs.SatCorePrim_Proofs proofs.SatCoreStep_Proofs proofs.SatCoreAnalyze_Proofs proofs.SatCoreWl_Proofs.
Import ListNotations.

Section WlProp.
  Context {TS : Type}.
  Variable T : asg -> Prop.
  Notation state := (@state TS).
  Notation lvl := (@lvl TS).

  (* the state after clause::propagate has rearranged clause c and re-registered it under literal q *)
  Definition moved (s : state) (c : nat) (new : list lit) (q : lit) : state :=
    watch_add (set_cls s (upd (cls s) c new)) q c.

  Lemma moved_lits : forall (s : state) c new q c', c < length (cls s) ->
    lits_of (moved s c new q) c' = if Nat.eqb c c' then new else lits_of s c'.
  Proof. intros. unfold moved, watch_add. apply (lits_of_upd s c new c' H). Qed.
  Lemma moved_vw : forall (s : state) c new q pd i, index q < length (watches s) ->
    vw (moved s c new q) pd i =
    (nth i (watches s) [] ++ (if Nat.eqb (index q) i then [c] else [])) ++
    match pd with Some (p, rest) => if Nat.eqb i (index p) then rest else [] | None => [] end.
  Proof.
    intros s c new q pd i H. unfold vw, moved, watch_add. simpl. rewrite nth_upd.
    destruct (Nat.eqb_spec (index q) i) as [<-|].
    - destruct (Nat.ltb_spec (index q) (length (watches s))); [reflexivity|lia].
    - now rewrite app_nil_r.
  Qed.
  Lemma moved_values : forall (s : state) c new q y, value_lit (moved s c new q) y = value_lit s y /\ lvl (moved s c new q) y = lvl s y.
  Proof. intros. split; reflexivity. Qed.

  (* clause::propagate gives clause c the literals a :: x :: r' - a the other watched literal, x the new second one: u = !p
     itself ("keep watching p") or a literal taken from the tail - and registers it under !x.  What is asked of the caller is
     the meaning of the two watches in the new state. *)
  Lemma WL_rewatch : forall L (s : state) p c rest a u r x r',
    WL L (Some (p, c :: rest)) s -> c < length (cls s) -> index (lneg x) < length (watches s) ->
    u = lneg p ->
    (exists l0 l1, lits_of s c = l0 :: l1 :: r /\ ((a = l0 /\ u = l1) \/ (a = l1 /\ u = l0))) ->
    Permutation (x :: r') (u :: r) ->
    (watch_ok (moved s c (a :: x :: r') (lneg x)) (Some (p, rest)) L c a x /\
     watch_ok (moved s c (a :: x :: r') (lneg x)) (Some (p, rest)) L c x a) ->
    WL L (Some (p, rest)) (moved s c (a :: x :: r') (lneg x)).
  Proof.
    intros L s p c rest a u r x r' [W0 W1 W2 W3 W4 W5 W6] Hc Hx Hu [l0 [l1 [El Hau]]] Hperm Hsem.
    set (pd := Some (p, c :: rest)) in *. set (pd' := Some (p, rest)). set (s' := moved s c (a :: x :: r') (lneg x)).
    assert (Hcp : In c (vw s pd (index p))).
    { unfold vw, pd. rewrite Nat.eqb_refl. apply in_or_app. right. simpl. auto. }
    assert (Hatt_c : attached s pd c) by (exists (index p); exact Hcp).
    pose proof (W5 c Hatt_c) as Hnd. rewrite El in Hnd.
    assert (Hnd' : NoDup (map fst (a :: u :: r))).
    { destruct Hau as [[Ea Eu]|[Ea Eu]]; rewrite Ea, Eu; auto. eapply Permutation_NoDup; [|exact Hnd]. apply Permutation_map. apply perm_swap. }
    cbn [map] in Hnd'. apply NoDup_cons_iff in Hnd'. destruct Hnd' as [Na N2]. apply NoDup_cons_iff in N2. destruct N2 as [Nu Nr].
    assert (Hxa : fst x <> fst a).
    { intros E. apply Na. rewrite <- E. change (In (fst x) (map fst (u :: r))). apply in_map. eapply Permutation_in; [exact Hperm|simpl; auto]. }
    assert (Hau' : fst a <> fst u). { intros E. apply Na. simpl. auto. }
    assert (Hup : fst u = fst p) by (rewrite Hu; reflexivity).
    assert (Ixa : index (lneg x) <> index (lneg a)). { apply var_neq_index. simpl. auto. }
    assert (Iap : index (lneg a) <> index p). { apply var_neq_index. simpl. congruence. }
    (* where c sits before *)
    assert (Hc_lists : forall i, In c (vw s pd i) <-> (i = index (lneg a) \/ i = index p)).
    { intros i. split.
      - intros Hi. destruct (W1 i c Hi) as [m0 [m1 [rr [E1 E2]]]]. rewrite El in E1. inversion E1; subst m0 m1 rr.
        destruct Hau as [[-> Eu]|[-> Eu]]; rewrite <- Eu, Hu, lneg_invol in E2; tauto.
      - destruct (W2 c l0 l1 r Hatt_c El) as [B0 B1]. intros [->| ->]; auto.
        destruct Hau as [[-> _]|[-> _]]; auto. }
    assert (Hmem : forall i y, In y (vw s' pd' i) <-> (In y (vw s pd i) /\ ~ (y = c /\ i = index p)) \/ (y = c /\ i = index (lneg x))).
    { intros i y. unfold s'. rewrite moved_vw by auto. unfold vw, pd, pd'.
      pose proof (W3 (index p)) as Wp. unfold vw, pd in Wp. rewrite Nat.eqb_refl in Wp.
      destruct (NoDup_remove _ _ _ Wp) as [_ Hcn].
      destruct (Nat.eqb_spec (index (lneg x)) i) as [Ei|Ni]; destruct (Nat.eqb_spec i (index p)) as [Ep|Np];
        rewrite ?app_nil_r, ?in_app_iff; simpl.
      - rewrite <- Ep in Hcn. split.
        + intros [[H|[<-|[]]]|H]; auto; left; (split; [auto|intros [-> _]; apply Hcn; apply in_or_app; auto]).
        + intros [[[H|[<-|H]] Hn]|[-> _]]; auto.
      - split. intros [H|[<-|[]]]; auto. left. split; auto. intros [_ E]. contradiction.
        intros [[H _]|[-> _]]; auto.
      - split.
        + intros [H|H]. left. split; auto. intros [-> _]. apply Hcn. apply in_or_app. rewrite <- Ep. auto.
          left. split; auto. intros [-> _]. apply Hcn. apply in_or_app. auto.
        + intros [[[H|[<-|H]] Hn]|[_ E]]; auto. exfalso. apply Hn. auto. exfalso. apply Ni. auto.
      - split. intros H. left. split; auto. intros [_ E]. contradiction. intros [[H _]|[_ E]]; auto. exfalso. apply Ni. auto. }
    assert (Hlits : forall y, lits_of s' y = if Nat.eqb c y then a :: x :: r' else lits_of s y).
    { intros y. unfold s'. apply moved_lits. exact Hc. }
    assert (Hatt : forall y, attached s' pd' y <-> attached s pd y).
    { intros y. unfold attached. split.
      - intros [i Hi]. apply Hmem in Hi. destruct Hi as [[H _]|[-> _]]; eauto.
      - intros [i Hi]. destruct (Nat.eq_dec y c) as [->|Hn].
        + exists (index (lneg x)). apply Hmem. auto.
        + exists i. apply Hmem. left. split; auto. intros [E _]. contradiction. }
    assert (Hother : forall i y, y <> c -> (In y (vw s' pd' i) <-> In y (vw s pd i))).
    { intros i y Hn. rewrite Hmem. split. intros [[H _]|[E _]]; auto. contradiction. intros H. left. split; auto. intros [E _]. contradiction. }
    constructor.
    - unfold s', moved, watch_add. simpl. now rewrite upd_length.
    - intros i y Hy. rewrite Hlits. destruct (Nat.eqb_spec c y) as [<-|Hn].
      + exists a, x, r'. split; auto. apply Hmem in Hy. destruct Hy as [[H Hn]|[_ E]]; auto.
        apply Hc_lists in H. destruct H as [H|H]; auto. exfalso. apply Hn. auto.
      + apply (W1 i y). apply Hother; auto.
    - intros y m0 m1 rr Ha Em. apply Hatt in Ha. rewrite Hlits in Em. destruct (Nat.eqb_spec c y) as [<-|Hn].
      + inversion Em; subst m0 m1 rr. split; apply Hmem.
        * left. split. apply Hc_lists. auto. intros [_ E]. apply Iap. exact E.
        * right. auto.
      + destruct (W2 y m0 m1 rr Ha Em) as [B0 B1]. split; apply Hother; auto.
    - intros i. unfold s'. rewrite moved_vw by auto. unfold pd'. specialize (W3 i). unfold vw, pd in W3.
      destruct (Nat.eqb_spec (index (lneg x)) i) as [Ei|Ni]; destruct (Nat.eqb_spec i (index p)) as [Ep|Np];
        rewrite ?app_nil_r in *.
      + rewrite <- app_assoc. exact W3.
      + apply NoDup_app_single; auto. intros Hin.
        assert (Hv : In c (vw s pd i)). { unfold vw, pd. apply in_or_app. auto. }
        apply Hc_lists in Hv. destruct Hv as [Hv|Hv]. apply Ixa. congruence. contradiction.
      + apply (NoDup_remove _ _ _ W3).
      + exact W3.
    - intros y Hy. apply Hatt. apply W4. exact Hy.
    - intros y Ha. apply Hatt in Ha. rewrite Hlits. destruct (Nat.eqb_spec c y) as [<-|]; [|apply W5; auto].
      cbn [map]. constructor.
      { intros Hin. change (In (fst a) (map fst (x :: r'))) in Hin. apply in_map_iff in Hin. destruct Hin as [z [Ez Hz]].
        assert (Hz' : In z (u :: r)) by (eapply Permutation_in; [exact Hperm|exact Hz]).
        apply Na. rewrite <- Ez. change (In (fst z) (map fst (u :: r))). apply in_map. exact Hz'. }
      change (NoDup (map fst (x :: r'))). eapply Permutation_NoDup. apply Permutation_map. apply Permutation_sym. exact Hperm. cbn [map]. constructor; auto.
    - intros y m0 m1 rr Ha Em. apply Hatt in Ha. rewrite Hlits in Em. destruct (Nat.eqb_spec c y) as [<-|Hn].
      + inversion Em; subst m0 m1 rr. exact Hsem.
      + destruct (W6 y m0 m1 rr Ha Em) as [H1 H2].
        assert (Hexy : forall w, exempt s pd w y -> exempt s' pd' w y).
        { intros w [Hq|[rs [E1 E2]]]. left. exact Hq. right. exists rest. inversion E1; subst. split; auto.
          destruct E2 as [E2|E2]; auto. contradiction. }
        split; (eapply watch_ok_transfer; [| | |eassumption]); auto; intros; try (split; reflexivity).
  Qed.

  (* the case x = u: c goes back to the watch list of p *)
  Lemma WL_keep : forall L (s : state) p c rest a u r,
    WL L (Some (p, c :: rest)) s -> c < length (cls s) -> index p < length (watches s) ->
    u = lneg p ->
    (exists l0 l1, lits_of s c = l0 :: l1 :: r /\ ((a = l0 /\ u = l1) \/ (a = l1 /\ u = l0))) ->
    (watch_ok (moved s c (a :: u :: r) p) (Some (p, rest)) L c a u /\ watch_ok (moved s c (a :: u :: r) p) (Some (p, rest)) L c u a) ->
    WL L (Some (p, rest)) (moved s c (a :: u :: r) p).
  Proof.
    intros L s p c rest a u r W Hc Hp Hu Hex Hsem. subst u.
    pose proof (WL_rewatch L s p c rest a (lneg p) r (lneg p) r W Hc) as H. rewrite lneg_invol in H. apply H; auto.
  Qed.

  Lemma split_nf_head_false : forall (s : state) u r pre x post, value_lit s u = LF -> split_nf s (u :: r) = Some (pre, x, post) ->
    exists pre', pre = u :: pre' /\ r = pre' ++ x :: post /\ value_lit s x <> LF.
  Proof.
    intros s u r pre x post Hu E. simpl in E. assert (Hf : is_false s u = true) by (apply is_false_iff; exact Hu).
    rewrite Hf in E. destruct (split_nf s r) as [[[pre0 x0] post0]|] eqn:Er; inversion E; subst.
    destruct (split_nf_some s r pre0 x post Er) as [H1 [_ H3]]. exists pre0. auto.
  Qed.

  Lemma WL_clause_propagate : forall L (s : state) p c rest s' b,
    Inv T s -> WL L (Some (p, c :: rest)) s -> decision_level s <= L -> In p (trail s) -> lvl s p = decision_level s ->
    clause_propagate s c p = (s', b) ->
    (b = true -> WL L (Some (p, rest)) s') /\
    (b = false -> 0 < decision_level s -> WL (decision_level s - 1) (Some (p, rest)) s').
  Proof.
    intros L s p c rest s' b I W HL Hp Hpl E. pose proof (proj1 I) as I0.
    pose proof W as [W0 W1 W2 W3 W4 W5 W6]. set (pd := Some (p, c :: rest)) in *.
    assert (Hcp : In c (vw s pd (index p))).
    { unfold vw, pd. rewrite Nat.eqb_refl. apply in_or_app. right. simpl. auto. }
    assert (Hatt_c : attached s pd c) by (exists (index p); exact Hcp).
    destruct (W1 _ _ Hcp) as [l0 [l1 [r [El Hi]]]].
    pose proof (W5 c Hatt_c) as Hnd. rewrite El in Hnd. cbn [map] in Hnd.
    apply NoDup_cons_iff in Hnd. destruct Hnd as [N0 N1].
    assert (Hv01 : fst l0 <> fst l1). { intros Ev. apply N0. simpl. auto. }
    assert (Hc : c < length (cls s)).
    { destruct (Nat.lt_ge_cases c (length (cls s))); auto. rewrite lits_of_overflow in El by auto. discriminate. }
    assert (Hpr : fst p < length (assigns s)) by (apply (i_range T s I0 p Hp)).
    assert (Hpw : index p < length (watches s)). { rewrite W0. apply index_lt. exact Hpr. }
    assert (Hpv : value_lit s p = LT) by (apply (value_lit_in_trail T s p I0 Hp)).
    set (u := lneg p).
    assert (Huv : value_lit s u = LF). { unfold u. rewrite value_lit_neg, Hpv. reflexivity. }
    assert (Hul : lvl s u = decision_level s) by exact Hpl.
    (* the literal of p is one of the two watched ones *)
    assert (Hu01 : l0 = u \/ l1 = u).
    { destruct Hi as [Hi|Hi]; apply index_inj in Hi; [left|right]; unfold u; rewrite Hi; now rewrite lneg_invol. }
    unfold clause_propagate in E. rewrite El in E.
    (* after the optional swap: a :: u :: r *)
    assert (Hshape : exists a, (if Nat.eqb (fst l0) (fst p) then l1 :: l0 :: r else l0 :: l1 :: r) = a :: u :: r /\
                               ((a = l0 /\ u = l1) \/ (a = l1 /\ u = l0))).
    { destruct Hu01 as [E0|E1].
      - rewrite E0. unfold u at 1. simpl fst. rewrite Nat.eqb_refl. exists l1. split; auto.
      - assert (Hne : fst l0 <> fst p). { intros Ev. apply Hv01. rewrite Ev, E1. reflexivity. }
        destruct (Nat.eqb_spec (fst l0) (fst p)); [contradiction|]. exists l0. rewrite E1. split; auto. }
    destruct Hshape as [a [Hsh Hau]]. rewrite Hsh in E.
    assert (Hex : exists m0 m1, lits_of s c = m0 :: m1 :: r /\ ((a = m0 /\ u = m1) \/ (a = m1 /\ u = m0))) by (exists l0, l1; auto).
    assert (Hain : In a (lits_of s c)). { rewrite El. destruct Hau as [[-> _]|[-> _]]; simpl; auto. }
    assert (Hau_ne : fst a <> fst u).
    { destruct Hau as [[-> ->]|[-> ->]]; auto. }
    assert (Hap : lneg a <> p). { intros Ea. apply Hau_ne. unfold u. rewrite <- Ea. reflexivity. }
    assert (Hold_au : watch_ok s pd L c a u).
    { destruct (W6 c l0 l1 r Hatt_c El) as [H1 H2]. destruct Hau as [[-> ->]|[-> ->]]; auto. }
    destruct (is_true s a) eqn:Eta.
    - (* the other watch is true *)
      inversion E; subst s' b. split; [intros _|discriminate].
      apply is_true_iff in Eta.
      apply (WL_keep L s p c rest a u r W Hc Hpw eq_refl Hex). split.
      + intros Hv. change (value_lit s a = LF) in Hv. congruence.
      + intros _ _ _. split. exact Eta. change (lvl s a <= lvl s u). rewrite Hul.
        destruct (value_lit_true T s a I0 Eta) as [Hin| ->]. apply (lvl_le_dl T s a I0 Hin).
        unfold SatCoreAnalyze_Proofs.lvl. simpl. rewrite (lvl_var0 T s I0). lia.
    - destruct (split_nf s (u :: r)) as [[[pre x] post]|] eqn:Es.
      + (* a new literal to watch *)
        inversion E; subst s' b. split; [intros _|discriminate].
        destruct (split_nf_head_false s u r pre x post Huv Es) as [pre' [-> [Er Hxv]]].
        assert (Hxin : In x r). { rewrite Er. apply in_or_app. simpl; auto. }
        assert (Hxr : fst x < length (assigns s)). { apply (i_cls_range T s I0 c). rewrite El. destruct Hau as [[_ _]|[_ _]]; simpl; auto. }
        assert (Hxw : index (lneg x) < length (watches s)). { rewrite W0. apply index_lt. exact Hxr. }
        apply (WL_rewatch L s p c rest a u r x (pre' ++ u :: post) W Hc Hxw eq_refl Hex).
        * rewrite Er. apply perm_swap_ends.
        * split.
          -- (* a false and already propagated would have required u = !p to be true *)
             intros Hv Hl He. exfalso. destruct (Hold_au Hv Hl) as [K1 _]; [|congruence].
             intros Hx0. apply He. destruct Hx0 as [Hx0|[rs [Hx0 _]]]. left. exact Hx0. exfalso. inversion Hx0. apply Hap. congruence.
          -- intros Hv. contradiction.
      + (* unit or conflicting *)
        pose proof (split_nf_none s (u :: r) Es) as Hallf.
        unfold enqueue in E. change (value_lit (watch_add (set_cls s (upd (cls s) c (a :: u :: r))) p c) a) with (value_lit s a) in E.
        destruct (value_lit s a) eqn:Va.
        * (* conflict *)
          inversion E; subst s' b. split; [discriminate|intros _ Hdl].
          assert (Wm : WL (decision_level s - 1) pd s) by (apply (WL_level_mono L); auto; lia).
          apply (WL_keep (decision_level s - 1) s p c rest a u r Wm Hc Hpw eq_refl Hex). split.
          -- intros Hv Hl He. exfalso. change (lvl s a <= decision_level s - 1) in Hl.
             destruct (Hold_au Va ltac:(lia)) as [K1 _].
             { intros Hx. apply He. destruct Hx as [Hx|[rs [Hx _]]]. left. exact Hx. exfalso. inversion Hx. apply Hap. congruence. }
             congruence.
          -- intros _ Hl _. exfalso. change (lvl s u <= decision_level s - 1) in Hl. lia.
        * apply is_true_iff in Va. congruence.
        * (* unit: a is enqueued *)
          inversion E; subst s' b. split; [intros _|discriminate].
          set (se := mkst (constrs s) (cls s) (watches s) (upd (assigns s) (fst a) (lbool_of_bool (snd a))) (prop_q s ++ [a])
                          (a :: trail s) (trail_lim s) (decisions s) (upd (reason s) (fst a) (Some c))
                          (upd (level s) (fst a) (decision_level s)) (thst s) (log s) (ub s)).
          assert (Ese : enqueue s a (Some c) = (se, true)). { unfold enqueue. rewrite Va. reflexivity. }
          assert (Wse : WL L pd se) by (eapply WL_enqueue; eauto).
          change (WL L (Some (p, rest)) (moved se c (a :: u :: r) p)).
          assert (Hra : fst a < length (assigns s)) by (apply (i_cls_range T s I0 c a Hain)).
          assert (Hva' : value_lit se a = LT /\ lvl se a = decision_level s).
          { unfold se, value_lit, value_var, SatCoreAnalyze_Proofs.lvl. simpl.
            rewrite !nth_upd_eq by (rewrite ?(i_len_level T s I0); auto). destruct (snd a); auto. }
          assert (Hu' : value_lit se u = LF /\ lvl se u = decision_level s).
          { unfold se, value_lit, value_var, SatCoreAnalyze_Proofs.lvl. simpl.
            rewrite !nth_upd_neq by auto. split; [exact Huv|exact Hul]. }
          apply (WL_keep L se p c rest a u r Wse).
          -- exact Hc.
          -- exact Hpw.
          -- reflexivity.
          -- exact Hex.
          -- split.
             ++ intros Hv. change (value_lit se a = LF) in Hv. destruct Hva'. congruence.
             ++ intros _ _ _. change (value_lit se a = LT /\ lvl se a <= lvl se u). destruct Hva' as [-> ->]. destruct Hu' as [_ ->]. auto.
  Qed.
End WlProp.
