(* C12, assembled: the literal returned for a relation between difference expressions, for the integer and the real
   theory. Arithmetic of the case analysis: DlRelArith_Proofs; meaning of new_distance on a good state: DlThm_Proofs. *)
From Coq Require Import List ZArith Arith Bool Lia Qcanon.
From ORatio Require Import smt.DlDom smt.Dl proofs.DlOrd_Proofs proofs.DlSpec_Proofs proofs.DlCreate_Proofs proofs.DlThm_Proofs
  proofs.DlIdl_Proofs proofs.DlRdl_Proofs proofs.DlRelArith_Proofs.
Import ListNotations.
Local Open Scope nat_scope.

(* The literal of a relation, for any distance domain whose constraints `csx x a b d` (the form new_rel_cases speaks of)
   are those of the ordered group read through `emb` (Hcs). The hypotheses inj0 / Hcall / Heq are those of
   DlRelArith_Proofs.new_rel_cases. *)
Section Lit.
Variable O : ogroup.
Variable D : Type.
Variable dm : dom D.
Variable DS : domspec O D dm.
Variable X : Type.
Variable inj : X -> Qc.
Variable x0 : X.
Variable csx : (nat -> X) -> nat -> nat -> D -> Prop.
Variable emb : (nat -> X) -> nat -> O.
Hypothesis inj0 : inj x0 = 0%Qc.
Hypothesis Hcall : forall r c k0 k vp vm x, c <> 0%Qc -> dconst dm (k0 / c)%Qc = Some k -> r <> REq ->
  (rel_holds r (c * (inj (x vp) - inj (x vm)) + k0)%Qc 0%Qc <->
   let '(a, b, d) := rel_call D dm r (qc_ltb c qc0) vp vm k in csx x a b d).
Hypothesis Heq : forall c k0 k vp vm x, c <> 0%Qc -> dconst dm (k0 / c)%Qc = Some k ->
  ((c * (inj (x vp) - inj (x vm)) + k0)%Qc = 0%Qc <-> csx x vp vm k /\ csx x vm vp (dneg dm k)).
Hypothesis Hcs : forall x a b d g, wt DS d g -> (csat O (emb x) a b g <-> csx x a b d).
Notation good := (good O D dm DS).
Notation holds r x left right := (rel_holds r (lin_eval (fun v => inj (x v)) left) (lin_eval (fun v => inj (x v)) right)).
Notation cases := (new_rel_cases D dm X inj x0 csx inj0 Hcall Heq).

(* the literal of  left r right  (r one of <, <=, >=, >) *)
Theorem relation_literal (s : state D) r left right s' l ev :
  good s -> lin_wf left -> lin_wf right -> r <> REq ->
  new_rel D dm s r left right = (s', RLit l, ev) -> fault s' = 0 ->
  (forall a b d, new_rel D dm s r left right = (let (s1, r1) := new_distance D dm s a b d in (s1, r1, [])) -> dwok dm d = true) ->
  good s' /\
  ((l = TRUE_lit /\ forall x, x 0 = x0 -> models O D dm DS (emb x) s -> holds r x left right) \/
   (l = FALSE_lit /\ forall x, x 0 = x0 -> models O D dm DS (emb x) s -> ~ holds r x left right) \/
   (exists a b d, l = (length (assigns s), true) /\ 0 < length (assigns s) /\
      vd_find (length (assigns s)) (var_dists s') = Some (mkcstr a b d) /\ vd_find (length (assigns s)) (var_dists s) = None /\
      forall x, x 0 = x0 -> (holds r x left right <-> csx x a b d))).
Proof.
  intros G Wl Wr Hr E F Hrange.
  destruct (cases s r left right Wl Wr) as [(tr & E0 & H0) | [E0 | [(_ & a & b & d & E0 & H0) | (Hq & _)]]]; [| | | contradiction].
  - rewrite E0 in E. injection E as <- <- <-. split; [exact G |]. destruct tr.
    + left. split; [reflexivity |]. intros x _ _. apply H0. reflexivity.
    + right. left. split; [reflexivity |]. intros x _ _ Hh. apply H0 in Hh. discriminate.
  - rewrite E0 in E. discriminate.
  - pose proof (Hrange a b d E0) as Hw. destruct (ds_dwok _ _ _ DS d Hw) as [gd Hwt].
    rewrite E0 in E. destruct (new_distance D dm s a b d) as [s1 r1] eqn:E1. injection E as <- -> <-.
    assert (Hab : a < n_vars s /\ b < n_vars s).
    { destruct (Nat.lt_ge_cases a (n_vars s)) as [Ha | Ha]; [destruct (Nat.lt_ge_cases b (n_vars s)) as [Hb | Hb]; [auto |] |];
        exfalso; destruct (new_distance_correct O D dm DS s a b d s1 (RLit l) G E1 F) as [_ [N _]]; destruct N as [N _]; [lia | discriminate | lia | discriminate]. }
    destruct Hab as [Ha Hb].
    destruct (new_distance_meaning O D dm DS s a b d gd s1 l G Hwt Ha Hb E1 F) as [G1 M]. split; [exact G1 |].
    destruct M as [(-> & _ & M) | [(-> & _ & M) | (-> & P0 & Hc & Hn & _)]].
    + right. left. split; [reflexivity |]. intros x X0 Mx Hh. apply (M (emb x) Mx). apply (Hcs x a b d gd Hwt). apply (H0 x X0). exact Hh.
    + left. split; [reflexivity |]. intros x X0 Mx. apply (H0 x X0). apply (Hcs x a b d gd Hwt). apply (M (emb x) Mx).
    + right. right. exists a, b, d. repeat split; try assumption; apply (H0 x H); assumption.
Qed.

(* the literal of  left = right *)
Theorem eq_literal (s : state D) left right s' l ev :
  good s -> lin_wf left -> lin_wf right ->
  new_rel D dm s REq left right = (s', RLit l, ev) -> fault s' = 0 ->
  (forall vp vm k, new_rel D dm s REq left right = new_eq_vars D dm s vp vm k -> dwok dm k = true) ->
  good s' /\
  ((exists tr : bool, l = (if tr then TRUE_lit else FALSE_lit) /\ s' = s /\ forall x, (holds REq x left right <-> tr = true)) \/
   (exists vp vm k,
      (forall x, x 0 = x0 -> (holds REq x left right <-> csx x vp vm k /\ csx x vm vp (dneg dm k))) /\
      ((l = FALSE_lit /\ s' = s /\ forall x, x 0 = x0 -> models O D dm DS (emb x) s -> ~ holds REq x left right) \/
       (exists s1 l1 s2 l2,
          new_distance D dm s vp vm k = (s1, RLit l1) /\ new_distance D dm s1 vm vp (dneg dm k) = (s2, RLit l2) /\
          new_conj2 D s2 l1 l2 = (s', l, ev) /\ good s1 /\ good s2)))).
Proof.
  intros G Wl Wr E F Hrange.
  destruct (cases s REq left right Wl Wr) as [(tr & E0 & H0) | [E0 | [(Hn & _) | (_ & vp & vm & k & E0 & H0)]]]; [| | congruence |].
  - rewrite E0 in E. injection E as <- <- <-. split; [exact G |]. left. exists tr. auto.
  - rewrite E0 in E. discriminate.
  - pose proof (Hrange vp vm k E0) as Hw. destruct (ds_dwok _ _ _ DS k Hw) as [gk Hwt]. rewrite E0 in E.
    assert (Hab : vp < n_vars s /\ vm < n_vars s).
    { unfold new_eq_vars in E. destruct (Nat.ltb_spec vp (n_vars s)); [destruct (Nat.ltb_spec vm (n_vars s)); [auto |] |]; cbn in E; discriminate. }
    destruct Hab as [Hp Hm].
    destruct (new_eq_vars_meaning O D dm DS s vp vm k gk s' l ev G Hw Hwt Hp Hm E F) as [G' M]. split; [exact G' |].
    right. exists vp, vm, k. split; [intros x X0; apply (H0 x X0) |].
    destruct M as [(-> & -> & M) | (s1 & l1 & s2 & l2 & A1 & A2 & A3 & A4 & A5 & _)].
    + left. split; [reflexivity |]. split; [reflexivity |]. intros x X0 Mx Hh. apply (M (emb x) Mx). apply (H0 x X0) in Hh.
      destruct Hh as [C1 C2]. split; [apply (Hcs x vp vm k gk Hwt); exact C1 |].
      apply (Hcs x vm vp (dneg dm k) (gopp gk) (ds_wt_neg _ _ _ DS k gk Hw Hwt)). exact C2.
    + right. exists s1, l1, s2, l2. auto.
Qed.
End Lit.

Section Idl.
Variable sat : bool.
Notation dmI := (idl_dom sat).
Notation DSI := (idl_spec sat).

Lemma idl_csat (x : nat -> Z) a b (d : Z) g : wt DSI d g -> (csat Zog x a b g <-> csat_idl x a b d).
Proof. intros [_ ->]. unfold csat, csat_idl, gle; cbn [G gadd gopp glt Zog]. lia. Qed.

Definition idl_relation_literal :=
  relation_literal Zog Z dmI DSI Z qc_of_Z 0%Z csat_idl (fun x => x) eq_refl (idl_rel_call sat) (idl_rel_eq sat) idl_csat.
Definition idl_eq_literal :=
  eq_literal Zog Z dmI DSI Z qc_of_Z 0%Z csat_idl (fun x => x) eq_refl (idl_rel_call sat) (idl_rel_eq sat) idl_csat.

Lemma qc_ltb_int c : qc_is_int c = true -> (qc_ltb c qc0 = true <-> (qc_num c < 0)%Z).
Proof.
  intro H. apply qc_is_int_iff in H. destruct H as [z ->]. rewrite qc_num_of_Z, qc_ltb_iff. apply qz_lt0.
Qed.

(* bounds(c*x + k) and bounds(c*(x - y) + k): the image of the variable-level interval [lb, ub] under t |-> c*t + k.
   `lo`/`hi` are the images of the ends (swapped for c < 0); with the repaired code (sat = true) an unbounded end stays
   +-inf(), with the pinned code it is inf()*c + k (the finding idl:bounds(lin):infinite-end). *)
Theorem idl_bounds_lin_image (lb ub : Z) (c k : Qc) :
  qc_is_int c = true -> qc_is_int k = true -> qc_num c <> 0%Z ->
  let ng := qc_ltb c qc0 in
  let lo := idl_img sat (if ng then ub else lb) c (qc_num k) in
  let hi := idl_img sat (if ng then lb else ub) c (qc_num k) in
  (* bounded ends: exact image *)
  ((- INF < lb)%Z -> (lb < INF)%Z -> (- INF < ub)%Z -> (ub < INF)%Z ->
     lo = ((if ng then ub else lb) * qc_num c + qc_num k)%Z /\ hi = ((if ng then lb else ub) * qc_num c + qc_num k)%Z /\
     forall t : Z, (lb <= t <= ub)%Z -> (lo <= qc_num c * t + qc_num k <= hi)%Z) /\
  (* unbounded ends stay unbounded in the repaired code *)
  (sat = true -> (ub = INF -> if ng then lo = (- INF)%Z else hi = INF) /\ (lb = (- INF)%Z -> if ng then hi = INF else lo = (- INF)%Z)).
Proof.
  intros Hc Hk Hn ng lo hi. pose proof (qc_ltb_int c Hc) as Hng. fold ng in Hng.
  assert (Sg : if ng then (qc_num c < 0)%Z else (0 < qc_num c)%Z).
  { destruct ng; [apply Hng; reflexivity |].
    destruct (Z.lt_total (qc_num c) 0) as [H | [H | H]]; [apply Hng in H; discriminate | contradiction | exact H]. }
  assert (IL : (0 < INF)%Z) by reflexivity. clear Hng.
  split.
  - intros L1 L2 U1 U2. unfold lo, hi, idl_img.
    assert (E : forall x, (- INF < x)%Z -> (x < INF)%Z ->
               (if sat then if Z.eqb (qc_num c) 0 then qc_num k else if Z.leb INF x then (if Z.ltb 0 (qc_num c) then INF else - INF)
                         else if Z.leb x (- INF) then (if Z.ltb 0 (qc_num c) then - INF else INF) else x * qc_num c + qc_num k
                else x * qc_num c + qc_num k)%Z = (x * qc_num c + qc_num k)%Z).
    { intros x X1 X2. destruct sat; [| reflexivity]. destruct (Z.eqb_spec (qc_num c) 0); [contradiction |].
      destruct (Z.leb_spec INF x); [lia |]. destruct (Z.leb_spec x (- INF)); [lia | reflexivity]. }
    destruct ng; rewrite (E ub U1 U2), (E lb L1 L2); (split; [reflexivity |]); (split; [reflexivity |]); intros t Ht; nia.
  - intros ->. unfold lo, hi, idl_img. destruct (Z.eqb_spec (qc_num c) 0); [contradiction |].
    destruct (Z.leb_spec INF INF); [| lia]. destruct (Z.leb_spec INF (- INF)); [lia |]. destruct (Z.leb_spec (- INF) (- INF)); [| lia].
    split; intros ->; destruct ng; destruct (Z.ltb_spec 0 (qc_num c)); (reflexivity || lia).
Qed.

Theorem idl_bounds_lin_1 (s : state Z) v c k : qc_is_int c = true -> qc_is_int k = true ->
  bounds_lin Z dmI s ([(v, c)], k) =
  RPair (idl_img sat (if qc_ltb c qc0 then Dl.dget Z dmI s 0 v else (- Dl.dget Z dmI s v 0)%Z) c (qc_num k))
        (idl_img sat (if qc_ltb c qc0 then (- Dl.dget Z dmI s v 0)%Z else Dl.dget Z dmI s 0 v) c (qc_num k)) /\
  bounds_var Z dmI s v = RPair (- Dl.dget Z dmI s v 0)%Z (Dl.dget Z dmI s 0 v).
Proof.
  intros Hc Hk. unfold bounds_lin, bounds_var. cbn [fst snd dcoef_ok dconst dimg dadd dzero dneg idl_dom]. rewrite Hc, Hk. cbn [negb].
  split; reflexivity.
Qed.

Theorem idl_bounds_lin_2 (s : state Z) v0 c0 v1 c1 k : qc_eqb (c1 / c0)%Qc qcm1 = true -> qc_is_int c0 = true -> qc_is_int k = true ->
  bounds_lin Z dmI s ([(v0, c0); (v1, c1)], k) =
  RPair (idl_img sat (if qc_ltb c0 qc0 then Dl.dget Z dmI s v1 v0 else (- Dl.dget Z dmI s v0 v1)%Z) c0 (qc_num k))
        (idl_img sat (if qc_ltb c0 qc0 then (- Dl.dget Z dmI s v0 v1)%Z else Dl.dget Z dmI s v1 v0) c0 (qc_num k)) /\
  distance_var Z dmI s v1 v0 = RPair (- Dl.dget Z dmI s v0 v1)%Z (Dl.dget Z dmI s v1 v0).
Proof.
  intros Hr Hc Hk. unfold bounds_lin, distance_var. cbn [fst snd dcoef_ok dconst dimg dadd dzero dneg idl_dom]. rewrite Hr, Hc, Hk. cbn [negb orb].
  split; reflexivity.
Qed.

End Idl.

(* rationals: a valuation x : nat -> Qc is read in Q x Q as (x v, 0) *)
Section Rdl.
Variable guard : bool.
Notation dmR := (rdl_dom guard).
Notation DSR := (rdl_spec guard).
Definition qval (x : nat -> Qc) : nat -> QDog := fun v => (x v, 0%Qc).

Lemma rdl_csat (x : nat -> Qc) a b d g : wt DSR d g -> (csat QDog (qval x) a b g <-> csat_rdl x a b d).
Proof.
  intros (q & Eq & _ & ->). unfold csat, csat_rdl, qval, gle, qd_leb; cbn [G gadd gopp glt QDog fst snd qr qe].
  rewrite Eq. cbn [er_ltb er_eqb]. rewrite orb_true_iff, andb_true_iff, qc_ltb_iff, qc_eqb_iff, qc_leb_iff.
  unfold qd_lt; cbn [fst snd]. split.
  - intros [[H | [H1 H2]] | H]; [left; qc_lra | right; split; qc_lra |].
    injection H as H1 H2. right. split; qc_lra.
  - intros [H | [H1 H2]]; [left; left; qc_lra |].
    destruct (Qc_tri qc0 (qe d)) as [T | [T | T]]; [left; right; split; qc_lra | right; f_equal; qc_lra | exfalso; qc_lra].
Qed.

Definition rdl_relation_literal :=
  relation_literal QDog qd dmR DSR Qc (fun q => q) qc0 csat_rdl qval eq_refl (rdl_rel_call guard) (rdl_rel_eq guard) rdl_csat.
Definition rdl_eq_literal :=
  eq_literal QDog qd dmR DSR Qc (fun q => q) qc0 csat_rdl qval eq_refl (rdl_rel_call guard) (rdl_rel_eq guard) rdl_csat.

End Rdl.
