(* The theory state of the sat_core model only ever changes through the four theory functions: after any history it is
   reachable from the initial one by calls of propagate / check / push / pop.  Consequently a property of theory states that
   holds initially and is preserved by the four functions holds after every history. *)
From Coq Require Import List Arith Bool.
From ORatio Require Import smt.SatCoreBase smt.SatCore proofs.SatCoreUb_Proofs.
Import ListNotations.

Section Th.
  Context {TS : Type}.
  Variable sort : (lit -> lit -> bool) -> list lit -> list lit.
  Variable th_propagate : TS -> list lbool -> nat -> lit -> TS * list (list lit) * option (list lit).
  Variable th_check : TS -> list lbool -> nat -> TS * list (list lit) * option (list lit).
  Variable th_push th_pop : TS -> TS.
  Variable FUEL : nat.
  Notation state := (@state TS).

  Inductive th_full (ts0 : TS) : TS -> Prop :=
  | tf_refl : th_full ts0 ts0
  | tf_prop : forall ts a dl p, th_full ts0 ts -> th_full ts0 (fst (fst (th_propagate ts a dl p)))
  | tf_check : forall ts a dl, th_full ts0 ts -> th_full ts0 (fst (fst (th_check ts a dl)))
  | tf_push : forall ts, th_full ts0 ts -> th_full ts0 (th_push ts)
  | tf_pop : forall ts, th_full ts0 ts -> th_full ts0 (th_pop ts).
  Lemma th_full_trans : forall a b c, th_full a b -> th_full b c -> th_full a c.
  Proof. intros a b c H1 H2. induction H2; auto; constructor; auto. Qed.

  Definition thm (s s' : state) : Prop := th_full (thst s) (thst s').
  Lemma thm_refl : forall s, thm s s. Proof. intros; constructor. Qed.
  Lemma thm_closed : closed th_propagate th_check th_push th_pop (fun _ => True) thm.
  Proof.
    constructor; unfold thm; simpl; intros; try (constructor; constructor).
    - eapply th_full_trans; eauto.
    - rewrite H. constructor.
  Qed.

  Theorem run_th : forall ops (s : state), thm s (run sort th_propagate th_check th_push th_pop FUEL ops s).
  Proof. intros. apply (run_R sort th_propagate th_check th_push th_pop FUEL _ _ thm_closed); auto. Qed.

  (* an invariant of the theory that the four functions preserve holds after every history *)
  Theorem run_th_inv : forall (th_inv : TS -> Prop),
    (forall ts a dl p, th_inv ts -> th_inv (fst (fst (th_propagate ts a dl p)))) ->
    (forall ts a dl, th_inv ts -> th_inv (fst (fst (th_check ts a dl)))) ->
    (forall ts, th_inv ts -> th_inv (th_push ts)) -> (forall ts, th_inv ts -> th_inv (th_pop ts)) ->
    forall ops ts, th_inv ts -> th_inv (thst (run sort th_propagate th_check th_push th_pop FUEL ops (init ts))).
  Proof.
    intros th_inv H1 H2 H3 H4 ops ts H0. pose proof (run_th ops (init ts)) as R. unfold thm in R. simpl in R.
    induction R; auto.
  Qed.
End Th.
