(* Graph-level specification of difference logic over an ordered group O:
   extended distances (a group element or +infinity), walks over a set of weighted edges, and the two halves of
   "the matrix is the shortest-path closure of the edges":
     sound   : every finite entry is the length of a walk
     relaxed : m(i,j) <= w + m(k,j) for every edge i -w-> k; with a zero diagonal (`diag0`) no walk is shorter (`exact_complete`)
   plus the one-edge update   m'(i,j) = min(m(i,j), m(i,a) + w + m(b,j))   that propagate(from,to,dist) implements. *)
From Coq Require Import List Arith Bool Lia.
From ORatio Require Import proofs.DlOrd_Proofs.
Import ListNotations.

Section Graph.
Variable O : ogroup.

(* a distance: a group element or +infinity *)
Inductive xd := Fin (g : O) | Inf.

Definition xlt (x y : xd) : Prop :=
  match x, y with
  | Fin a, Fin b => a <o b
  | Fin _, Inf => True
  | Inf, _ => False
  end.
Definition xle (x y : xd) : Prop :=
  match x, y with
  | Fin a, Fin b => a <=o b
  | _, Inf => True
  | Inf, Fin _ => False
  end.
Definition xadd (x : xd) (g : O) : xd := match x with Fin a => Fin (a +o g) | Inf => Inf end.
Definition xadd2 (x y : xd) : xd := match x, y with Fin a, Fin b => Fin (a +o b) | _, _ => Inf end.

Lemma xle_inf x : xle x Inf. Proof. destruct x; exact I. Qed.
Lemma xle_refl x : xle x x. Proof. destruct x; cbn; auto. apply gle_refl. Qed.
Lemma xlt_le x y : xlt x y -> xle x y. Proof. destruct x, y; cbn; auto. apply glt_le. Qed.
Lemma xle_trans x y z : xle x y -> xle y z -> xle x z.
Proof. destruct x, y, z; cbn; auto; try tauto. apply gle_trans. Qed.
Lemma xlt_le_trans x y z : xlt x y -> xle y z -> xlt x z.
Proof. destruct x, y, z; cbn; auto; try tauto. apply glt_le_trans. Qed.
Lemma xle_lt_trans x y z : xle x y -> xlt y z -> xlt x z.
Proof. destruct x, y, z; cbn; auto; try tauto. apply gle_lt_trans. Qed.
Lemma xlt_irrefl x : ~ xlt x x. Proof. destruct x; cbn; auto. apply g_irrefl. Qed.
Lemma xlt_not_le x y : xlt x y -> ~ xle y x.
Proof. destruct x, y; cbn; auto. apply g_lt_not_le. Qed.
Lemma xle_not_lt x y : xle x y -> ~ xlt y x.
Proof. intros H H2. exact (xlt_not_le _ _ H2 H). Qed.
Lemma xlt_or_le x y : xlt x y \/ xle y x.
Proof. destruct x, y; cbn; auto. apply g_lt_le_dec. Qed.
Lemma xle_antisym x y : xle x y -> xle y x -> x = y.
Proof. destruct x, y; cbn; try tauto. intros; f_equal; apply gle_antisym; assumption. Qed.
Lemma xadd_mono x y g : xle x y -> xle (xadd x g) (xadd y g).
Proof. destruct x, y; cbn; auto. intro; apply g_add_le_le; [assumption | apply gle_refl]. Qed.
Lemma xadd_0 x : xadd x g0 = x. Proof. destruct x; cbn; auto. rewrite g_0r; reflexivity. Qed.
Lemma xadd_xadd x g h : xadd (xadd x g) h = xadd x (g +o h).
Proof. destruct x; cbn; auto. rewrite g_assoc; reflexivity. Qed.

Definition edge := (nat * nat * O)%type.

Inductive walk (E : edge -> Prop) : nat -> nat -> O -> Prop :=
| w_nil i : walk E i i g0
| w_cons i k j w g : E (i, k, w) -> walk E k j g -> walk E i j (w +o g).

Lemma walk_eq (E : edge -> Prop) i j g g' : walk E i j g -> g = g' -> walk E i j g'.
Proof. intros H <-; exact H. Qed.

Lemma walk_app (E : edge -> Prop) i k j g1 g2 : walk E i k g1 -> walk E k j g2 -> walk E i j (g1 +o g2).
Proof.
  induction 1 as [i | i k0 k w g He Hw IH]; intro H2.
  - rewrite g_0l; exact H2.
  - eapply walk_eq; [eapply w_cons; [exact He | apply IH; exact H2] | apply g_assoc].
Qed.

Lemma walk_one (E : edge -> Prop) i k w : E (i, k, w) -> walk E i k w.
Proof. intro H. eapply walk_eq; [eapply w_cons; [exact H | apply w_nil] | apply g_0r]. Qed.

Lemma walk_snoc (E : edge -> Prop) i k j g w : walk E i k g -> E (k, j, w) -> walk E i j (g +o w).
Proof. intros H He. eapply walk_app; [exact H | apply walk_one; exact He]. Qed.

Lemma walk_mono (E E' : edge -> Prop) i j g : (forall e, E e -> E' e) -> walk E i j g -> walk E' i j g.
Proof. intros H; induction 1; econstructor; eauto. Qed.

Definition neg_cycle (E : edge -> Prop) : Prop := exists i g, walk E i i g /\ g <o g0.

(* edges stay inside [0, n) *)
Definition edges_in (n : nat) (E : edge -> Prop) : Prop := forall i k w, E (i, k, w) -> i < n /\ k < n.

Lemma walk_in n E i j g : edges_in n E -> walk E i j g -> i < n -> j < n.
Proof. intros HE; induction 1 as [| i k j w g He _ IH]; auto. intros _. apply IH. exact (proj2 (HE _ _ _ He)). Qed.

Definition mat := nat -> nat -> xd.

Definition diag0 (n : nat) (m : mat) : Prop := forall i, i < n -> m i i = Fin g0.
Definition sound (n : nat) (E : edge -> Prop) (m : mat) : Prop :=
  forall i j g, i < n -> j < n -> m i j = Fin g -> walk E i j g.
Definition relaxed (n : nat) (E : edge -> Prop) (m : mat) : Prop :=
  forall i k w j, E (i, k, w) -> j < n -> xle (m i j) (xadd (m k j) w).
(* the same read from the other end: extending a path by a last edge *)
Definition relaxed_r (n : nat) (E : edge -> Prop) (m : mat) : Prop :=
  forall i k j w, E (k, j, w) -> i < n -> xle (m i j) (xadd (m i k) w).

Record exact (n : nat) (E : edge -> Prop) (m : mat) : Prop := mkexact {
  ex_in : edges_in n E;
  ex_diag : diag0 n m;
  ex_sound : sound n E m;
  ex_relaxed : relaxed n E m
}.

Lemma relaxed_walk n E m i k g j : relaxed n E m -> walk E i k g -> j < n -> xle (m i j) (xadd (m k j) g).
Proof.
  intros HR H Hj. induction H as [i | i k0 k w g He Hw IH].
  - rewrite xadd_0. apply xle_refl.
  - eapply xle_trans; [apply (HR _ _ _ _ He Hj) |].
    eapply xle_trans; [apply xadd_mono; exact IH |]. rewrite xadd_xadd. rewrite (g_comm g w). apply xle_refl.
Qed.

(* complete: no walk is shorter than the matrix entry *)
Lemma exact_complete n E m i j g : exact n E m -> walk E i j g -> j < n -> xle (m i j) (Fin g).
Proof.
  intros [HE HD _ HR] H Hj.
  pose proof (relaxed_walk n E m i j g j HR H Hj) as L. rewrite (HD j Hj) in L. cbn in L. rewrite g_0l in L. exact L.
Qed.

Lemma exact_triangle n E m i k j : exact n E m -> i < n -> k < n -> j < n -> xle (m i j) (xadd2 (m i k) (m k j)).
Proof.
  intros X Hi Hk Hj. destruct X as [HE HD HS HR].
  destruct (m i k) as [g |] eqn:Eik; [| destruct (m i j); cbn; auto].
  pose proof (relaxed_walk n E m i k g j HR (HS _ _ _ Hi Hk Eik) Hj) as L.
  destruct (m k j) as [h |] eqn:Ekj; cbn in *; [| destruct (m i j); cbn; auto].
  destruct (m i j); cbn in *; auto. rewrite (g_comm g h). exact L.
Qed.

Lemma exact_no_neg_cycle n E m : exact n E m -> ~ neg_cycle E.
Proof.
  intros X [i [g [Hw Hg]]].
  destruct (Nat.lt_ge_cases i n) as [Hi | Hi].
  - pose proof (exact_complete n E m i i g X Hw Hi) as L. rewrite (ex_diag _ _ _ X i Hi) in L. cbn in L. og O.
  - inversion Hw as [| ? k ? w g' He Hw']; subst.
    + exact (g_irrefl _ Hg).
    + destruct (ex_in _ _ _ X _ _ _ He); lia.
Qed.

Lemma exact_relaxed_r n E m : exact n E m -> relaxed_r n E m.
Proof.
  intros X i k j w He Hi. destruct (ex_in _ _ _ X _ _ _ He) as [Hk Hj].
  destruct (m i k) as [g |] eqn:Eik; cbn; [| destruct (m i j); cbn; auto].
  apply (exact_complete n E m i j (g +o w) X); [| exact Hj].
  eapply walk_snoc; [apply (ex_sound _ _ _ X _ _ _ Hi Hk Eik) | exact He].
Qed.

Lemma exact_ext n (E E' : edge -> Prop) m : (forall e, E e <-> E' e) -> exact n E m -> exact n E' m.
Proof.
  intros H [X1 X2 X3 X4]. constructor.
  - intros i k w He. apply (X1 i k w). apply H. exact He.
  - exact X2.
  - intros i j g Hi Hj Eg. eapply walk_mono; [| apply (X3 i j g Hi Hj Eg)]. intros e He. apply H. exact He.
  - intros i k w j He Hj. apply (X4 i k w j); [apply H; exact He | exact Hj].
Qed.

(* adding one edge a -w-> b:  m'(i,j) = min (m(i,j), m(i,a) + w + m(b,j)) *)
Definition add_edge (E : edge -> Prop) (a b : nat) (w : O) : edge -> Prop := fun e => E e \/ e = (a, b, w).

Definition is_min (x y z : xd) : Prop := (xlt y x -> z = y) /\ (xle x y -> z = x).
Definition via (m : mat) (a b : nat) (w : O) (i j : nat) : xd := xadd (xadd2 (m i a) (m b j)) w.
Definition updated (n : nat) (m m' : mat) (a b : nat) (w : O) : Prop :=
  forall i j, i < n -> j < n -> is_min (m i j) (via m a b w i j) (m' i j).

Lemma is_min_le_l x y z : is_min x y z -> xle z x.
Proof. intros [H1 H2]. destruct (xlt_or_le y x) as [L | L]; [rewrite (H1 L); apply xlt_le; exact L | rewrite (H2 L); apply xle_refl]. Qed.
Lemma is_min_le_r x y z : is_min x y z -> xle z y.
Proof. intros [H1 H2]. destruct (xlt_or_le y x) as [L | L]; [rewrite (H1 L); apply xle_refl | rewrite (H2 L); exact L]. Qed.
Lemma is_min_cases x y z : is_min x y z -> z = x \/ z = y.
Proof. intros [H1 H2]. destruct (xlt_or_le y x) as [L | L]; auto. Qed.

Theorem update_exact n E m m' a b w :
  exact n E m -> a < n -> b < n -> xle (Fin g0) (xadd (m b a) w) -> updated n m m' a b w ->
  exact n (add_edge E a b w) m'.
Proof.
  intros X Ha Hb Hnc U. pose proof X as [HE HD HS HR].
  assert (HE' : edges_in n (add_edge E a b w)).
  { intros i k w' [He | [= -> -> ->]]; [exact (HE _ _ _ He) | auto]. }
  constructor.
  - exact HE'.
  - (* diagonal *)
    intros i Hi. destruct (U i i Hi Hi) as [_ H2]. rewrite <- (HD i Hi). apply H2.
    rewrite (HD i Hi). unfold via.
    pose proof (exact_triangle n E m b i a X Hb Hi Ha) as T.
    destruct (m i a) as [g1 |]; [| cbn; auto]. destruct (m b i) as [g2 |]; [| cbn; auto]. cbn in *.
    destruct (m b a) as [g3 |]; cbn in *; [| contradiction]. og O.
  - (* sound *)
    intros i j g Hi Hj Eg. destruct (is_min_cases _ _ _ (U i j Hi Hj)) as [E1 | E1]; rewrite E1 in Eg.
    + eapply walk_mono; [| apply (HS _ _ _ Hi Hj Eg)]. intros e He; left; exact He.
    + unfold via in Eg. destruct (m i a) as [g1 |] eqn:Eia; [| discriminate]. destruct (m b j) as [g2 |] eqn:Ebj; [| discriminate].
      cbn in Eg. injection Eg as <-.
      eapply walk_eq.
      * eapply walk_app; [eapply walk_mono; [| apply (HS _ _ _ Hi Ha Eia)]; intros e He; left; exact He |].
        eapply w_cons; [right; reflexivity |]. eapply walk_mono; [| apply (HS _ _ _ Hb Hj Ebj)]. intros e He; left; exact He.
      * og O.
  - (* relaxed *)
    intros i k w' j He Hj.
    assert (Hik : i < n /\ k < n) by (apply (HE' _ _ _ He)). destruct Hik as [Hi Hk].
    pose proof (is_min_le_l _ _ _ (U i j Hi Hj)) as L1. pose proof (is_min_le_r _ _ _ (U i j Hi Hj)) as L2.
    destruct He as [He | [= -> -> ->]].
    + pose proof (HR _ _ _ j He Hj) as R1. pose proof (HR _ _ _ a He Ha) as R2.
      destruct (is_min_cases _ _ _ (U k j Hk Hj)) as [E1 | E1]; rewrite E1.
      * exact (xle_trans _ _ _ L1 R1).
      * eapply xle_trans; [exact L2 |]. unfold via.
        destruct (m k a) as [g1 |]; [| apply xle_inf]. destruct (m b j) as [g2 |]; [| apply xle_inf].
        destruct (m i a) as [g3 |]; cbn in *; [| contradiction]. og O.
    + (* the new edge *)
      unfold via in L2. rewrite (HD a Ha) in L2.
      destruct (is_min_cases _ _ _ (U b j Hb Hj)) as [E1 | E1]; rewrite E1.
      * destruct (m b j) as [g2 |]; [| apply xle_inf]. destruct (m' a j); cbn in *; [| contradiction]. og O.
      * unfold via. destruct (m b j) as [g2 |]; [| destruct (m b a); apply xle_inf].
        destruct (m b a) as [g3 |]; [| apply xle_inf]. destruct (m' a j); cbn in *; [| contradiction]. og O.
Qed.

Definition xmin (x y : xd) : xd :=
  match x, y with
  | Fin a, Fin b => if gltb b a then Fin b else Fin a
  | Fin a, Inf => Fin a
  | Inf, z => z
  end.
Lemma xmin_is_min x y : is_min x y (xmin x y).
Proof.
  destruct x as [a |], y as [b |]; cbn; split; cbn; intros H; try reflexivity; try contradiction.
  - apply g_ltb_spec in H. rewrite H. reflexivity.
  - destruct (gltb b a) eqn:E; [| reflexivity]. apply g_ltb_spec in E. exfalso. exact (g_lt_not_le _ _ _ E H).
Qed.
Definition upd (m : mat) (a b : nat) (w : O) : mat := fun i j => xmin (m i j) (via m a b w i j).
Lemma upd_updated n m a b w : updated n m (upd m a b w) a b w.
Proof. intros i j _ _. apply xmin_is_min. Qed.

(* a conflict is reported exactly when the new edge closes a negative cycle *)
Theorem conflict_iff_neg_cycle n E m a b w :
  exact n E m -> a < n -> b < n ->
  (xlt (xadd (m b a) w) (Fin g0) <-> neg_cycle (add_edge E a b w)).
Proof.
  intros X Ha Hb. split.
  - intro H. destruct (m b a) as [g |] eqn:Eba; cbn in H; [| contradiction].
    exists a, (w +o g). split; [| og O].
    eapply w_cons; [right; reflexivity |]. eapply walk_mono; [| apply (ex_sound _ _ _ X _ _ _ Hb Ha Eba)]. intros e He; left; exact He.
  - intro NC. destruct (xlt_or_le (xadd (m b a) w) (Fin g0)) as [L | L]; [exact L | exfalso].
    exact (exact_no_neg_cycle _ _ _ (update_exact n E m (upd m a b w) a b w X Ha Hb L (upd_updated n m a b w)) NC).
Qed.
End Graph.
