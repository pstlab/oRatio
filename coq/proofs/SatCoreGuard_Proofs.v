(* A contract RELATIVE to an invariant of the theory state and to a decidable compatibility test between the theory state and
   the arguments sat_core passes - obtained WITHOUT changing the development that carries Inv, by a construction on the theory:

     K  : TS -> Prop                         an invariant of the theory state (e.g. Dl's `good` for its embedded assignment, lra_inv)
     gp : TS -> list lbool -> nat -> lit -> bool      "the call propagate(p) under this assignment / level fits the theory state"
     gc : TS -> list lbool -> nat -> bool             the same for check()      (e.g. every literal the theory has been told is true in
                                                      the assignment, p is true and has not been told, one layer per level)

   The GUARDED theory over the raw functions thp / thc / thpush / thpop has the state type WS = { ts | K ts } (the invariant holds
   by typing, in EVERY sat state) and answers like the raw theory when the test succeeds, and "nothing" (state unchanged, no
   lemma, no conflict) when it fails.  What the theory owner proves:
     (P1-P4) K is preserved by thp (under gp), thc (under gc), thpush, thpop;
     (V1)    for every sat state s over WS with Inv T s, p on the trail at the current level, gp = true:
             th_result_ok T s (lemmas and conflict of thp (proj1_sig (thst s)) (assigns s) (decision_level s) p)
             - i.e. lemma_ok / cnfl_ok, with K (proj1_sig (thst s)) and the guard as additional premises;
     (V2)    the same for thc under gc (and no lemma);
     (W)     optionally lemmas_wl_ok under the same premises (for the two-watched-literal theorems);
     (U)     optionally the undo law of the raw theory, relative to K.
   What he gets: theory_contract T w_thp w_thc - the ABSOLUTE contract - hence every theorem of Properties_C07.v / C08.v for the
   network sat_core + guarded theory, with no hypothesis left (w_soundness_core, w_pop_assume below).
   What is NOT proved here: that on the states reached by histories the tests always succeed, i.e. that the guarded theory
   never differs from the raw one.  That is a joint invariant of sat_core and the theory ("what the theory has been told is the
   trail minus the queue, one layer per level") that would have to be carried as a joint invariant in the sense of
   SatCoreRun_Proofs (records jprop / joint), with a weaker form between the dequeue of p and propagate(p), after the queue
   flush of a conflict and during the one-by-one pops of the analysis, where the natural invariant does not hold.  That has
   not been done; the guards make the theorems independent of it. *)
From Coq Require Import List Arith Bool Sorted.
From ORatio Require Import smt.SatCoreBase smt.SatCoreSpec smt.SatCore proofs.SatCoreInv_Proofs
  proofs.SatCoreAnalyze_Proofs proofs.SatCoreRun_Proofs proofs.SatCoreThm_Proofs proofs.SatCoreUndo_Proofs
  proofs.SatCoreWlRun_Proofs proofs.SatCoreWlThm_Proofs.
Import ListNotations.

Section Guard.
  Context {TS : Type}.
  Variable T : asg -> Prop.
  Variable thp : TS -> list lbool -> nat -> lit -> TS * list (list lit) * option (list lit).
  Variable thc : TS -> list lbool -> nat -> TS * list (list lit) * option (list lit).
  Variable thpush thpop : TS -> TS.
  Variable K : TS -> Prop.
  Variable gp : TS -> list lbool -> nat -> lit -> bool.
  Variable gc : TS -> list lbool -> nat -> bool.
  Hypothesis K_p : forall ts a dl p, K ts -> gp ts a dl p = true -> K (fst (fst (thp ts a dl p))).
  Hypothesis K_c : forall ts a dl, K ts -> gc ts a dl = true -> K (fst (fst (thc ts a dl))).
  Hypothesis K_push : forall ts, K ts -> K (thpush ts).
  Hypothesis K_pop : forall ts, K ts -> K (thpop ts).

  Definition WS : Type := { ts : TS | K ts }.
  Definition w_thp (w : WS) (a : list lbool) (dl : nat) (p : lit) : WS * list (list lit) * option (list lit) :=
    match bool_dec (gp (proj1_sig w) a dl p) true with
    | left H => let r := thp (proj1_sig w) a dl p in (exist K (fst (fst r)) (K_p (proj1_sig w) a dl p (proj2_sig w) H), snd (fst r), snd r)
    | right _ => (w, [], None)
    end.
  Definition w_thc (w : WS) (a : list lbool) (dl : nat) : WS * list (list lit) * option (list lit) :=
    match bool_dec (gc (proj1_sig w) a dl) true with
    | left H => let r := thc (proj1_sig w) a dl in (exist K (fst (fst r)) (K_c (proj1_sig w) a dl (proj2_sig w) H), snd (fst r), snd r)
    | right _ => (w, [], None)
    end.
  Definition w_thpush (w : WS) : WS := exist K (thpush (proj1_sig w)) (K_push _ (proj2_sig w)).
  Definition w_thpop (w : WS) : WS := exist K (thpop (proj1_sig w)) (K_pop _ (proj2_sig w)).

  (* when the test succeeds the guarded theory IS the raw theory *)
  Lemma w_thp_true : forall w a dl p, gp (proj1_sig w) a dl p = true ->
    proj1_sig (fst (fst (w_thp w a dl p))) = fst (fst (thp (proj1_sig w) a dl p)) /\
    snd (fst (w_thp w a dl p)) = snd (fst (thp (proj1_sig w) a dl p)) /\ snd (w_thp w a dl p) = snd (thp (proj1_sig w) a dl p).
  Proof. intros w a dl p H. unfold w_thp. destruct (bool_dec (gp (proj1_sig w) a dl p) true) as [G|G]; [|contradiction]. simpl. auto. Qed.
  Lemma w_thp_false : forall w a dl p, gp (proj1_sig w) a dl p <> true -> w_thp w a dl p = (w, [], None).
  Proof. intros w a dl p H. unfold w_thp. destruct (bool_dec (gp (proj1_sig w) a dl p) true) as [G|G]; [contradiction|reflexivity]. Qed.
  Lemma w_thc_true : forall w a dl, gc (proj1_sig w) a dl = true ->
    proj1_sig (fst (fst (w_thc w a dl))) = fst (fst (thc (proj1_sig w) a dl)) /\
    snd (fst (w_thc w a dl)) = snd (fst (thc (proj1_sig w) a dl)) /\ snd (w_thc w a dl) = snd (thc (proj1_sig w) a dl).
  Proof. intros w a dl H. unfold w_thc. destruct (bool_dec (gc (proj1_sig w) a dl) true) as [G|G]; [|contradiction]. simpl. auto. Qed.
  Lemma w_thc_false : forall w a dl, gc (proj1_sig w) a dl <> true -> w_thc w a dl = (w, [], None).
  Proof. intros w a dl H. unfold w_thc. destruct (bool_dec (gc (proj1_sig w) a dl) true) as [G|G]; [contradiction|reflexivity]. Qed.

  Notation wstate := (@state WS).
  (* (V1), (V2): the contract, asked only where the invariant (by typing) and the test hold *)
  Hypothesis V_p : forall (s : wstate) p, Inv T s -> In p (trail s) -> lvl s p = decision_level s ->
    gp (proj1_sig (thst s)) (assigns s) (decision_level s) p = true ->
    th_result_ok T s (thst s, snd (fst (thp (proj1_sig (thst s)) (assigns s) (decision_level s) p)),
                      snd (thp (proj1_sig (thst s)) (assigns s) (decision_level s) p)).
  Hypothesis V_c : forall (s : wstate), Inv T s -> gc (proj1_sig (thst s)) (assigns s) (decision_level s) = true ->
    th_result_ok T s (thst s, snd (fst (thc (proj1_sig (thst s)) (assigns s) (decision_level s))),
                      snd (thc (proj1_sig (thst s)) (assigns s) (decision_level s))) /\
    snd (fst (thc (proj1_sig (thst s)) (assigns s) (decision_level s))) = [].

  Theorem w_contract : theory_contract T w_thp w_thc.
  Proof.
    split.
    - intros s p I Hp Hl. destruct (bool_dec (gp (proj1_sig (thst s)) (assigns s) (decision_level s) p) true) as [G|G].
      + destruct (w_thp_true (thst s) (assigns s) (decision_level s) p G) as (_ & E2 & E3).
        pose proof (V_p s p I Hp Hl G) as [H1 H2]. unfold th_result_ok in *. simpl in *. rewrite E2, E3. split; assumption.
      + rewrite (w_thp_false _ _ _ _ G). unfold th_result_ok. simpl. split. constructor. intros; discriminate.
    - intros s I. destruct (bool_dec (gc (proj1_sig (thst s)) (assigns s) (decision_level s)) true) as [G|G].
      + destruct (w_thc_true (thst s) (assigns s) (decision_level s) G) as (_ & E2 & E3).
        destruct (V_c s I G) as [[H1 H2] H3]. unfold th_result_ok in *. simpl in *. rewrite E2, E3. split; [split|]; assumption.
      + rewrite (w_thc_false _ _ _ G). unfold th_result_ok. simpl. split; auto. split. constructor. intros; discriminate.
  Qed.

  (* (W): the extra clause of the two-watched-literal theorems, relative in the same way *)
  Theorem w_lemmas_wl :
    (forall (s : wstate) p, Inv T s -> In p (trail s) -> nth (fst p) (level s) 0 = decision_level s ->
       gp (proj1_sig (thst s)) (assigns s) (decision_level s) p = true ->
       lemmas_wl_ok s (snd (fst (thp (proj1_sig (thst s)) (assigns s) (decision_level s) p)))) ->
    forall (s : wstate) p, Inv T s -> In p (trail s) -> nth (fst p) (level s) 0 = decision_level s ->
      lemmas_wl_ok s (snd (fst (w_thp (thst s) (assigns s) (decision_level s) p))).
  Proof.
    intros H s p I Hp Hl. destruct (bool_dec (gp (proj1_sig (thst s)) (assigns s) (decision_level s) p) true) as [G|G].
    - destruct (w_thp_true (thst s) (assigns s) (decision_level s) p G) as (_ & E2 & _). rewrite E2. apply H; auto.
    - rewrite (w_thp_false _ _ _ _ G). simpl. split; constructor.
  Qed.

  (* (U): a trace of the guarded theory is a trace of the raw theory *)
  Lemma w_reach_proj : forall w0 w, th_reach w_thp w_thc w0 w -> th_reach thp thc (proj1_sig w0) (proj1_sig w).
  Proof.
    intros w0 w R. induction R as [|w a dl p R IH Q1 Q2|w a dl R IH Q1 Q2].
    - constructor.
    - destruct (bool_dec (gp (proj1_sig w) a dl p) true) as [G|G].
      + destruct (w_thp_true w a dl p G) as (E1 & E2 & E3). rewrite E1. apply tr_prop; auto; congruence.
      + rewrite (w_thp_false _ _ _ _ G). simpl. exact IH.
    - destruct (bool_dec (gc (proj1_sig w) a dl) true) as [G|G].
      + destruct (w_thc_true w a dl G) as (E1 & E2 & E3). rewrite E1. apply tr_check; auto; congruence.
      + rewrite (w_thc_false _ _ _ G). simpl. exact IH.
  Qed.
  Theorem w_undo : forall (O : Type) (th_obs : TS -> O),
    (forall ts0 ts, K ts0 -> th_reach thp thc (thpush ts0) ts -> th_obs (thpop ts) = th_obs ts0) ->
    forall w0 w, th_reach w_thp w_thc (w_thpush w0) w -> th_obs (proj1_sig (w_thpop w)) = th_obs (proj1_sig w0).
  Proof. intros O th_obs H w0 w R. apply (H (proj1_sig w0) (proj1_sig w) (proj2_sig w0)). exact (w_reach_proj _ _ R). Qed.

  (* the theorems of the network sat_core + guarded theory, no hypothesis about the theory left *)
  Variable sort : (lit -> lit -> bool) -> list lit -> list lit.
  Hypothesis Hsort : sort_contract sort.
  Variable FUEL : nat.
  Notation wrun := (run sort w_thp w_thc w_thpush w_thpop FUEL).
  Notation wrun_ok := (run_ok sort w_thp w_thc w_thpush w_thpop FUEL).

  (* C07, soundness core: values, reasons, learnt clauses, answers *)
  Theorem w_soundness_core : forall ops w0, wrun_ok ops (init w0) = true -> ub (wrun ops (init w0)) = false ->
    let s := wrun ops (init w0) in
    Inv T s /\
    (forall p, value_lit s p = LT -> entails T (axioms (log s) ++ units (decisions s)) [p]) /\
    (forall p, value_lit s p = LF -> entails T (axioms (log s) ++ units (decisions s)) [lneg p]) /\
    (forall pre q suf c, trail s = pre ++ q :: suf -> nth (fst q) (reason s) None = Some c ->
       exists rest, lits_of s c = q :: rest /\ (forall r, In r rest -> In (lneg r) suf \/ r = FALSE_lit) /\
                    entails T (axioms (log s)) (lits_of s c)) /\
    (forall post c pre, log s = post ++ (0, c) :: pre -> entails T (axioms pre) c).
  Proof.
    intros ops w0 Hok Hub s. split; [|split; [|split; [|split]]].
    - apply (reach T sort w_thp w_thc w_thpush w_thpop FUEL Hsort w_contract ops w0 Hok Hub).
    - apply (c07_values T sort w_thp w_thc w_thpush w_thpop FUEL Hsort w_contract ops w0 Hok Hub).
    - apply (c07_false_values T sort w_thp w_thc w_thpush w_thpop FUEL Hsort w_contract ops w0 Hok Hub).
    - apply (c07_reasons T sort w_thp w_thc w_thpush w_thpop FUEL Hsort w_contract ops w0 Hok Hub).
    - apply (c07_learnt T sort w_thp w_thc w_thpush w_thpop FUEL Hsort w_contract ops w0 Hok Hub).
  Qed.
  Theorem w_answers : forall ops o w0, wrun_ok (ops ++ [o]) (init w0) = true ->
    forall s' r, step sort w_thp w_thc w_thpush w_thpop FUEL (wrun ops (init w0)) o = (s', r) -> ub s' = false ->
    answer_sound T (wrun ops (init w0)) o s' r.
  Proof. intros ops o w0 Hok s' r E Hub. exact (c07_answers T sort w_thp w_thc w_thpush w_thpop FUEL Hsort w_contract ops o w0 Hok s' r E Hub). Qed.

  (* C07, no undefined behaviour (hence the `ub` premise above can be dropped) when the lemmas also meet lemmas_wl_ok *)
  Theorem w_no_ub :
    (forall (key : lit -> nat) l, StronglySorted (fun a b => key b <= key a) (sort (fun a b => Nat.ltb (key b) (key a)) l)) ->
    (forall (s : wstate) p, Inv T s -> In p (trail s) -> nth (fst p) (level s) 0 = decision_level s ->
       gp (proj1_sig (thst s)) (assigns s) (decision_level s) p = true ->
       lemmas_wl_ok s (snd (fst (thp (proj1_sig (thst s)) (assigns s) (decision_level s) p)))) ->
    forall ops w0, wrun_ok ops (init w0) = true -> ub (wrun ops (init w0)) = false.
  Proof.
    intros Hks Hwl ops w0 Hok.
    exact (c07_no_ub_lemmas T sort w_thp w_thc w_thpush w_thpop FUEL Hsort Hks w_contract (w_lemmas_wl Hwl) ops w0 Hok).
  Qed.

  (* C08, trace form: the undo law of the raw theory relative to K is all that is needed (K holds by typing) *)
  Theorem w_pop_assume : forall (O : Type) (th_obs : TS -> O),
    (forall ts0 ts, K ts0 -> th_reach thp thc (thpush ts0) ts -> th_obs (thpop ts) = th_obs ts0) ->
    forall ops w0, wrun_ok ops (init w0) = true -> ub (wrun ops (init w0)) = false ->
    forall p s', pre (wrun ops (init w0)) (OAssume p) = true ->
    assume sort w_thp w_thc w_thpush w_thpop FUEL (wrun ops (init w0)) p = (s', RTrue) ->
    log s' = log (wrun ops (init w0)) ->
    restored O (fun w => th_obs (proj1_sig w)) (wrun ops (init w0)) (pop w_thpop s').
  Proof.
    intros O th_obs Hundo ops w0 Hok Hub p s' Hpre E Hl.
    assert (HU : forall ts0 ts : WS, True -> th_reach w_thp w_thc (w_thpush ts0) ts -> th_obs (proj1_sig (w_thpop ts)) = th_obs (proj1_sig ts0)).
    { intros ts0 ts _ R. apply (w_undo O th_obs Hundo ts0 ts R). }
    exact (c08_pop_assume_trace T sort w_thp w_thc w_thpush w_thpop FUEL Hsort w_contract O (fun w => th_obs (proj1_sig w)) (fun _ => True)
             HU ops w0 Hok Hub Logic.I p s' Hpre E Hl).
  Qed.
End Guard.
