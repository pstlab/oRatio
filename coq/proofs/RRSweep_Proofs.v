(* C05 -- proofs about plan/RRSweep.v (the model of /repo/solver/types/reusable_resource.cpp) on top of Sweep_Proofs.
   Main results (restated in props/Properties_C05.v):
     rr_sweep_total, peak_iff, peak_spec (MCS: live together, over the capacity, minimal, at least one per peak),
     mcs_extract_total / mcs_extract_windows / mcs_extract_nonempty / mcs_window_minimal (for ANY sorted input list),
     rr_instance_ok_sound, timeline_usage, mcs_pair_must_separate, mcs_some_pair_not_overlapping
     (+ rr_resolvers_not_exhaustive_both_moved_refuted).
   All by induction over the pulse list / the window loop: no bound on the number of atoms. *)
From Coq Require Import ZArith List Bool Lia Sorting.Sorted Permutation.
From ORatio Require Import plan.Sweep plan.RRSweep proofs.Sweep_Proofs.
Import ListNotations.
Local Open Scope Z_scope.

Lemma qd_add_comm : forall a b, qd_add a b = qd_add b a.
Proof. intros. qd_lia. Qed.

Lemma fold_qd_add : forall (A : Type) (f : A -> qd) l u,
  fold_left (fun u a => qd_add u (f a)) l u = qd_add u (fold_left (fun u a => qd_add u (f a)) l qd0).
Proof.
  intros A f l. induction l as [|a r IH]; intros u; simpl; [qd_lia|].
  rewrite IH, (IH (qd_add qd0 (f a))). qd_lia.
Qed.

Lemma usage_nil : usage [] = qd0.
Proof. reflexivity. Qed.

Lemma usage_cons : forall a l, usage (a :: l) = qd_add (a_amount a) (usage l).
Proof. intros a l. unfold usage. simpl. rewrite fold_qd_add. qd_lia. Qed.

Lemma usage_app : forall l1 l2, usage (l1 ++ l2) = qd_add (usage l1) (usage l2).
Proof.
  intros l1 l2. induction l1 as [|a r IH]; simpl; [rewrite usage_nil; qd_lia|].
  rewrite !usage_cons, IH. qd_lia.
Qed.

Lemma usage_perm : forall l1 l2, Permutation l1 l2 -> usage l1 = usage l2.
Proof.
  intros l1 l2 P. induction P as [|x l l' P IH|x y l|l l' l'' P1 IH1 P2 IH2].
  - reflexivity.
  - rewrite !usage_cons, IH. reflexivity.
  - rewrite !usage_cons. qd_lia.
  - congruence.
Qed.

Definition amt_ge (a b : atom) : Prop := qd_le (a_amount b) (a_amount a).
Definition desc_sorted (l : list atom) : Prop := StronglySorted amt_ge l.

Lemma insert_desc_perm : forall a l, Permutation (insert_desc a l) (a :: l).
Proof.
  intros a l. induction l as [|b r IH]; simpl; [apply Permutation_refl|].
  destruct (qd_ltb (a_amount b) (a_amount a)); [apply Permutation_refl|].
  eapply Permutation_trans; [apply perm_skip; exact IH | apply perm_swap].
Qed.

Lemma insert_desc_sorted : forall a l, desc_sorted l -> desc_sorted (insert_desc a l).
Proof.
  intros a l H. induction H as [|b r Hr IH Hb]; simpl.
  - constructor; constructor.
  - destruct (qd_ltb (a_amount b) (a_amount a)) eqn:E.
    + constructor; [constructor; assumption|]. constructor; [unfold amt_ge; qd_lia|].
      rewrite Forall_forall in *. intros y Hy. specialize (Hb y Hy). unfold amt_ge in *. qd_lia.
    + constructor; [assumption|]. rewrite Forall_forall in *. intros y Hy.
      apply (Permutation_in _ (insert_desc_perm a r)) in Hy. destruct Hy as [<-|Hy]; [unfold amt_ge; qd_lia | auto].
Qed.

Lemma sort_desc_perm : forall l, Permutation (sort_desc l) l.
Proof.
  intros l. unfold sort_desc. induction l as [|a r IH]; simpl; [constructor|].
  eapply Permutation_trans; [apply insert_desc_perm | apply perm_skip; exact IH].
Qed.

Lemma sort_desc_sorted : forall l, desc_sorted (sort_desc l).
Proof.
  intros l. unfold sort_desc. induction l as [|a r IH]; simpl; [constructor | apply insert_desc_sorted; exact IH].
Qed.

Lemma grow_spec : forall cap rest win u win' u' rest',
  grow cap win u rest = (win', u', rest') ->
  exists moved, win' = win ++ moved /\ rest = moved ++ rest' /\ u' = qd_add u (usage moved) /\
    (rest' = [] \/ qd_lt cap u') /\
    (forall m1 x m2, moved = m1 ++ x :: m2 -> qd_le (qd_add u (usage m1)) cap).
Proof.
  intros cap rest. induction rest as [|x r IH]; intros win u win' u' rest' H; simpl in H.
  - inversion H; subst. exists []. rewrite app_nil_r.
    split; [reflexivity|]. split; [reflexivity|]. split; [rewrite usage_nil; qd_lia|]. split; [left; reflexivity|].
    intros m1 y m2 E. destruct m1; discriminate.
  - destruct (qd_leb u cap) eqn:E.
    + destruct (IH _ _ _ _ _ H) as [moved (M1 & M2 & M3 & M4 & M5)]. exists (x :: moved).
      split; [rewrite M1, <- app_assoc; reflexivity|]. split; [rewrite M2; reflexivity|].
      split; [rewrite M3, usage_cons; qd_lia|]. split; [exact M4|].
      intros m1 y m2 Em. destruct m1 as [|z m1]; simpl in Em; inversion Em; subst.
      * rewrite usage_nil. qd_lia.
      * rewrite usage_cons. specialize (M5 m1 y m2 eq_refl). qd_lia.
    + inversion H; subst. exists []. rewrite app_nil_r.
      split; [reflexivity|]. split; [reflexivity|]. split; [rewrite usage_nil; qd_lia|]. split; [right; qd_lia|].
      intros m1 y m2 Em. destruct m1; discriminate.
Qed.

Lemma usage_pos_nonempty : forall cap l, qd_le qd0 cap -> qd_lt cap (usage l) -> l <> [].
Proof. intros cap l H1 H2 ->. rewrite usage_nil in H2. qd_lia. Qed.

(* one turn of the outer loop from a window with its usage: either a set is emitted (the grown window h :: tl, over the
   capacity, within it without its last element if the window was within it before) and the loop goes on with tl, or
   everything that is left fits and nothing more is emitted *)
Lemma mcs_loop_step : forall f cap win x r, qd_le qd0 cap ->
  (exists h tl rest', win ++ x :: r = (h :: tl) ++ rest' /\ qd_lt cap (usage (h :: tl)) /\
     (qd_le (usage win) cap -> exists body lst, h :: tl = body ++ [lst] /\ qd_le (usage body) cap) /\
     mcs_loop (S f) cap win (usage win) (x :: r) = option_map (cons (h :: tl)) (mcs_loop f cap tl (usage tl) rest')) \/
  (qd_le (usage (win ++ x :: r)) cap /\ mcs_loop (S f) cap win (usage win) (x :: r) = Some []).
Proof.
  intros f cap win x r C. cbn [mcs_loop].
  destruct (grow cap win (usage win) (x :: r)) as [[win' u'] rest'] eqn:G.
  destruct (grow_spec _ _ _ _ _ _ _ G) as [moved (M1 & M2 & M3 & M4 & M5)].
  assert (U' : u' = usage win') by (rewrite M1, M3, usage_app; reflexivity). clear M3. subst u'.
  destruct (qd_ltb cap (usage win')) eqn:E.
  - left. destruct win' as [|h tl]; [exfalso; rewrite usage_nil in E; qd_lia|].
    exists h, tl, rest'. split; [rewrite M1, M2, app_assoc; reflexivity|]. split; [qd_lia|]. split.
    + (* the last element of the window is the last one moved *)
      intros Ule. assert (Mne : moved <> []).
      { intros ->. rewrite app_nil_r in M1. rewrite M1 in E. qd_lia. }
      destruct (exists_last Mne) as [mb [lst Em]]. exists (win ++ mb), lst.
      split; [rewrite M1, Em, app_assoc; reflexivity|]. rewrite usage_app. apply (M5 mb lst []). assumption.
    + replace (qd_sub (usage (h :: tl)) (a_amount h)) with (usage tl) by (rewrite usage_cons; qd_lia).
      destruct (mcs_loop f cap tl (usage tl) rest'); reflexivity.
  - right. destruct M4 as [->|M4]; [|exfalso; qd_lia].
    rewrite M2, app_nil_r, <- M1. split; [qd_lia | destruct f; reflexivity].
Qed.

(* termination and absence of undefined behaviour: needs only 0 <= capacity *)
Lemma mcs_loop_total : forall fuel cap win rest, qd_le qd0 cap ->
  (length win + length rest < fuel)%nat -> mcs_loop fuel cap win (usage win) rest <> None.
Proof.
  intros fuel cap. induction fuel as [|f IH]; intros win rest C L; [lia|].
  destruct rest as [|x r]; [discriminate|].
  destruct (mcs_loop_step f cap win x r C) as [(h & tl & rest' & Eq & _ & _ & ->)|[_ ->]]; [|discriminate].
  assert (R : mcs_loop f cap tl (usage tl) rest' <> None).
  { apply IH; [assumption|]. apply (f_equal (@length atom)) in Eq. rewrite !app_length in Eq. simpl in *. lia. }
  destruct (mcs_loop f cap tl (usage tl) rest'); [discriminate | congruence].
Qed.

Theorem mcs_extract_total : forall cap l, qd_le qd0 cap -> exists ms, mcs_extract cap l = Some ms.
Proof.
  intros cap l C. unfold mcs_extract.
  destruct (mcs_loop (S (length l)) cap [] qd0 l) as [ms|] eqn:E; [exists ms; reflexivity|].
  exfalso. revert E. apply (mcs_loop_total _ cap []); [assumption | simpl; lia].
Qed.

(* what an emitted set is: a window of the input list that exceeds the capacity although it does not without its last element *)
Definition is_mcs_window (cap : qd) (l m : list atom) : Prop :=
  (exists pre post, l = pre ++ m ++ post) /\ qd_lt cap (usage m) /\
  exists body lst, m = body ++ [lst] /\ qd_le (usage body) cap.

(* minimality: taking any one atom out of an emitted set brings it within the capacity, since no atom of the set is
   smaller than the last one *)
Theorem mcs_window_minimal : forall cap l m, desc_sorted l -> is_mcs_window cap l m ->
  forall m1 x m2, m = m1 ++ x :: m2 -> qd_le (usage (m1 ++ m2)) cap.
Proof.
  intros cap l m Srt ((pre & post & L) & Over & body & lst & Em & Body) m1 x m2 E.
  assert (Hge : amt_ge x lst).
  { assert (Hx : In x (body ++ [lst])) by (rewrite <- Em, E; apply in_elt).
    apply in_app_or in Hx. destruct Hx as [Hx|[<-|[]]]; [|apply qd_le_refl].
    rewrite L, Em in Srt. apply StronglySorted_app_inv in Srt. destruct Srt as (_ & S2 & _).
    apply StronglySorted_app_inv in S2. destruct S2 as (S3 & _ & _).
    apply (StronglySorted_app_inv _ _ _ _ S3); [assumption | left; reflexivity]. }
  assert (U1 : usage m = qd_add (usage body) (a_amount lst)).
  { rewrite Em, usage_app, usage_cons, usage_nil. qd_lia. }
  assert (U2 : usage m = qd_add (usage (m1 ++ m2)) (a_amount x)).
  { rewrite E, !usage_app, usage_cons. qd_lia. }
  unfold amt_ge in Hge. qd_lia.
Qed.

(* the window stays within the capacity between the turns: after pop_front by minimality *)
Lemma mcs_loop_spec : forall fuel cap l, qd_le qd0 cap -> desc_sorted l ->
  forall dropped win rest ms, l = dropped ++ win ++ rest -> qd_le (usage win) cap ->
  mcs_loop fuel cap win (usage win) rest = Some ms ->
  forall m, In m ms -> is_mcs_window cap l m.
Proof.
  intros fuel cap l C Srt. induction fuel as [|f IH]; intros dropped win rest ms L Ule H m Hm.
  - destruct rest; simpl in H; [inversion H; subst; contradiction | discriminate].
  - destruct rest as [|x r]; [inversion H; subst; contradiction|].
    destruct (mcs_loop_step f cap win x r C) as [(h & tl & rest' & Eq & Over & Body & E)|[_ E]];
      rewrite E in H; [|inversion H; subst; contradiction].
    destruct (mcs_loop f cap tl (usage tl) rest') as [ms'|] eqn:R; [|discriminate].
    inversion H; subst ms. clear H E.
    assert (L' : l = dropped ++ (h :: tl) ++ rest') by (rewrite L, Eq; reflexivity).
    assert (W : is_mcs_window cap l (h :: tl)).
    { split; [exists dropped, rest'; exact L'|]. split; [assumption | apply Body; assumption]. }
    destruct Hm as [<-|Hm]; [exact W|].
    pose proof (mcs_window_minimal cap l _ Srt W [] h tl eq_refl) as Hmin.
    apply (IH (dropped ++ [h]) tl rest' ms'); try assumption. rewrite L', <- app_assoc. reflexivity.
Qed.

Theorem mcs_extract_windows : forall cap l ms, qd_le qd0 cap -> desc_sorted l -> mcs_extract cap l = Some ms ->
  forall m, In m ms -> is_mcs_window cap l m.
Proof.
  intros cap l ms C Srt H m Hm. unfold mcs_extract in H.
  apply (mcs_loop_spec (S (length l)) cap l C Srt [] [] l ms); auto.
Qed.

(* at least one set per peak *)
Theorem mcs_extract_nonempty : forall cap l ms, qd_le qd0 cap -> qd_lt cap (usage l) -> mcs_extract cap l = Some ms -> ms <> [].
Proof.
  intros cap l ms C P H. unfold mcs_extract in H.
  destruct l as [|x r]; [rewrite usage_nil in P; exfalso; qd_lia|].
  destruct (mcs_loop_step (length (x :: r)) cap [] x r C) as [(h & tl & rest' & _ & _ & _ & E)|[Le _]].
  - change qd0 with (usage []) in H. rewrite E in H.
    destruct (mcs_loop (length (x :: r)) cap tl (usage tl) rest'); [|discriminate]. inversion H. discriminate.
  - exfalso. simpl in Le. qd_lia.
Qed.

Lemma rr_loop_spec : forall t cap ps ov pk, rr_loop t cap ps ov = Some pk ->
  (forall k, In k pk ->
     In (pk_pulse k, pk_live k) (states t ps ov) /\ qd_lt cap (usage (pk_live k)) /\
     mcs_extract cap (sort_desc (pk_live k)) = Some (pk_mcs k)) /\
  (forall p o, In (p, o) (states t ps ov) -> qd_lt cap (usage o) -> exists k, In k pk /\ pk_pulse k = p /\ pk_live k = o).
Proof.
  intros t cap ps. induction ps as [|p r IH]; intros ov pk H; simpl in H.
  - inversion H; subst. split; [intros k []|intros p o []].
  - simpl states. destruct (qd_ltb cap (usage (step_pulse t p ov))) eqn:E.
    + destruct (mcs_extract cap (sort_desc (step_pulse t p ov))) as [ms|] eqn:M; [|discriminate].
      destruct (rr_loop t cap r (step_pulse t p ov)) as [pk'|] eqn:R; [|discriminate].
      inversion H; subst pk. destruct (IH _ _ R) as [I1 I2]. split.
      * intros k [<-|Hk]; simpl; [split; [left; reflexivity|]; split; [qd_lia | exact M]|].
        destruct (I1 k Hk) as (A & B & C). split; [right; exact A|]. split; assumption.
      * intros q o [Hq|Hq] Hu.
        -- inversion Hq; subst. eexists. split; [left; reflexivity|]. simpl. split; reflexivity.
        -- destruct (I2 q o Hq Hu) as [k (K1 & K2 & K3)]. exists k. split; [right; assumption|]. split; assumption.
    + destruct (IH _ _ H) as [I1 I2]. split.
      * intros k Hk. destruct (I1 k Hk) as (A & B & C). split; [right; exact A|]. split; assumption.
      * intros q o [Hq|Hq] Hu; [inversion Hq; subst; exfalso; qd_lia|]. apply I2; assumption.
Qed.

Lemma rr_loop_total : forall t cap ps ov, qd_le qd0 cap -> exists pk, rr_loop t cap ps ov = Some pk.
Proof.
  intros t cap ps. induction ps as [|p r IH]; intros ov C; simpl; [eexists; reflexivity|].
  destruct (IH (step_pulse t p ov) C) as [pk' R]. rewrite R.
  destruct (qd_ltb cap (usage (step_pulse t p ov))); [|eexists; reflexivity].
  destruct (mcs_extract_total cap (sort_desc (step_pulse t p ov)) C) as [ms M]. rewrite M. eexists; reflexivity.
Qed.

Lemma coversb_spec : forall a x, coversb a x = true <-> covers a x.
Proof. intros a x. unfold coversb, covers. rewrite andb_true_iff, qd_leb_iff, qd_ltb_iff. tauto. Qed.

Lemma argmax : forall (A : Type) (f : A -> qd) (l : list A), l <> [] ->
  exists k, In k l /\ forall a, In a l -> qd_le (f a) (f k).
Proof.
  intros A f l. induction l as [|a r IH]; intros N; [congruence|].
  destruct r as [|b r'].
  - exists a. split; [left; reflexivity|]. intros z [<-|[]]. apply qd_le_refl.
  - destruct IH as [k [Hk Mk]]; [discriminate|].
    destruct (qd_ltb (f k) (f a)) eqn:E.
    + exists a. split; [left; reflexivity|]. intros z [<-|Hz]; [apply qd_le_refl|]. specialize (Mk z Hz). qd_lia.
    + exists k. split; [right; assumption|]. intros z [<-|Hz]; [qd_lia | apply Mk; assumption].
Qed.

Lemma NoDup_app_inv : forall (A : Type) (l1 l2 : list A), NoDup (l1 ++ l2) -> NoDup l1 /\ NoDup l2.
Proof.
  intros A l1. induction l1 as [|a r IH]; intros l2 H; simpl in H; [split; [constructor | assumption]|].
  apply NoDup_cons_iff in H. destruct H as [Hn Hr]. destruct (IH l2 Hr) as [I1 I2].
  split; [|assumption]. constructor; [|assumption]. intros Hin. apply Hn. apply in_or_app. auto.
Qed.

Section RrSweep.
  Variable atoms : list atom.
  Hypothesis ND : NoDup (map a_id atoms).
  Hypothesis WF : forall a, In a atoms -> wf_atom a.
  Variable cap : qd.
  Hypothesis CAP : qd_le qd0 cap.               (* rr_constructor: capacity >= 0 *)

  Let U : uniq atoms := NoDup_ids_uniq atoms ND.

  Lemma usage_at_eq : forall o x, NoDup o -> (forall a, In a o <-> In a atoms /\ covers a x) ->
    usage o = usage_at atoms x.
  Proof.
    intros o x No H. unfold usage_at. apply usage_perm, NoDup_Permutation; [assumption | |].
    - apply NoDup_filter, (NoDup_map_inv a_id), ND.
    - intros a. rewrite filter_In, coversb_spec. apply H.
  Qed.

  Lemma live_set_usage : forall p o, live_set atoms p o -> StronglySorted id_lt o -> usage o = usage_at atoms p.
  Proof.
    intros p o LS So. apply usage_at_eq; [apply sorted_id_NoDup; assumption | apply (live_set_covers atoms WF); assumption].
  Qed.

  (* an arbitrary instant is covered by exactly the atoms covering the last pulse before it *)
  Lemma usage_at_last_pulse : forall x a, In a atoms -> covers a x ->
    exists p, is_pulse atoms p /\ usage_at atoms x = usage_at atoms p.
  Proof.
    intros x a Ha [C1 C2].
    assert (Below : forall w, In w (filter (fun z => qd_leb z x) (pulses (build atoms))) <-> is_pulse atoms w /\ qd_le w x).
    { intros w. rewrite filter_In, (pulses_spec atoms U), qd_leb_iff. reflexivity. }
    destruct (argmax _ (fun z => z) (filter (fun z => qd_leb z x) (pulses (build atoms)))) as [p [Hp P3]].
    { assert (H : is_pulse atoms (a_start a) /\ qd_le (a_start a) x) by (split; [exists a; auto | assumption]).
      apply Below in H. intros E. rewrite E in H. exact H. }
    apply Below in Hp. destruct Hp as [Pp P2]. exists p. split; [assumption|].
    unfold usage_at. f_equal. apply filter_ext_in. intros b Hb.
    assert (Ps : qd_le (a_start b) x -> qd_le (a_start b) p) by (intros L; apply P3, Below; split; [exists b; auto | assumption]).
    assert (Pe : qd_le (a_end b) x -> qd_le (a_end b) p) by (intros L; apply P3, Below; split; [exists b; auto | assumption]).
    apply eq_true_iff_eq. rewrite !coversb_spec. unfold covers. split; intros [B1 B2].
    - split; [apply Ps; assumption | exact (qd_le_lt_trans _ _ _ P2 B2)].
    - split; [exact (qd_le_trans _ _ _ B1 P2)|]. apply qd_not_le. intros E. apply Pe in E.
      exact (qd_lt_irrefl _ (qd_le_lt_trans _ _ _ E B2)).
  Qed.

  (* the sweep never runs out of fuel / into front() of an empty list, and it reports a peak iff at some instant
     the amounts of the atoms covering it add up to more than the capacity *)
  Theorem rr_sweep_total : exists pk, rr_sweep atoms cap = Some pk.
  Proof. unfold rr_sweep. apply rr_loop_total. assumption. Qed.

  Theorem peak_iff : forall pk, rr_sweep atoms cap = Some pk ->
    (pk <> [] <-> exists x, qd_lt cap (usage_at atoms x)).
  Proof.
    intros pk H. unfold rr_sweep in H. destruct (rr_loop_spec _ _ _ _ _ H) as [I1 I2]. split.
    - intros N. destruct pk as [|k r]; [congruence|].
      destruct (I1 k (or_introl eq_refl)) as (A & B & _).
      destruct (states_spec atoms U _ _ A) as (_ & LS & So).
      exists (pk_pulse k). rewrite <- (live_set_usage _ _ LS So). assumption.
    - intros [x Hx]. unfold usage_at in Hx.
      destruct (filter (fun a => coversb a x) atoms) as [|a r] eqn:F; [destruct (usage_pos_nonempty cap [] CAP Hx eq_refl)|].
      assert (Ca : In a (filter (fun a => coversb a x) atoms)) by (rewrite F; left; reflexivity).
      apply filter_In in Ca. rewrite coversb_spec in Ca. destruct Ca as [Ha Ca].
      rewrite <- F in Hx. fold (usage_at atoms x) in Hx.
      destruct (usage_at_last_pulse x a Ha Ca) as [p [Pp Ep]]. rewrite Ep in Hx.
      destruct (states_complete atoms U p Pp) as [o Ho].
      destruct (states_spec atoms U _ _ Ho) as (_ & LS & So).
      destruct (I2 p o Ho) as [k [Hk _]]; [rewrite (live_set_usage _ _ LS So); assumption|].
      intros ->. contradiction.
  Qed.

  (* every reported peak: the pulse, the atoms live there = the atoms covering it, and its conflict sets *)
  Theorem peak_spec : forall pk k, rr_sweep atoms cap = Some pk -> In k pk ->
    is_pulse atoms (pk_pulse k) /\
    (forall a, In a (pk_live k) <-> In a atoms /\ covers a (pk_pulse k)) /\
    qd_lt cap (usage_at atoms (pk_pulse k)) /\
    pk_mcs k <> [] /\
    forall m, In m (pk_mcs k) ->
      incl m (pk_live k) /\ NoDup m /\ qd_lt cap (usage m) /\
      (forall m1 x m2, m = m1 ++ x :: m2 -> qd_le (usage (m1 ++ m2)) cap).
  Proof.
    intros pk k H Hk. unfold rr_sweep in H. destruct (rr_loop_spec _ _ _ _ _ H) as [I1 _].
    destruct (I1 k Hk) as (A & B & M).
    destruct (states_spec atoms U _ _ A) as (Pp & LS & So).
    pose proof (sort_desc_perm (pk_live k)) as P.
    split; [assumption|]. split; [apply (live_set_covers atoms WF); assumption|].
    split; [rewrite <- (live_set_usage _ _ LS So); assumption|].
    split; [apply (mcs_extract_nonempty cap _ _ CAP) in M; [assumption | rewrite (usage_perm _ _ P); assumption]|].
    intros m Hm.
    pose proof (mcs_extract_windows cap _ _ CAP (sort_desc_sorted (pk_live k)) M m Hm) as W.
    pose proof W as ((pre & post & L) & Over & _).
    split; [|split; [|split]].
    - intros z Hz. apply (Permutation_in _ P). rewrite L. apply in_or_app. right. apply in_or_app. left. assumption.
    - assert (N : NoDup (sort_desc (pk_live k))).
      { apply (Permutation_NoDup (Permutation_sym P)), sorted_id_NoDup. assumption. }
      rewrite L in N. apply NoDup_app_inv in N. destruct N as [_ N]. apply NoDup_app_inv in N. apply N.
    - assumption.
    - apply (mcs_window_minimal cap (sort_desc (pk_live k)) m (sort_desc_sorted _) W).
  Qed.

  Theorem rr_instance_ok_sound : rr_instance_ok atoms cap = true <-> forall x, qd_le (usage_at atoms x) cap.
  Proof.
    unfold rr_instance_ok. destruct rr_sweep_total as [pk H]. rewrite H.
    pose proof (peak_iff pk H) as P. split.
    - intros E x. destruct pk; [|discriminate]. apply qd_not_lt. intros L. destruct P as [_ P].
      apply P; [exists x; assumption | reflexivity].
    - intros A. destruct pk as [|k r]; [reflexivity|]. exfalso.
      destruct P as [P _]. destruct P as [x Hx]; [discriminate|]. specialize (A x). qd_lia.
  Qed.

  (* extract_timelines: the usage shown for a segment is the sum over the atoms covering (any instant of) it *)
  Theorem timeline_usage : forall origin horizon seg u, In (seg, u) (rr_timeline atoms origin horizon) ->
    u = usage (seg_atoms seg) /\
    forall x, qd_le (seg_from seg) x -> qd_lt x (seg_to seg) -> u = usage_at atoms x.
  Proof.
    intros origin horizon seg u H. unfold rr_timeline in H. apply in_map_iff in H.
    destruct H as [s [E Hs]]. inversion E; subst. split; [reflexivity|].
    intros x X1 X2. apply usage_at_eq.
    - apply sorted_id_NoDup, (timeline_segment_spec atoms U origin horizon _ Hs).
    - apply (timeline_shows_covering atoms U origin horizon WF _ Hs x X1 X2).
  Qed.
End RrSweep.

Lemma sum_amt_fold : forall amt l u, fold_left (fun u a => qd_add u (amt a)) l u = qd_add u (sum_amt amt l).
Proof. intros amt. exact (fold_qd_add Z amt). Qed.

Lemma filter_all_or : forall (A : Type) (f : A -> bool) l, filter f l = l \/ exists x, In x l /\ f x = false.
Proof.
  intros A f l. induction l as [|a r IH]; simpl; [left; reflexivity|].
  destruct (f a) eqn:E; [|right; exists a; auto].
  destruct IH as [->|[x [Hx Fx]]]; [left; reflexivity | right; exists x; auto].
Qed.

Lemma partner : forall (m : list Z) a, NoDup m -> (2 <= length m)%nat -> In a m -> exists b, In b m /\ a <> b.
Proof.
  intros m a N L Ha. destruct m as [|p [|q t]]; simpl in L; try lia.
  inversion N as [|? ? Np _]; subst.
  destruct (Z.eq_dec a p) as [->|D].
  - exists q. split; [right; left; reflexivity|]. intros ->. apply Np. left. reflexivity.
  - exists p. split; [left; reflexivity | assumption].
Qed.

(* the decision get_current_incs asks for: in any completion that respects the capacity of r, two atoms of the conflict set
   are not both on r at a common instant -- "at least two atoms of an over-capacity set must be separated or moved".
   Pairwise intersecting half-open intervals have a common instant, the latest start (Helly in dimension one): were all of m
   on r there, the usage would be the whole sum. So some atom a is off r or has ended by then, and a with the atom that
   starts last (or, if a is that atom, a with any other one) is the pair. *)
Theorem mcs_pair_must_separate : forall c amt m r cap, NoDup m -> (2 <= length m)%nat ->
  qd_lt cap (sum_amt amt m) -> (forall x, qd_le (c_usage_at c amt m r x) cap) ->
  exists a b, In a m /\ In b m /\ a <> b /\ (c_tau c a <> r \/ c_tau c b <> r \/ ~ c_intersect c a b).
Proof.
  intros c amt m r cap N L Over Resp.
  destruct (argmax _ (c_start c) m) as [k [Hk Mk]]; [intros ->; simpl in L; lia|].
  specialize (Resp (c_start c k)). unfold c_usage_at in Resp.
  destruct (filter_all_or _ (fun a => (c_tau c a =? r) && qd_leb (c_start c a) (c_start c k) && qd_ltb (c_start c k) (c_end c a)) m)
    as [E|[a [Ha Fa]]].
  - rewrite E in Resp. fold (sum_amt amt m) in Resp. exfalso. qd_lia.
  - assert (Ca : c_tau c a <> r \/ qd_le (c_end c a) (c_start c k)).
    { apply andb_false_iff in Fa. destruct Fa as [Fa|Fa]; [|right; qd_lia].
      apply andb_false_iff in Fa. destruct Fa as [Fa|Fa]; [left; apply Z.eqb_neq; assumption|].
      specialize (Mk a Ha). exfalso. qd_lia. }
    destruct (Z.eq_dec a k) as [->|D].
    + destruct (partner m k N L Hk) as [b [Hb Db]]. exists k, b. repeat split; try assumption.
      destruct Ca as [Ca|Ca]; [left; assumption|]. right; right. intros [x [[A1 A2] _]]. qd_lia.
    + exists a, k. repeat split; try assumption.
      destruct Ca as [Ca|Ca]; [left; assumption|]. right; right. intros [x [[A1 A2] [B1 B2]]]. qd_lia.
Qed.

(* if the capacity is respected on EVERY instance (and is the same everywhere), some pair of the conflict set does not overlap,
   so for that pair Sweep_Proofs.resolvers_exhaustive applies: take for r the instance of the first atom; an atom that is
   not on it does not overlap the first one *)
Theorem mcs_some_pair_not_overlapping : forall c amt m cap, NoDup m -> (2 <= length m)%nat ->
  qd_lt cap (sum_amt amt m) -> (forall r x, qd_le (c_usage_at c amt m r x) cap) ->
  exists a b, In a m /\ In b m /\ a <> b /\ ~ c_overlap c a b.
Proof.
  intros c amt m cap N L Over Resp.
  destruct m as [|p t]; [simpl in L; lia|].
  assert (Off : forall a, In a (p :: t) -> c_tau c a <> c_tau c p ->
                exists a b, In a (p :: t) /\ In b (p :: t) /\ a <> b /\ ~ c_overlap c a b).
  { intros a Ha D. exists a, p. split; [assumption|]. split; [left; reflexivity|]. split; [congruence|]. intros [E _]. contradiction. }
  destruct (mcs_pair_must_separate c amt (p :: t) (c_tau c p) cap N L Over (Resp _)) as (a & b & Ha & Hb & D & S).
  destruct S as [S|[S|S]]; [exact (Off a Ha S) | exact (Off b Hb S) |].
  exists a, b. repeat split; try assumption. intros [_ I]. contradiction.
Qed.

(* why "on every instance": moving BOTH atoms of a pair to a bigger resource respects the capacity of r, yet no resolver of the
   pair (order either way, place one and forbid the other) is true -- the resolver set loses that completion (C02's subject) *)
Theorem rr_resolvers_not_exhaustive_both_moved_refuted :
  exists c amt m r cap t0 t1, NoDup m /\ qd_lt cap (sum_amt amt m) /\ (forall x, qd_le (c_usage_at c amt m r x) cap) /\
    respects c 0 t0 /\ respects c 1 t1 /\ m = [0; 1] /\
    forall res, In res (sv_resolvers 0 1 t0 t1) -> ~ holds c res.
Proof.
  exists (mkCompl (fun _ => (0, 0)) (fun _ => (10, 0)) (fun _ => 8)), (fun _ => (1, 0)), [0; 1], 7, (1, 0),
         (TVar [7; 8]), (TVar [7; 8]).
  split; [repeat constructor; simpl; intuition lia|].
  split; [unfold sum_amt, qd_lt; simpl; lia|].
  split; [intros x; unfold c_usage_at, qd_le; simpl; lia|].
  split; [simpl; auto|]. split; [simpl; auto|]. split; [reflexivity|].
  intros res H. simpl in H. destruct H as [<-|[<-|[<-|[<-|[]]]]]; simpl; intros G; qd_lia.
Qed.

Lemma usage_nonneg : forall l, (forall a, In a l -> qd_le qd0 (a_amount a)) -> qd_le qd0 (usage l).
Proof.
  intros l. induction l as [|x r IH]; intros NN; [rewrite usage_nil; apply qd_le_refl|].
  rewrite usage_cons. assert (qd_le qd0 (a_amount x)) by (apply NN; left; reflexivity).
  assert (qd_le qd0 (usage r)) by (apply IH; intros a Ha; apply NN; right; assumption). qd_lia.
Qed.

(* When the atoms of a pulse are within the capacity (amounts >= 0, use_predicate's rule) the window loop emits nothing.
   So the outer test `c_usage > c_capacity` of get_current_incs is an optimisation: replacing it by `>=` changes no
   observable (a mutation the check cannot and need not detect); the strict comparisons that matter are the two of
   the window loop, `mcs_usage <= c_capacity` and `mcs_usage > c_capacity`. *)
Theorem mcs_extract_within_capacity : forall cap l, (forall a, In a l -> qd_le qd0 (a_amount a)) ->
  qd_le (usage l) cap -> mcs_extract cap l = Some [].
Proof.
  intros cap l NN H. unfold mcs_extract. destruct l as [|x r]; [reflexivity|].
  assert (C : qd_le qd0 cap) by (pose proof (usage_nonneg _ NN); qd_lia).
  destruct (mcs_loop_step (length (x :: r)) cap [] x r C) as [(h & tl & rest' & Eq & Over & _)|[_ E]]; [exfalso | exact E].
  (* an emitted window would be a prefix of l, which uses no more than l *)
  change ([] ++ x :: r) with (x :: r) in Eq. rewrite Eq in H, NN. rewrite usage_app in H.
  assert (qd_le qd0 (usage rest')) by (apply usage_nonneg; intros a Ha; apply NN, in_or_app; right; assumption).
  qd_lia.
Qed.

(* non-vacuity: the hypotheses of the theorems are satisfiable *)
Definition ex_rr_atoms : list atom :=
  [mkAtom 0 (0, 0) (4, 0) (3, 0); mkAtom 1 (1, 0) (2, 0) (2, 0); mkAtom 2 (1, 1) (6, 0) (2, 0); mkAtom 3 (2, 0) (2, 0) (9, 0)].

Example ex_rr_hyps : NoDup (map a_id ex_rr_atoms) /\ (forall a, In a ex_rr_atoms -> wf_atom a) /\ qd_le qd0 (5, 0).
Proof.
  split; [repeat constructor; simpl; intuition lia|]. split; [|unfold qd_le; simpl; lia].
  intros a [<-|[<-|[<-|[<-|[]]]]]; unfold wf_atom, qd_le; simpl; lia.
Qed.

(* capacity 5: only at the pulse 1+eps the atoms 0, 1, 2 use 7 > 5 (at 1 the usage is exactly 5, the zero-length atom 3
   with amount 9 never counts); sorted amounts 3,2,2: one window, all three atoms. Capacity 4: three peaks, at 1, 1+eps and 2
   (at 2 the atoms 0 and 2 use 5 > 4). *)
Example ex_rr_sweep : exists k1, rr_sweep ex_rr_atoms (5, 0) = Some [k1] /\ pk_pulse k1 = (1, 1) /\
  map a_id (pk_live k1) = [0; 1; 2] /\ map (map a_id) (pk_mcs k1) = [[0; 2; 1]].
Proof. vm_compute. eexists. split; [reflexivity|]. split; [reflexivity|]. split; reflexivity. Qed.

Example ex_rr_sweep4 : option_map (map (fun k => (pk_pulse k, map (map a_id) (pk_mcs k)))) (rr_sweep ex_rr_atoms (4, 0)) =
  Some [((1, 0), [[0; 1]]); ((1, 1), [[0; 2]]); ((2, 0), [[0; 2]])].
Proof. vm_compute. reflexivity. Qed.

Example ex_rr_ok : rr_instance_ok ex_rr_atoms (7, 0) = true /\ rr_instance_ok ex_rr_atoms (6, 9) = false.
Proof. vm_compute. split; reflexivity. Qed.

Example ex_mcs_windows : mcs_extract (5, 0) (sort_desc ex_rr_atoms) <> None /\ desc_sorted (sort_desc ex_rr_atoms).
Proof. split; [vm_compute; discriminate | apply sort_desc_sorted]. Qed.

Example ex_pair_hyps : NoDup [0; 1; 2] /\ (2 <= length [0; 1; 2])%nat /\ qd_lt (5, 0) (sum_amt (fun a => if a =? 0 then (3, 0) else (2, 0)) [0; 1; 2]).
Proof. split; [repeat constructor; simpl; intuition lia|]. split; [simpl; lia | unfold sum_amt, qd_lt; simpl; lia]. Qed.
