(* Soundness of the certificate check of smt/DlGuard.v (difference-logic side), and the invariant `KI` of the guarded theory.

     valid_chk_sound   a clause that passes valid_chk is true in every propositional assignment realised by an integer valuation
                       of the time points (the negated literals would be a closed chain of negative weight)
     KI VD0            the structural invariant dl_th_inv of proofs/DlAdapter_Proofs.v + "the constraint table is VD0";
                       preserved by the four theory functions for ARBITRARY arguments (no guard needed) *)
From Coq Require Import List Arith Bool ZArith Lia.
From ORatio Require Import smt.DlDom smt.Dl smt.DlAdapter smt.DlGuard proofs.DlNet_Proofs proofs.DlPhase_Proofs proofs.DlUndo_Proofs
  proofs.DlAdapter_Proofs.
Import ListNotations.
Local Open Scope nat_scope.

(* an integer valuation realises a propositional assignment of the constraint variables of vd *)
Definition zsat (x : nat -> Z) (e : zedge) : Prop := (x (snd (fst e)) - x (fst (fst e)) <= snd e)%Z.
Definition realises (vd : list (nat * cstr Z)) (x : nat -> Z) (asg : nat -> bool) : Prop :=
  forall v c, vd_find v vd = Some c ->
    if asg v then zsat x (c_from c, c_to c, c_dist c) else zsat x (c_to c, c_from c, (- c_dist c - 1)%Z).
Definition idl_T (vd : list (nat * cstr Z)) (asg : nat -> bool) : Prop := exists x, realises vd x asg.

Lemma chain_sum x es : forall cur e sm, chain es cur = Some (e, sm) -> (forall ed, In ed es -> zsat x ed) -> (x e - x cur <= sm)%Z.
Proof.
  induction es as [| [[a b] w] r IH]; intros cur e sm H S; cbn in H.
  - injection H as <- <-. lia.
  - destruct (Nat.eqb_spec a cur) as [-> | _]; [| discriminate].
    destruct (chain r b) as [[e' sm'] |] eqn:E; [| discriminate]. injection H as <- <-.
    pose proof (IH b e' sm' E (fun ed Hin => S ed (or_intror Hin))) as L.
    pose proof (S (cur, b, w) (or_introl eq_refl)) as L0. unfold zsat in L0. cbn in L0. lia.
Qed.

Lemma zsat_dec x ed : {zsat x ed} + {~ zsat x ed}.
Proof. unfold zsat. apply Z_le_dec. Qed.

Lemma some_unsat x es : ~ (forall ed, In ed es -> zsat x ed) -> exists ed, In ed es /\ ~ zsat x ed.
Proof.
  induction es as [| ed r IH]; intro H; [exfalso; apply H; intros ? [] |].
  destruct (zsat_dec x ed) as [S | N]; [| exists ed; split; [left; reflexivity | exact N]].
  destruct IH as (e & He & Ne); [intro A; apply H; intros e' [<- | Hin]; [exact S | apply A; exact Hin] |].
  exists e. split; [right; exact He | exact Ne].
Qed.

Lemma idl_ledges_in vd ls es : idl_ledges vd ls = Some es -> forall ed, In ed es -> exists l, In l ls /\ idl_ledge vd l = Some ed.
Proof.
  revert es. induction ls as [| l r IH]; intros es H ed Hin; cbn in H.
  - injection H as <-. destruct Hin.
  - destruct (idl_ledge vd l) as [e |] eqn:El; [| discriminate]. destruct (idl_ledges vd r) as [es' |] eqn:Er; [| discriminate].
    injection H as <-. destruct Hin as [<- | Hin]; [exists l; split; [left; reflexivity | exact El] |].
    destruct (IH es' eq_refl ed Hin) as (l' & Hl' & E'). exists l'. split; [right; exact Hl' | exact E'].
Qed.

Theorem valid_chk_sound vd cl asg : valid_chk vd cl = true -> idl_T vd asg -> exists l, In l cl /\ asg (fst l) = snd l.
Proof.
  unfold valid_chk. intros H [x R].
  destruct (idl_ledges vd (map lnot cl)) as [es |] eqn:Ees; [| discriminate].
  destruct (rev es) as [| [[a b] w] r] eqn:Er; [discriminate |].
  destruct (chain ((a, b, w) :: r) a) as [[e sm] |] eqn:Ec; [| discriminate].
  apply andb_true_iff in H. destruct H as [He Hs]. apply Nat.eqb_eq in He. apply Z.ltb_lt in Hs. subst e.
  assert (N : ~ (forall ed, In ed ((a, b, w) :: r) -> zsat x ed)).
  { intro A. pose proof (chain_sum x _ a a sm Ec A). lia. }
  destruct (some_unsat x _ N) as (ed & Hin & Ned).
  assert (Hin' : In ed es) by (apply in_rev; rewrite Er; exact Hin).
  destruct (idl_ledges_in vd _ es Ees ed Hin') as (nl & Hnl & El).
  apply in_map_iff in Hnl. destruct Hnl as (l & <- & Hl). exists l. split; [exact Hl |].
  unfold idl_ledge in El. cbn [lnot fst snd] in El. destruct (vd_find (fst l) vd) as [c |] eqn:Hc; [| discriminate].
  pose proof (R (fst l) c Hc) as Rv. destruct (snd l); cbn [negb] in El; injection El as <-; destruct (asg (fst l)); try reflexivity; contradiction.
Qed.

Section KInv.
Variable D : Type.
Variable dm : dom D.
Variable VD0 : list (nat * cstr D).
Notation state := (state D).

Definition KI (s : state) : Prop := dl_th_inv D s /\ var_dists s = VD0.

Theorem KI_thp ts a dl p : KI ts -> KI (fst (fst (dl_thp D dm ts a dl p))).
Proof. intros [I E]. split; [apply dl_inv_thp; exact I |]. cbn [dl_thp fst]. rewrite propagate_lit_vd. exact E. Qed.
Theorem KI_thc ts a dl : KI ts -> KI (fst (fst (dl_thc D ts a dl))).
Proof. intro H. exact H. Qed.
Theorem KI_push ts : KI ts -> KI (dl_thpush D ts).
Proof. intros [I E]. split; [apply dl_inv_push; exact I | exact E]. Qed.
Theorem KI_pop ts : KI ts -> KI (dl_thpop D ts).
Proof. intros [I E]. split; [apply (dl_inv_pop D dm); exact I |]. unfold dl_thpop. rewrite (proj2 (do_pop_rest D ts)). exact E. Qed.

Theorem KI_undo ts0 ts : KI ts0 ->
  SatCoreUndo_Proofs.th_reach (dl_thp D dm) (dl_thc D) (dl_thpush D ts0) ts -> th_part D (dl_thpop D ts) = th_part D ts0.
Proof. intros [I _]. apply dl_th_undo. exact I. Qed.
End KInv.
