(* The creation operations of the difference-logic model (constructor, new_var with resize, sat_core::new_var,
   new_distance(from,to,d), sat_core::new_conj on two literals, new_distance(from,to,min,max)) preserve the invariant
   `good` (at any level: that sat_core calls them at root level only is not needed), together with their frame conditions. *)
From Coq Require Import List Arith Bool Lia.
From ORatio Require Import smt.DlDom smt.Dl proofs.DlOrd_Proofs proofs.DlBase_Proofs proofs.DlGraph_Proofs proofs.DlSpec_Proofs
  proofs.DlNet_Proofs proofs.DlStep_Proofs.
Import ListNotations.

Lemma nth_map_lt {A B} (f : A -> B) l i d d' : i < length l -> nth i (map f l) d' = f (nth i l d).
Proof. revert i; induction l as [| x l IH]; intros [| i] H; cbn in *; try lia; auto. apply IH; lia. Qed.

Lemma nth_snoc_LU v l : nth v (l ++ [LU]) LU = nth v l LU.
Proof.
  destruct (Nat.lt_ge_cases v (length l)) as [H | H].
  - apply app_nth1; exact H.
  - rewrite app_nth2 by exact H. rewrite (nth_overflow l) by exact H. destruct (v - length l) as [| [| k]]; reflexivity.
Qed.

Section Matrices.
Variable D : Type.
Variable dm : dom D.

Lemma nth_fresh_drow size i j :
  nth j (fresh_drow D dm size i) (dinf dm) = if Nat.eqb i j && Nat.ltb i size then dzero dm else dinf dm.
Proof. unfold fresh_drow. rewrite nth_lset, repeat_length, nth_repeat. reflexivity. Qed.

Lemma fresh_drow_length size i : length (fresh_drow D dm size i) = size.
Proof. unfold fresh_drow. rewrite lset_length. apply repeat_length. Qed.

Lemma fresh_prow_length size i : length (fresh_prow size i) = size.
Proof. unfold fresh_prow. rewrite lset_length. apply repeat_length. Qed.

Lemma mget_fresh_rows size c k i j :
  mget (dinf dm) (map (fresh_drow D dm size) (seq c k)) i j =
  if Nat.ltb i k then (if Nat.eqb (c + i) j && Nat.ltb (c + i) size then dzero dm else dinf dm) else dinf dm.
Proof.
  unfold mget. destruct (Nat.ltb_spec i k) as [H | H].
  - rewrite (nth_map_lt _ _ _ 0) by (rewrite seq_length; exact H). rewrite seq_nth by exact H. apply nth_fresh_drow.
  - rewrite (nth_overflow (map _ _)) by (rewrite map_length, seq_length; exact H). destruct j; reflexivity.
Qed.

(* the matrices after a resize from capacity c to capacity size *)
Definition grow_d (m : list (list D)) (c size : nat) : list (list D) :=
  map (fun row => row ++ repeat (dinf dm) (size - c)) m ++ map (fresh_drow D dm size) (seq c (size - c)).
Definition grow_p (m : list (list (option nat))) (c size : nat) : list (list (option nat)) :=
  map (fun ir => snd ir ++ repeat (Some (fst ir)) (size - c)) (combine (seq 0 c) m) ++ map (fresh_prow size) (seq c (size - c)).

Lemma mget_grow_d m c size i j : mshape m c c -> c <= size ->
  mget (dinf dm) (grow_d m c size) i j =
  if Nat.ltb i c then (if Nat.ltb j c then mget (dinf dm) m i j else dinf dm)
  else if Nat.eqb i j && Nat.ltb i size then dzero dm else dinf dm.
Proof.
  intros [Hr Hc] Hs. unfold grow_d. destruct (Nat.ltb_spec i c) as [Hi | Hi].
  - unfold mget. rewrite app_nth1 by (rewrite map_length; lia). rewrite (nth_map_lt _ _ _ []) by lia.
    destruct (Nat.ltb_spec j c) as [Hj | Hj].
    + apply app_nth1. rewrite Hc; assumption.
    + rewrite app_nth2 by (rewrite Hc; assumption). apply nth_repeat.
  - pose proof (mget_fresh_rows size c (size - c) (i - c) j) as E. unfold mget in *.
    rewrite app_nth2 by (rewrite map_length; lia). rewrite map_length, Hr. rewrite E.
    replace (c + (i - c)) with i by lia.
    destruct (Nat.ltb_spec (i - c) (size - c)), (Nat.ltb_spec i size); try lia; try reflexivity.
    rewrite andb_false_r. reflexivity.
Qed.

Lemma grow_d_shape m c size : mshape m c c -> c <= size -> mshape (grow_d m c size) size size.
Proof.
  intros [Hr Hc] Hs. unfold grow_d. split.
  - rewrite app_length, !map_length, seq_length. lia.
  - intros i Hi. destruct (Nat.lt_ge_cases i c) as [Hic | Hic].
    + rewrite app_nth1 by (rewrite map_length; lia). rewrite (nth_map_lt _ _ _ []) by lia.
      rewrite app_length, repeat_length, (Hc i Hic). lia.
    + rewrite app_nth2 by (rewrite map_length; lia). rewrite map_length, Hr.
      rewrite (nth_map_lt _ _ _ 0) by (rewrite seq_length; lia). apply fresh_drow_length.
Qed.

Lemma grow_p_shape m c size : mshape m c c -> c <= size -> mshape (grow_p m c size) size size.
Proof.
  intros [Hr Hc] Hs. unfold grow_p.
  assert (Lc : length (combine (seq 0 c) m) = c) by (rewrite combine_length, seq_length, Hr; lia).
  split.
  - rewrite app_length, !map_length, seq_length, Lc. lia.
  - intros i Hi. destruct (Nat.lt_ge_cases i c) as [Hic | Hic].
    + rewrite app_nth1 by (rewrite map_length; lia). rewrite (nth_map_lt _ _ _ (0, [])) by lia.
      rewrite combine_nth by (rewrite seq_length; lia). cbn [fst snd].
      rewrite app_length, repeat_length, (Hc i Hic). lia.
    + rewrite app_nth2 by (rewrite map_length; lia). rewrite map_length, Lc.
      rewrite (nth_map_lt _ _ _ 0) by (rewrite seq_length; lia). apply fresh_prow_length.
Qed.

Lemma mget_grow_p m c size i j : mshape m c c -> i < c -> j < c ->
  mget None (grow_p m c size) i j = mget None m i j.
Proof.
  intros [Hr Hc] Hi Hj. unfold grow_p, mget.
  assert (Lc : length (combine (seq 0 c) m) = c) by (rewrite combine_length, seq_length, Hr; lia).
  rewrite app_nth1 by (rewrite map_length; lia). rewrite (nth_map_lt _ _ _ (0, [])) by lia.
  rewrite combine_nth by (rewrite seq_length; lia). cbn [fst snd].
  apply app_nth1. rewrite (Hc i Hi). exact Hj.
Qed.

End Matrices.

Section Create.
Variable O : ogroup.
Variable D : Type.
Variable dm : dom D.
Variable DS : domspec O D dm.
Notation state := (state D).
Notation dget := (dget D dm).
Notation dval := (dval O D dm DS).
Notation proc := (proc D).
Notation in_q := (in_q D).
Notation lit_edge := (lit_edge O D dm DS).
Notation true_lit := (true_lit D).
Notation edges := (edges O D dm DS).
Notation cedge := (cedge O D dm DS).
Notation tree := (tree O D dm DS).
Notation good := (good O D dm DS).
Notation ngood := (ngood O D dm DS).
Notation shape_ok := (shape_ok O D dm DS).
Notation tables_ok := (tables_ok D dm).
Notation layers_ok := (layers_ok D).
Notation sat_ok := (sat_ok D).
Notation dc_ok := (dc_ok O D dm DS).
Notation queue_ok := (queue_ok D).
Notation prop_ok := (prop_ok D dm).
Notation preds_ok := (preds_ok O D dm DS).
Notation decided := (decided D dm).

Lemma dget_init size i j : dget (init D dm size) i j = if Nat.eqb i j && Nat.ltb i size then dzero dm else dinf dm.
Proof.
  unfold Dl.dget, init; cbn [dists]. rewrite mget_fresh_rows. cbn [plus].
  destruct (Nat.ltb i size); [reflexivity | rewrite andb_false_r; reflexivity].
Qed.

Lemma no_edges (s : state) e : var_dists s = [] -> ~ edges s e.
Proof. intros E (v & ((c & Hc) & _) & _). rewrite E in Hc. discriminate. Qed.

Lemma init_good size : 0 < size -> good (init D dm size).
Proof.
  intro Hs.
  assert (Ld : length (dists (init D dm size)) = size) by (cbn; rewrite map_length, seq_length; reflexivity).
  assert (D00 : dval (init D dm size) 0 0 = Fin g0).
  { unfold DlSpec_Proofs.dval. rewrite dget_init. cbn [Nat.eqb andb]. destruct (Nat.ltb_spec 0 size); [| lia]. apply (ds_zero _ _ _ DS). }
  constructor; [constructor |].
  - reflexivity.
  - constructor.
    + rewrite Ld. split; [exact Ld |]. intros i Hi. cbn [dists init].
      rewrite (nth_map_lt _ _ _ 0) by (rewrite seq_length; exact Hi). apply fresh_drow_length.
    + rewrite Ld. split; [cbn; rewrite map_length, seq_length; reflexivity |]. intros i Hi. cbn [preds init].
      rewrite (nth_map_lt _ _ _ 0) by (rewrite seq_length; exact Hi). apply fresh_prow_length.
    + rewrite Ld. cbn [n_vars init]. lia.
    + intros i j. rewrite dget_init. destruct (_ && _); [apply (ds_zero _ _ _ DS) | apply (ds_inf _ _ _ DS)].
    + intros i j _. rewrite Ld. apply dget_init.
  - constructor; cbn [var_dists dist_constrs init].
    + constructor.
    + intros v c H; discriminate.
    + intros v c H; discriminate.
    + constructor.
    + intros k l v H; discriminate.
  - constructor; cbn.
    + reflexivity.
    + intros l [].
    + constructor.
    + reflexivity.
  - constructor; cbn; constructor.
  - constructor.
    + intros i k w He. exfalso. exact (no_edges (init D dm size) _ eq_refl He).
    + intros i Hi. cbn in Hi. assert (i = 0) by lia. subst i. exact D00.
    + intros i j g Hi Hj E. cbn in Hi, Hj. assert (i = 0) by lia. assert (j = 0) by lia. subst i j.
      rewrite D00 in E. injection E as <-. apply w_nil.
    + intros i k w j He. exfalso. exact (no_edges (init D dm size) _ eq_refl He).
  - intros i j Hi Hj _. cbn in Hi, Hj. assert (i = 0) by lia. assert (j = 0) by lia. subst i j. apply tree_root.
  - split; [constructor |]. intros k c H; discriminate.
  - intros v c H; discriminate.
  - intros v c H; discriminate.
Qed.

Lemma resize_dists (s : state) size : dists (resize D dm s size) = grow_d D dm (dists s) (length (dists s)) size.
Proof. reflexivity. Qed.
Lemma resize_preds (s : state) size : preds (resize D dm s size) = grow_p (preds s) (length (dists s)) size.
Proof. reflexivity. Qed.

Notation nv s := (fst (new_var D dm s)).

Lemma new_var_fields s :
  n_vars (nv s) = S (n_vars s) /\ var_dists (nv s) = var_dists s /\ dist_constr (nv s) = dist_constr s /\
  dist_constrs (nv s) = dist_constrs s /\ assigns (nv s) = assigns s /\ prop_q (nv s) = prop_q s /\ trail (nv s) = trail s /\
  layers (nv s) = layers s /\ conj_exprs (nv s) = conj_exprs s /\ confl (nv s) = confl s /\ fault (nv s) = fault s /\
  snd (new_var D dm s) = RVar (n_vars s).
Proof. unfold new_var. cbn [fst snd]. destruct (Nat.eqb _ _); cbn; repeat split. Qed.

Lemma grow_cap c : c < c * 3 / 2 + 1.
Proof. assert (c <= c * 3 / 2) by (apply Nat.div_le_lower_bound; lia). lia. Qed.

Lemma new_var_cells s : shape_ok s ->
  mshape (dists (nv s)) (length (dists (nv s))) (length (dists (nv s))) /\
  mshape (preds (nv s)) (length (dists (nv s))) (length (dists (nv s))) /\
  S (n_vars s) <= length (dists (nv s)) /\ length (dists s) <= length (dists (nv s)) /\
  (forall i j, i < n_vars s -> j < n_vars s -> dget (nv s) i j = dget s i j /\ pget (nv s) i j = pget s i j) /\
  (forall i j, n_vars s <= i \/ n_vars s <= j ->
     dget (nv s) i j = if Nat.eqb i j && Nat.ltb i (length (dists (nv s))) then dzero dm else dinf dm).
Proof.
  intros [A1 A2 A3 A4 A5]. unfold new_var; cbn [fst]. destruct (Nat.eqb_spec (length (dists s)) (n_vars s)) as [E | E].
  - set (c := length (dists s)) in *. set (size := c * 3 / 2 + 1).
    assert (Hcs' : c < size) by apply grow_cap. assert (Hcs : c <= size) by lia.
    rewrite resize_dists, resize_preds. cbn [dists preds]. fold c.
    pose proof (grow_d_shape D dm _ _ size A1 Hcs) as S1. pose proof (grow_p_shape _ _ size A2 Hcs) as S2.
    rewrite (proj1 S1). split; [exact S1 |]. split; [exact S2 |]. split; [lia |]. split; [lia |]. split.
    + intros i j Hi Hj. split.
      * unfold Dl.dget. rewrite resize_dists. cbn [dists]. fold c. rewrite (mget_grow_d D dm _ _ size i j A1 Hcs).
        destruct (Nat.ltb_spec i c); [| lia]. destruct (Nat.ltb_spec j c); [| lia]. reflexivity.
      * unfold pget. rewrite resize_preds. cbn [dists preds]. fold c. apply mget_grow_p; [exact A2 | lia | lia].
    + intros i j H. unfold Dl.dget. rewrite resize_dists. cbn [dists]. fold c. rewrite (mget_grow_d D dm _ _ size i j A1 Hcs).
      destruct (Nat.ltb_spec i c) as [Hi | Hi]; [| reflexivity].
      destruct (Nat.ltb_spec j c) as [Hj | Hj]; [lia |]. destruct (Nat.eqb_spec i j); [lia | reflexivity].
  - cbn [dists preds]. split; [exact A1 |]. split; [exact A2 |]. split; [lia |]. split; [lia |]. split.
    + intros i j _ _. split; reflexivity.
    + intros i j H. apply (A5 i j H).
Qed.

Lemma new_var_good s : good s -> good (nv s).
Proof.
  intros [[Gf Gsh Gt Gs Gl Gx Gp Gd Gq] Gpr].
  destruct (new_var_fields s) as (F1 & F2 & F3 & F4 & F5 & F6 & F7 & F8 & F9 & F10 & F11 & F12).
  destruct (new_var_cells s Gsh) as (C1 & C2 & C3 & C6 & C4 & C5).
  set (s' := nv s) in *. set (n := n_vars s) in *.
  assert (EE : forall e, edges s e <-> edges s' e) by (apply edges_same; assumption).
  assert (PS : forall v, proc s v -> proc s' v) by (intro v; apply (proc_same D s s'); assumption).
  assert (TL : forall v, true_lit s' v = true_lit s v) by (intro v; apply true_lit_as; assumption).
  assert (LE : forall l e, lit_edge s l e -> lit_edge s' l e) by (intros l e; apply (lit_edge_vd O D dm DS s s'); assumption).
  assert (VV : forall v, value_var s' v = value_var s v) by (intro v; unfold value_var; rewrite F5; reflexivity).
  assert (DV : forall i j, i < n -> j < n -> dval s' i j = dval s i j).
  { intros i j Hi Hj. unfold DlSpec_Proofs.dval. rewrite (proj1 (C4 i j Hi Hj)). reflexivity. }
  assert (FR : forall i j, i < S n -> n <= i \/ n <= j -> dval s' i j = if Nat.eqb i j then Fin g0 else Inf).
  { intros i j Hi H. unfold DlSpec_Proofs.dval. rewrite (C5 i j H). destruct (Nat.ltb_spec i (length (dists s'))); [| lia].
    rewrite andb_true_r. destruct (Nat.eqb i j); [apply (ds_zero _ _ _ DS) | apply (ds_inf _ _ _ DS)]. }
  assert (EI : edges_in n (edges s)) by apply (ex_in _ _ _ _ Gx).
  assert (CE : forall pp j g, cedge s pp j g -> cedge s' pp j g).
  { intros pp j g (c & H1 & H2 & H3). exists c. rewrite F3, TL. auto. }
  constructor; [constructor |].
  - congruence.
  - constructor; try assumption.
    + rewrite F1. fold n. lia.
    + intros i j. destruct (Nat.lt_ge_cases i n) as [Hi | Hi]; [destruct (Nat.lt_ge_cases j n) as [Hj | Hj] |].
      * rewrite (proj1 (C4 i j Hi Hj)). apply (sh_mok _ _ _ _ _ Gsh).
      * rewrite (C5 i j (or_intror Hj)). destruct (_ && _); [apply (ds_zero _ _ _ DS) | apply (ds_inf _ _ _ DS)].
      * rewrite (C5 i j (or_introl Hi)). destruct (_ && _); [apply (ds_zero _ _ _ DS) | apply (ds_inf _ _ _ DS)].
    + intros i j H. rewrite F1 in H. apply C5. fold n. lia.
  - destruct Gt as [A1 A2 A3 A4 A5]. constructor; rewrite ?F2, ?F4, ?F5; try assumption.
    intros v c Hc. rewrite F1. destruct (A2 v c Hc) as (Hf & Ht & Hft & Hw & Hv). fold n in Hf, Ht. repeat split; auto; lia.
  - apply (sat_ok_same D s s' VV F6); [rewrite F7 | rewrite F8 | exact Gs]; reflexivity.
  - destruct Gl as [L1 L2]. constructor; rewrite F8; [exact L1 |]. eapply Forall_impl; [| exact L2].
    intros l [H1 H2]. split; intros k v Hk; [destruct (H1 k v Hk) | destruct (H2 k v Hk)]; lia.
  - rewrite F1. fold n. eapply exact_ext; [exact EE |]. destruct Gx as [X1 X2 X3 X4]. constructor.
    + intros i k w He. destruct (X1 i k w He). lia.
    + intros i Hi. destruct (Nat.lt_ge_cases i n) as [Hin | Hin].
      * rewrite DV by assumption. apply X2. exact Hin.
      * rewrite (FR i i Hi (or_introl Hin)). rewrite Nat.eqb_refl. reflexivity.
    + intros i j g Hi Hj E.
      destruct (Nat.lt_ge_cases i n) as [Hin | Hin]; [destruct (Nat.lt_ge_cases j n) as [Hjn | Hjn] |].
      * rewrite DV in E by assumption. apply X3; assumption.
      * rewrite (FR i j Hi (or_intror Hjn)) in E. destruct (Nat.eqb_spec i j) as [<- | _]; [| discriminate]. injection E as <-. apply w_nil.
      * rewrite (FR i j Hi (or_introl Hin)) in E. destruct (Nat.eqb_spec i j) as [<- | _]; [| discriminate]. injection E as <-. apply w_nil.
    + intros i k w j He Hj. destruct (X1 i k w He) as [Hi Hk].
      destruct (Nat.lt_ge_cases j n) as [Hjn | Hjn].
      * rewrite !DV by assumption. apply (X4 i k w j He Hjn).
      * rewrite (FR k j (Nat.lt_lt_succ_r _ _ Hk) (or_intror Hjn)). destruct (Nat.eqb_spec k j); [lia |]. apply xle_inf.
  - intros i j Hi Hj Hf. rewrite F1 in Hi, Hj. fold n in Hi, Hj.
    destruct (Nat.lt_ge_cases i n) as [Hin | Hin]; [destruct (Nat.lt_ge_cases j n) as [Hjn | Hjn] |].
    + rewrite DV in Hf by assumption. pose proof (Gp i j Hin Hjn Hf) as T. unfold DlSpec_Proofs.tree in *.
      clear Hf Hj. induction T as [| j p g Hji Hp Ht IH Hc Ev]; [apply tree_root |].
      assert (Hpn : p < n) by (apply (EI p j g); apply cedge_edge; exact Hc).
      eapply tree_step; [exact Hji | rewrite (proj2 (C4 i j Hin Hjn)); exact Hp | apply IH; exact Hpn | apply CE; exact Hc |].
      rewrite !DV by assumption. exact Ev.
    + rewrite (FR i j Hi (or_intror Hjn)) in Hf. destruct (Nat.eqb_spec i j) as [<- | _]; [apply tree_root | congruence].
    + rewrite (FR i j Hi (or_introl Hin)) in Hf. destruct (Nat.eqb_spec i j) as [<- | _]; [apply tree_root | congruence].
  - destruct Gd as [G1 G2]. unfold DlSpec_Proofs.dc_ok. rewrite F3. split; [exact G1 |]. intros k c Hk. destruct (G2 k c Hk) as [P [g E]].
    split; [apply PS; exact P | exists g; rewrite TL; apply LE; exact E].
  - intros v c Hc Hn. rewrite F2 in Hc. rewrite VV in Hn. destruct (Gq v c Hc Hn) as [P | Q]; [left; apply PS; exact P |].
    right. unfold DlSpec_Proofs.in_q in *. rewrite F6. exact Q.
  - intros v c Hc HU Hdec. rewrite F2 in Hc. rewrite VV in HU. apply (Gpr v c Hc HU).
    destruct (tb_wf _ _ _ Gt v c Hc) as (Hf & Ht & _). fold n in Hf, Ht. unfold DlSpec_Proofs.decided in *.
    rewrite (proj1 (C4 _ _ Ht Hf)), (proj1 (C4 _ _ Hf Ht)) in Hdec. exact Hdec.
Qed.

Notation snv s := (fst (sat_new_var D s)).

Lemma sat_new_var_good s : good s ->
  good (snv s) /\ (forall v, value_var (snv s) v = value_var s v) /\ value_var s (length (assigns s)) = LU /\
  vd_find (length (assigns s)) (var_dists s) = None /\ 0 < length (assigns s).
Proof.
  intros [[Gf Gsh Gt Gs Gl Gx Gp Gd Gq] Gpr].
  assert (VV : forall v, value_var (snv s) v = value_var s v) by (intro v; unfold value_var; cbn; apply nth_snoc_LU).
  assert (PR : forall v, proc s v -> proc (snv s) v).
  { intros v (H1 & H2 & H3). split; [exact H1 | split; [rewrite VV; exact H2 | exact H3]]. }
  split; [| repeat split].
  - split.
    + apply (ngood_transfer_gen O D dm DS s (snv s)); try reflexivity.
      * constructor; assumption.
      * destruct Gt as [A1 A2 A3 A4 A5]. constructor; try assumption.
        intros v c Hc. destruct (A2 v c Hc) as (H1 & H2 & H3 & H4 & H5). cbn [sat_new_var fst set_sat assigns n_vars].
        rewrite app_length. cbn [length]. repeat split; auto; lia.
      * apply (sat_ok_same D s (snv s) VV); [reflexivity | reflexivity | reflexivity | exact Gs].
      * intros v c Hc Hn. rewrite VV in Hn. destruct (Gq v c Hc Hn) as [P | Q]; [left; apply PR; exact P | right; exact Q].
      * intros v P. split; [apply PR; exact P |]. unfold DlSpec_Proofs.true_lit. rewrite VV. reflexivity.
      * intros v (H1 & H2 & H3). split; [exact H1 | split; [rewrite <- VV; exact H2 | exact H3]].
    + intros v c Hc HU. rewrite VV in HU. exact (Gpr v c Hc HU).
  - exact VV.
  - unfold value_var. apply nth_overflow. lia.
  - destruct (vd_find (length (assigns s)) (var_dists s)) as [c |] eqn:E; [| reflexivity].
    destruct (tb_wf _ _ _ Gt _ c E) as (_ & _ & _ & _ & H). lia.
  - pose proof (so_false _ _ Gs) as H. unfold value_var in H. destruct (assigns s); [discriminate | cbn; lia].
Qed.

Lemma vd_find_snoc v (l : list (nat * cstr D)) w c :
  vd_find v (l ++ [(w, c)]) = match vd_find v l with Some x => Some x | None => if Nat.eqb v w then Some c else None end.
Proof.
  induction l as [| [w' c'] l IH]; cbn; [destruct (Nat.eqb v w); reflexivity |]. destruct (Nat.eqb v w'); [reflexivity | exact IH].
Qed.

Lemma vd_find_key v (l : list (nat * cstr D)) : In v (map fst l) -> exists c, vd_find v l = Some c.
Proof.
  induction l as [| [w c] l IH]; cbn; [tauto |]. intros [E | H].
  - subst. rewrite Nat.eqb_refl. eauto.
  - destruct (Nat.eqb v w); eauto.
Qed.

(* the state after the creation of the constraint `t - f <= d` bound to the fresh variable length (assigns s) *)
Definition add_cstr (s : state) (f t : nat) (d : D) : state :=
  let ctr := length (assigns s) in
  let cs := match pm_find (f, t) (dist_constrs s) with Some l => l | None => [] end in
  mkstate (n_vars s) (dists s) (preds s) (dist_constr s) (var_dists s ++ [(ctr, mkcstr f t d)])
          (pm_set (f, t) (cs ++ [ctr]) (dist_constrs s)) (layers s) (assigns s ++ [LU]) (prop_q s) (trail s)
          (conj_exprs s) (confl s) (fault s).

Lemma new_distance_unfold s f t d :
  new_distance D dm s f t d =
  if negb (Nat.ltb f (n_vars s) && Nat.ltb t (n_vars s)) then (s, RErr)
  else if dltb dm (dget s t f) (dneg dm d) then (s, RLit FALSE_lit)
  else if dleb dm (dget s f t) d then (s, RLit TRUE_lit)
  else ((if dwok dm d then add_cstr s f t d else set_fault D (add_cstr s f t d) 3), RLit (length (assigns s), true)).
Proof. reflexivity. Qed.

Lemma add_cstr_good s f t d : good s -> f < n_vars s -> t < n_vars s -> dwok dm d = true ->
  dltb dm (dget s t f) (dneg dm d) = false -> dleb dm (dget s f t) d = false ->
  good (add_cstr s f t d) /\ 0 < length (assigns s) /\ f <> t /\ vd_find (length (assigns s)) (var_dists s) = None /\
  (forall v, value_var (add_cstr s f t d) v = value_var s v) /\ value_var s (length (assigns s)) = LU /\
  (forall v, vd_find v (var_dists (add_cstr s f t d)) =
             if Nat.eqb v (length (assigns s)) then Some (mkcstr f t d) else vd_find v (var_dists s)).
Proof.
  intros G Hf Ht Hw T1 T2. pose proof G as [[Gf Gsh Gt Gs Gl Gx Gp Gd Gq] Gpr].
  set (ctr := length (assigns s)). set (s' := add_cstr s f t d).
  set (cs := match pm_find (f, t) (dist_constrs s) with Some l => l | None => [] end).
  assert (Hctr0 : 0 < ctr).
  { pose proof (so_false _ _ Gs) as H. unfold value_var in H. unfold ctr. destruct (assigns s); [discriminate | cbn; lia]. }
  assert (Hnone : vd_find ctr (var_dists s) = None).
  { destruct (vd_find ctr (var_dists s)) as [c |] eqn:E; [| reflexivity].
    destruct (tb_wf _ _ _ Gt ctr c E) as (_ & _ & _ & _ & H). unfold ctr in H. lia. }
  assert (Hft : f <> t).
  { intros <-. destruct (ds_dwok _ _ _ DS d Hw) as [g Hg].
    pose proof (ex_diag _ _ _ _ Gx f Hf) as Dg. unfold DlSpec_Proofs.dval in Dg.
    pose proof (sh_mok _ _ _ _ _ Gsh f f) as Mk.
    destruct (g_lt_le_dec O g0 (-o g)) as [L | L].
    - assert (E : dltb dm (dget s f f) (dneg dm d) = true) by (apply (ds_lt_neg _ _ _ DS _ _ _ Mk Hg); rewrite Dg; exact L).
      congruence.
    - assert (E : dleb dm (dget s f f) d = true) by (apply (ds_le _ _ _ DS _ _ _ Mk Hg); rewrite Dg; cbn; og O).
      congruence. }
  assert (VD : forall v, vd_find v (var_dists s') =
                         match vd_find v (var_dists s) with Some x => Some x | None => if Nat.eqb v ctr then Some (mkcstr f t d) else None end)
    by (intro v; apply vd_find_snoc).
  assert (VDold : forall v c, vd_find v (var_dists s) = Some c -> vd_find v (var_dists s') = Some c).
  { intros v c H. rewrite VD, H. reflexivity. }
  assert (VDinv : forall v c, vd_find v (var_dists s') = Some c -> vd_find v (var_dists s) = Some c \/ (v = ctr /\ c = mkcstr f t d)).
  { intros v c H. rewrite VD in H. destruct (vd_find v (var_dists s)); [left; exact H |].
    destruct (Nat.eqb_spec v ctr); [right; split; congruence | discriminate]. }
  assert (VV : forall v, value_var s' v = value_var s v) by (intro v; unfold value_var, s', add_cstr; cbn [assigns]; apply nth_snoc_LU).
  assert (VU : value_var s ctr = LU) by (unfold value_var; apply nth_overflow; unfold ctr; lia).
  assert (LA : length (assigns s') = S ctr) by (unfold s', add_cstr; cbn [assigns]; rewrite app_length; cbn; lia).
  assert (PR1 : forall v, proc s v -> proc s' v).
  { intros v ((c & Hc) & H2 & H3). split; [exists c; apply VDold; exact Hc |]. split; [rewrite VV; exact H2 | exact H3]. }
  assert (PR2 : forall v, proc s' v -> proc s v).
  { intros v ((c & Hc) & H2 & H3). rewrite VV in H2. destruct (VDinv v c Hc) as [H | [-> _]]; [| congruence].
    split; [exists c; exact H | split; [exact H2 | exact H3]]. }
  assert (TB : tables_ok s').
  { destruct Gt as [A1 A2 A3 A4 A5]. constructor.
    - unfold s', add_cstr; cbn [var_dists]. rewrite map_app. cbn [map fst]. apply NoDup_app_snoc; [exact A1 |].
      intro Hin. destruct (vd_find_key _ _ Hin) as [c Hc]. fold ctr in Hc. congruence.
    - intros v c Hc. rewrite LA. change (n_vars s') with (n_vars s). destruct (VDinv v c Hc) as [H | [-> ->]].
      + destruct (A2 v c H) as (B1 & B2 & B3 & B4 & B5). fold ctr in B5. repeat split; auto; lia.
      + cbn [c_from c_to c_dist]. repeat split; auto; lia.
    - intros v c Hc. change (dist_constrs s') with (pm_set (f, t) (cs ++ [ctr]) (dist_constrs s)). rewrite (pm_find_set _ _ _ _ A4).
      destruct (VDinv v c Hc) as [H | [-> ->]].
      + destruct (A3 v c H) as (l & Hl & Hin). destruct (key_eqb_spec (c_from c, c_to c) (f, t)) as [E | E].
        * exists (cs ++ [ctr]). split; [reflexivity |]. apply in_or_app. left. unfold cs. rewrite <- E, Hl. exact Hin.
        * exists l. split; assumption.
      + cbn [c_from c_to]. rewrite key_eqb_refl. exists (cs ++ [ctr]). split; [reflexivity | apply in_or_app; right; left; reflexivity].
    - apply pm_set_sorted. exact A4.
    - intros k l v Hk Hin. change (dist_constrs s') with (pm_set (f, t) (cs ++ [ctr]) (dist_constrs s)) in Hk.
      rewrite (pm_find_set _ _ _ _ A4) in Hk. destruct (key_eqb_spec k (f, t)) as [-> | E].
      + injection Hk as <-. apply in_app_or in Hin. destruct Hin as [Hin | [<- | []]].
        * unfold cs in Hin. destruct (pm_find (f, t) (dist_constrs s)) as [l0 |] eqn:E0; [| destruct Hin].
          destruct (A5 _ _ _ E0 Hin) as (c & Hc & Hk). exists c. split; [apply VDold; exact Hc | exact Hk].
        * exists (mkcstr f t d). split; [rewrite VD, Hnone, Nat.eqb_refl; reflexivity | reflexivity].
      + destruct (A5 k l v Hk Hin) as (c & Hc & Ek). exists c. split; [apply VDold; exact Hc | exact Ek]. }
  split; [| split; [exact Hctr0 | split; [exact Hft | split; [exact Hnone | split; [exact VV | split; [exact VU |]]]]]].
  - split.
    + apply (ngood_transfer_gen O D dm DS s s' (gd_n _ _ _ _ _ G)); try reflexivity; try assumption.
      * apply (sat_ok_same D s s' VV); [reflexivity | reflexivity | reflexivity | exact Gs].
      * intros v c Hc Hn. rewrite VV in Hn. destruct (VDinv v c Hc) as [H | [-> _]]; [| congruence].
        destruct (Gq v c H Hn) as [P | Q]; [left; apply PR1; exact P | right; exact Q].
      * intros v P. split; [apply PR1; exact P |]. unfold DlSpec_Proofs.true_lit. rewrite VV. reflexivity.
      * intros v e ((c0 & Hc0) & _). unfold DlSpec_Proofs.lit_edge, DlSpec_Proofs.true_lit. cbn [fst snd].
        split; intros (c & g & H1 & H2); exists c, g; (split; [| exact H2]).
        -- apply VDold. exact H1.
        -- rewrite VD, Hc0 in H1. rewrite Hc0. exact H1.
    + intros v c Hc HU. rewrite VV in HU. destruct (VDinv v c Hc) as [H | [-> ->]].
      * exact (Gpr v c H HU).
      * unfold DlSpec_Proofs.decided. cbn [c_from c_to c_dist]. change (dget s' t f) with (dget s t f). change (dget s' f t) with (dget s f t).
        rewrite T1, T2. intros [E | E]; discriminate.
  - intro v. rewrite VD. destruct (Nat.eqb_spec v ctr) as [-> | Hn]; [rewrite Hnone; reflexivity |].
    destruct (vd_find v (var_dists s)); reflexivity.
Qed.

Lemma new_distance_fault s f t d : fault (fst (new_distance D dm s f t d)) = 0 -> fault s = 0.
Proof.
  rewrite new_distance_unfold.
  destruct (negb _); [auto |]. destruct (dltb _ _ _); [auto |]. destruct (dleb _ _ _); [auto |]. cbn [fst].
  destruct (dwok dm d); [auto |]. intro H. apply set_fault_zero in H. destruct H as [H _]. exact H.
Qed.

Lemma new_distance_layers s f t d : layers (fst (new_distance D dm s f t d)) = layers s.
Proof.
  rewrite new_distance_unfold.
  destruct (negb _); [auto |]. destruct (dltb _ _ _); [auto |]. destruct (dleb _ _ _); [auto |]. cbn [fst].
  destruct (dwok dm d); reflexivity.
Qed.

(* the result of new_distance s f t d *)
Definition nd_spec (s : state) (f t : nat) (d : D) (s' : state) (r : res D) : Prop :=
  (~ (f < n_vars s /\ t < n_vars s) -> r = RErr /\ s' = s) /\
  (f < n_vars s -> t < n_vars s ->
   (r = RLit FALSE_lit /\ s' = s /\ dltb dm (dget s t f) (dneg dm d) = true) \/
   (r = RLit TRUE_lit /\ s' = s /\ dltb dm (dget s t f) (dneg dm d) = false /\ dleb dm (dget s f t) d = true) \/
   (r = RLit (length (assigns s), true) /\ 0 < length (assigns s) /\ f <> t /\ dwok dm d = true /\
    dltb dm (dget s t f) (dneg dm d) = false /\ dleb dm (dget s f t) d = false /\
    vd_find (length (assigns s)) (var_dists s') = Some (mkcstr f t d) /\
    vd_find (length (assigns s)) (var_dists s) = None /\
    value_var s' (length (assigns s)) = LU /\
    (forall v, v <> length (assigns s) -> vd_find v (var_dists s') = vd_find v (var_dists s)) /\
    (forall v, value_var s' v = value_var s v) /\
    assigns s' = assigns s ++ [LU] /\ n_vars s' = n_vars s /\ dists s' = dists s /\ preds s' = preds s /\
    dist_constr s' = dist_constr s /\ layers s' = layers s /\ prop_q s' = prop_q s /\ trail s' = trail s /\
    conj_exprs s' = conj_exprs s /\ confl s' = confl s)).

Lemma new_distance_correct s f t d s' r :
  good s -> new_distance D dm s f t d = (s', r) -> fault s' = 0 -> good s' /\ nd_spec s f t d s' r.
Proof.
  intros G E F. rewrite new_distance_unfold in E. unfold nd_spec.
  destruct (Nat.ltb_spec f (n_vars s)) as [Hf | Hf]; [destruct (Nat.ltb_spec t (n_vars s)) as [Ht | Ht] |]; cbn [andb negb] in E.
  - destruct (dltb dm (dget s t f) (dneg dm d)) eqn:T1.
    { injection E as <- <-. split; [exact G |]. split; [intro H; exfalso; apply H; auto | intros _ _; left; auto]. }
    destruct (dleb dm (dget s f t) d) eqn:T2.
    { injection E as <- <-. split; [exact G |]. split; [intro H; exfalso; apply H; auto | intros _ _; right; left; auto]. }
    destruct (dwok dm d) eqn:Hw.
    + injection E as <- <-. destruct (add_cstr_good s f t d G Hf Ht Hw T1 T2) as (G' & H0 & Hft & Hnone & VV & VU & VD).
      split; [exact G' |]. split; [intro H; exfalso; apply H; auto |]. intros _ _. right. right.
      split; [reflexivity |]. split; [exact H0 |]. split; [exact Hft |]. split; [reflexivity |]. split; [reflexivity |].
      split; [reflexivity |]. split; [rewrite VD, Nat.eqb_refl; reflexivity |]. split; [exact Hnone |].
      split; [rewrite VV; exact VU |]. split.
      { intros v Hv. rewrite VD. destruct (Nat.eqb_spec v (length (assigns s))); [contradiction | reflexivity]. }
      split; [exact VV |]. cbn. repeat split.
    + injection E as <- <-. apply set_fault_zero in F. destruct F; discriminate.
  - injection E as <- <-. split; [exact G |]. split; [auto | intros; lia].
  - injection E as <- <-. split; [exact G |]. split; [auto | intros; lia].
Qed.

(* the hypothesis on the layers (creation happens at root level) is not needed by the model *)
Lemma new_distance_good s f t d : good s -> layers s = [] ->
  let '(s', r) := new_distance D dm s f t d in fault s' = 0 -> good s' /\ nd_spec s f t d s' r.
Proof. intros G _. destruct (new_distance D dm s f t d) as [s' r] eqn:E. intro F. exact (new_distance_correct s f t d s' r G E F). Qed.

(* the two immediate answers, as implications *)
Lemma nd_spec_cases s f t d s' r : nd_spec s f t d s' r -> f < n_vars s -> t < n_vars s ->
  (r = RLit FALSE_lit -> s' = s /\ dltb dm (dget s t f) (dneg dm d) = true) /\
  (r = RLit TRUE_lit -> s' = s /\ dleb dm (dget s f t) d = true) /\
  (r <> RLit FALSE_lit -> r <> RLit TRUE_lit -> r = RLit (length (assigns s), true)).
Proof.
  intros [_ H] Hf Ht. destruct (H Hf Ht) as [(-> & -> & T) | [(-> & -> & T1 & T2) | (-> & H0 & R)]].
  - split; [auto |]. split; [discriminate | congruence].
  - split; [discriminate |]. split; [auto | congruence].
  - split; [intros [= E]; lia |]. split; [intros [= E]; lia |]. intros _ _. reflexivity.
Qed.

(* what new_distance never changes *)
Definition cr_frame (s s' : state) : Prop :=
  n_vars s' = n_vars s /\ dists s' = dists s /\ preds s' = preds s /\ dist_constr s' = dist_constr s /\ layers s' = layers s /\
  prop_q s' = prop_q s /\ trail s' = trail s /\ confl s' = confl s /\
  (forall v, value_var s' v = value_var s v) /\
  (forall v c, vd_find v (var_dists s) = Some c -> vd_find v (var_dists s') = Some c) /\
  length (assigns s) <= length (assigns s').

Lemma cr_frame_refl s : cr_frame s s.
Proof. unfold cr_frame. repeat split; auto. Qed.

Lemma cr_frame_trans s1 s2 s3 : cr_frame s1 s2 -> cr_frame s2 s3 -> cr_frame s1 s3.
Proof.
  intros (A1 & A2 & A3 & A4 & A5 & A6 & A7 & A8 & A9 & A10 & A11) (B1 & B2 & B3 & B4 & B5 & B6 & B7 & B8 & B9 & B10 & B11).
  unfold cr_frame. split; [congruence |]. split; [congruence |]. split; [congruence |]. split; [congruence |]. split; [congruence |].
  split; [congruence |]. split; [congruence |]. split; [congruence |]. split; [| split; [| lia]].
  - intro v. rewrite B9. apply A9.
  - intros v c H. apply B10. apply A10. exact H.
Qed.

Lemma nd_spec_frame s f t d s' r : nd_spec s f t d s' r -> cr_frame s s' /\ conj_exprs s' = conj_exprs s.
Proof.
  intros [H1 H2]. destruct (Nat.lt_ge_cases f (n_vars s)) as [Hf | Hf]; [destruct (Nat.lt_ge_cases t (n_vars s)) as [Ht | Ht] |].
  - destruct (H2 Hf Ht) as [(_ & -> & _) | [(_ & -> & _) | R]]; [split; [apply cr_frame_refl | reflexivity] .. |].
    destruct R as (_ & _ & _ & _ & _ & _ & R1 & R2 & R3 & R4 & R5 & R6 & R7 & R8 & R9 & R10 & R11 & R12 & R13 & R14 & R15).
    split; [| exact R14]. unfold cr_frame. repeat split; try assumption.
    + intros v c Hc. rewrite R4; [exact Hc |]. intros ->. congruence.
    + rewrite R6, app_length. lia.
  - destruct H1 as [_ ->]; [lia |]. split; [apply cr_frame_refl | reflexivity].
  - destruct H1 as [_ ->]; [lia |]. split; [apply cr_frame_refl | reflexivity].
Qed.

Lemma conj_exprs_good s ce : good s ->
  good (mkstate (n_vars s) (dists s) (preds s) (dist_constr s) (var_dists s) (dist_constrs s) (layers s) (assigns s) (prop_q s)
                (trail s) ce (confl s) (fault s)).
Proof.
  intros [N P]. split; [| exact P]. apply (ngood_transfer O D dm DS s _ N); try reflexivity.
  - destruct (gd_sat _ _ _ _ _ N) as [S1 S2 S3 S4]. constructor; assumption.
  - exact (gd_queue _ _ _ _ _ N).
  - intros v Pv. split; [exact Pv | reflexivity].
  - intros v Pv. exact Pv.
Qed.

Lemma conj_filter_in s ls p acc r : conj_filter D s ls p acc = Some r -> forall x, In x r -> In x ls \/ In x acc.
Proof.
  revert p acc. induction ls as [| l t IH]; intros p acc H x Hx; cbn [conj_filter] in H.
  - injection H as <-. right. apply in_rev. exact Hx.
  - destruct (value s l); try discriminate; destruct p as [q |];
      try (destruct (lit_eqb l (lnot q)); try discriminate); try (destruct (lit_eqb l q)); cbn [orb] in H;
      (destruct (IH _ _ H x Hx) as [Hin | Hin]; [left; right; exact Hin | cbn [In] in *; tauto]).
Qed.

Lemma new_conj2_fault s a b : fault (fst (fst (new_conj2 D s a b))) = fault s.
Proof.
  unfold new_conj2. destruct (conj_filter D s (sort2 a b) None []) as [[| l1 [| l2 ls]] |]; try reflexivity.
  destruct (ce_find _ _); reflexivity.
Qed.

(* the result of new_conj2 s a b: nothing changes and the literal is a constant, one of the arguments or a cached variable;
   or a fresh sat variable (not a constraint variable) is created *)
Definition nc_spec (s : state) (a b : lit) (s' : state) (l : lit) : Prop :=
  (s' = s /\ (l = FALSE_lit \/ l = TRUE_lit \/ l = a \/ l = b \/ exists ls v, ce_find ls (conj_exprs s) = Some v /\ l = (v, true))) \/
  (l = (length (assigns s), true) /\ 0 < length (assigns s) /\ vd_find (length (assigns s)) (var_dists s) = None /\
   value_var s' (length (assigns s)) = LU /\ (forall v, value_var s' v = value_var s v) /\
   assigns s' = assigns s ++ [LU] /\ n_vars s' = n_vars s /\ dists s' = dists s /\ preds s' = preds s /\
   dist_constr s' = dist_constr s /\ var_dists s' = var_dists s /\ dist_constrs s' = dist_constrs s /\ layers s' = layers s /\
   prop_q s' = prop_q s /\ trail s' = trail s /\ confl s' = confl s /\ fault s' = fault s /\
   exists ls, ce_find ls (conj_exprs s) = None /\ conj_exprs s' = conj_exprs s ++ [(ls, length (assigns s))]).

Lemma new_conj2_correct s a b s' l ev : good s -> new_conj2 D s a b = (s', l, ev) -> good s' /\ nc_spec s a b s' l.
Proof.
  intros G E. unfold new_conj2 in E. unfold nc_spec.
  destruct (conj_filter D s (sort2 a b) None []) as [[| l1 [| l2 ls]] |] eqn:CF.
  - injection E as <- <- <-. split; [exact G |]. left. auto.
  - injection E as <- <- <-. split; [exact G |]. left. split; [reflexivity |].
    destruct (conj_filter_in _ _ _ _ _ CF l1 (or_introl eq_refl)) as [Hin | []].
    unfold sort2 in Hin. destruct (Nat.ltb _ _); cbn [In] in Hin; intuition auto.
  - destruct (ce_find (l1 :: l2 :: ls) (conj_exprs s)) as [v |] eqn:CE.
    + injection E as <- <- <-. split; [exact G |]. left. split; [reflexivity |]. do 4 right. exists (l1 :: l2 :: ls), v. auto.
    + cbn in E. injection E as <- <- <-.
      destruct (sat_new_var_good s G) as (G1 & VV & VU & VN & H0).
      split; [apply (conj_exprs_good (snv s) _ G1) |]. right.
      split; [reflexivity |]. split; [exact H0 |]. split; [exact VN |]. split; [exact (eq_trans (VV _) VU) |]. split; [exact VV |].
      cbn. repeat split. exists (l1 :: l2 :: ls). auto.
  - injection E as <- <- <-. split; [exact G |]. left. auto.
Qed.

Lemma new_conj2_good s a b : good s -> let '(s', l, ev) := new_conj2 D s a b in good s' /\ nc_spec s a b s' l.
Proof. intro G. destruct (new_conj2 D s a b) as [[s' l] ev] eqn:E. exact (new_conj2_correct s a b s' l ev G E). Qed.

Lemma nc_spec_frame s a b s' l : nc_spec s a b s' l ->
  cr_frame s s' /\ var_dists s' = var_dists s /\ dist_constrs s' = dist_constrs s /\ fault s' = fault s.
Proof.
  intros [[-> _] | R]; [split; [apply cr_frame_refl | auto] |].
  destruct R as (_ & _ & _ & _ & R1 & R2 & R3 & R4 & R5 & R6 & R7 & R8 & R9 & R10 & R11 & R12 & R13 & _).
  split; [| auto]. unfold cr_frame. repeat split; try assumption.
  - intros v c Hc. rewrite R7. exact Hc.
  - rewrite R2, app_length. lia.
Qed.

(* two constraints and the conjunction of their literals: the common part of new_distance(from, to, min, max) and new_eq *)
Definition nd_pair (s : state) (f1 t1 : nat) (d1 : D) (f2 t2 : nat) (d2 : D) : state * res D * list event :=
  let (s1, r1) := new_distance D dm s f1 t1 d1 in
  let (s2, r2) := new_distance D dm s1 f2 t2 d2 in
  let '(s3, l, ev) := new_conj2 D s2 (lit_of D r1) (lit_of D r2) in (s3, RLit l, ev).

Lemma nd_pair_fault s f1 t1 d1 f2 t2 d2 : fault (fst (fst (nd_pair s f1 t1 d1 f2 t2 d2))) = 0 -> fault s = 0.
Proof.
  unfold nd_pair. destruct (new_distance D dm s f1 t1 d1) as [s1 r1] eqn:E1. destruct (new_distance D dm s1 f2 t2 d2) as [s2 r2] eqn:E2.
  pose proof (new_conj2_fault s2 (lit_of D r1) (lit_of D r2)) as H. destruct (new_conj2 D s2 (lit_of D r1) (lit_of D r2)) as [[s3 l] ev3].
  cbn [fst] in *. intro F. apply (new_distance_fault s f1 t1 d1). rewrite E1. apply (new_distance_fault s1 f2 t2 d2). rewrite E2. cbn [fst]. congruence.
Qed.

Lemma nd_pair_good s f1 t1 d1 f2 t2 d2 s' r ev :
  good s -> nd_pair s f1 t1 d1 f2 t2 d2 = (s', r, ev) -> fault s' = 0 ->
  good s' /\ cr_frame s s' /\
  exists s1 r1 s2 r2 l,
    new_distance D dm s f1 t1 d1 = (s1, r1) /\ good s1 /\ nd_spec s f1 t1 d1 s1 r1 /\
    new_distance D dm s1 f2 t2 d2 = (s2, r2) /\ good s2 /\ nd_spec s1 f2 t2 d2 s2 r2 /\
    nc_spec s2 (lit_of D r1) (lit_of D r2) s' l /\ r = RLit l /\
    new_conj2 D s2 (lit_of D r1) (lit_of D r2) = (s', l, ev) /\ fault s1 = 0 /\ fault s2 = 0.
Proof.
  intros G E F. pose proof (nd_pair_fault s f1 t1 d1 f2 t2 d2) as F0. unfold nd_pair in E, F0.
  destruct (new_distance D dm s f1 t1 d1) as [s1 r1] eqn:E1. destruct (new_distance D dm s1 f2 t2 d2) as [s2 r2] eqn:E2.
  destruct (new_conj2 D s2 (lit_of D r1) (lit_of D r2)) as [[s3 l] ev3] eqn:E3. injection E as <- <- <-.
  assert (F2 : fault s2 = 0).
  { pose proof (new_conj2_fault s2 (lit_of D r1) (lit_of D r2)) as H. rewrite E3 in H. cbn [fst] in H. congruence. }
  assert (F1 : fault s1 = 0) by (apply (new_distance_fault s1 f2 t2 d2); rewrite E2; exact F2).
  destruct (new_distance_correct s f1 t1 d1 s1 r1 G E1 F1) as [G1 N1].
  destruct (new_distance_correct s1 f2 t2 d2 s2 r2 G1 E2 F2) as [G2 N2].
  destruct (new_conj2_correct s2 _ _ s3 l ev3 G2 E3) as [G3 N3].
  split; [exact G3 |]. split.
  - eapply cr_frame_trans; [apply (nd_spec_frame _ _ _ _ _ _ N1) |].
    eapply cr_frame_trans; [apply (nd_spec_frame _ _ _ _ _ _ N2) | apply (nc_spec_frame _ _ _ _ _ N3)].
  - exists s1, r1, s2, r2, l. auto 12.
Qed.

(* new_distance(from, to, min, max) *)
Definition nd2_spec (s : state) (f t : nat) (mn mx : D) (s' : state) (r : res D) : Prop :=
  (~ (f < n_vars s /\ t < n_vars s) -> r = RErr /\ s' = s) /\
  (f < n_vars s -> t < n_vars s ->
   exists s1 r1 s2 r2 l,
     new_distance D dm s t f (dneg dm mn) = (s1, r1) /\ good s1 /\ nd_spec s t f (dneg dm mn) s1 r1 /\
     new_distance D dm s1 f t mx = (s2, r2) /\ good s2 /\ nd_spec s1 f t mx s2 r2 /\
     nc_spec s2 (lit_of D r1) (lit_of D r2) s' l /\ r = RLit l).

Lemma new_distance2_correct s f t mn mx s' r ev :
  good s -> new_distance2 D dm s f t mn mx = (s', r, ev) -> fault s' = 0 ->
  good s' /\ nd2_spec s f t mn mx s' r /\ cr_frame s s'.
Proof.
  intros G E F. unfold new_distance2 in E. fold (nd_pair s t f (dneg dm mn) f t mx) in E. unfold nd2_spec.
  destruct (Nat.ltb_spec f (n_vars s)) as [Hf | Hf]; [destruct (Nat.ltb_spec t (n_vars s)) as [Ht | Ht] |]; cbn [andb negb] in E.
  - destruct (nd_pair_good _ _ _ _ _ _ _ _ _ _ G E F) as (G3 & Fr & s1 & r1 & s2 & r2 & l & A1 & A2 & A3 & A4 & A5 & A6 & A7 & A8 & _).
    split; [exact G3 |]. split; [| exact Fr]. split; [intro H; exfalso; apply H; auto |]. intros _ _. exists s1, r1, s2, r2, l. auto 10.
  - injection E as <- <- <-. split; [exact G |]. split; [| apply cr_frame_refl]. split; [auto | intros; lia].
  - injection E as <- <- <-. split; [exact G |]. split; [| apply cr_frame_refl]. split; [auto | intros; lia].
Qed.

Lemma new_distance2_good s f t mn mx : good s -> layers s = [] ->
  let '(s', r, ev) := new_distance2 D dm s f t mn mx in
  fault s' = 0 -> good s' /\ nd2_spec s f t mn mx s' r /\ cr_frame s s'.
Proof.
  intros G _. destruct (new_distance2 D dm s f t mn mx) as [[s' r] ev] eqn:E. intro F.
  exact (new_distance2_correct s f t mn mx s' r ev G E F).
Qed.

End Create.
