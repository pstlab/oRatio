(* What the proofs need to know about a distance domain (`domspec`), and the state-level vocabulary of the invariants:
   the distance function of a state, the set of edges contributed by the literals the theory has processed, the
   shape / table / predecessor invariants. *)
From Coq Require Import List Arith Bool.
From ORatio Require Import smt.DlDom smt.Dl proofs.DlOrd_Proofs proofs.DlBase_Proofs proofs.DlGraph_Proofs.
Import ListNotations.

Arguments Fin {O}. Arguments Inf {O}.
Arguments xlt {O}. Arguments xle {O}. Arguments xadd {O}. Arguments xadd2 {O}.
Arguments walk {O}. Arguments neg_cycle {O}. Arguments exact {O}. Arguments add_edge {O}. Arguments edges_in {O}.
Arguments sound {O}. Arguments relaxed {O}. Arguments diag0 {O}. Arguments updated {O}. Arguments via {O}. Arguments is_min {O}.

Record domspec (O : ogroup) (D : Type) (dm : dom D) := mkds {
  itp : D -> xd O;             (* value of a matrix entry / bound *)
  mok : D -> Prop;             (* legal matrix entry *)
  wt : D -> O -> Prop;         (* legal finite bound with its value *)
  junk : Prop;                 (* the comparison between two infinite distances may succeed (rdl_theory without the guard) *)
  gpred : O -> O;              (* value of dpred: -g - 1, resp. -g - epsilon *)
  ds_zero : mok (dzero dm) /\ itp (dzero dm) = Fin g0;
  ds_inf : mok (dinf dm) /\ itp (dinf dm) = Inf;
  ds_wt : forall d g, wt d g -> mok d /\ itp d = Fin g /\ dok dm d = true;
  ds_dwok : forall d, dwok dm d = true -> exists g, wt d g;
  ds_add : forall a d gd, mok a -> wt d gd -> (junk \/ itp a <> Inf) -> dok dm (dadd dm a d) = true ->
             mok (dadd dm a d) /\ itp (dadd dm a d) = xadd (itp a) gd;
  ds_add2 : forall a b, mok a -> mok b -> (junk \/ (itp a <> Inf /\ itp b <> Inf)) -> dok dm (dadd dm a b) = true ->
             mok (dadd dm a b) /\ itp (dadd dm a b) = xadd2 (itp a) (itp b);
  ds_t1 : forall a b d gd, mok a -> mok b -> wt d gd ->
             if dfin dm a && dltb dm a (dsub dm b d)
             then xlt (xadd (itp a) gd) (itp b) \/ (junk /\ itp a = Inf /\ itp b = Inf)
             else xle (itp b) (xadd (itp a) gd);
  ds_t2 : forall a b c, mok a -> mok b -> mok c -> (junk \/ (itp a <> Inf /\ itp b <> Inf)) ->
             if dltb dm (dadd dm a b) c
             then xlt (xadd2 (itp a) (itp b)) (itp c) \/ (junk /\ xadd2 (itp a) (itp b) = Inf /\ itp c = Inf)
             else xle (itp c) (xadd2 (itp a) (itp b));
  ds_lt_neg : forall x d gd, mok x -> wt d gd -> (dltb dm x (dneg dm d) = true <-> xlt (itp x) (Fin (-o gd)));
  ds_le : forall x d gd, mok x -> wt d gd -> (dleb dm x d = true <-> xle (itp x) (Fin gd));
  ds_gt : forall x d gd, mok x -> wt d gd -> (dltb dm d x = true <-> xlt (Fin gd) (itp x));
  ds_ge_neg : forall x d gd, mok x -> wt d gd -> (dleb dm (dneg dm d) x = true <-> xlt (Fin (gpred gd)) (itp x));
  ds_pred : forall d gd, dwok dm d = true -> wt d gd -> wt (dpred dm d) (gpred gd);
  ds_wt_fun : forall d g g', wt d g -> wt d g' -> g = g';
  ds_pred_neg : forall g, gpred g +o g <o g0;
  ds_pred_disc : forall x gx d gd, mok x -> itp x = Fin gx -> dwok dm d = true -> wt d gd -> gd <o gx -> g0 <=o gx +o gpred gd;
  ds_nojunk : ~ junk -> forall x, mok x -> itp x = Inf -> x = dinf dm;
  (* the two comparisons of new_eq's pre-check and the bound of its second constraint *)
  ds_negx_le : forall x d gd, mok x -> wt d gd -> (dleb dm (dneg dm x) d = true <-> xle (Fin (-o gd)) (itp x));
  ds_le_x : forall x d gd, mok x -> wt d gd -> (dleb dm d x = true <-> xle (Fin gd) (itp x));
  ds_wt_neg : forall d g, dwok dm d = true -> wt d g -> wt (dneg dm d) (-o g)
}.
Arguments itp {O D dm}. Arguments mok {O D dm}. Arguments wt {O D dm}. Arguments junk {O D dm}. Arguments gpred {O D dm}.

Section Spec.
Variable O : ogroup.
Variable D : Type.
Variable dm : dom D.
Variable DS : domspec O D dm.

Notation state := (state D).
Notation dget := (dget D dm).

Definition dval (s : state) (i j : nat) : xd O := itp DS (dget s i j).

(* a constraint variable the theory has processed: bound, assigned, no longer waiting in the queue *)
Definition in_q (s : state) (v : nat) : Prop := In v (map fst (prop_q s)).
Definition proc (s : state) (v : nat) : Prop :=
  (exists c, vd_find v (var_dists s) = Some c) /\ value_var s v <> LU /\ ~ in_q s v.

(* the edge of a literal over a constraint variable: `to - from <= d`, resp. the strengthened reverse edge *)
Definition lit_edge (s : state) (l : lit) (e : edge O) : Prop :=
  exists c g, vd_find (fst l) (var_dists s) = Some c /\ wt DS (c_dist c) g /\
              e = if snd l then (c_from c, c_to c, g) else (c_to c, c_from c, gpred DS g).
Definition true_lit (s : state) (v : nat) : lit := (v, match value_var s v with LT => true | _ => false end).

Definition edges (s : state) : edge O -> Prop := fun e => exists v, proc s v /\ lit_edge s (true_lit s v) e.

Record shape_ok (s : state) : Prop := mkshape {
  sh_d : mshape (dists s) (length (dists s)) (length (dists s));
  sh_p : mshape (preds s) (length (dists s)) (length (dists s));
  sh_n : 1 <= n_vars s <= length (dists s);
  sh_mok : forall i j, mok DS (dget s i j);
  (* rows and columns of time points that do not exist yet are as the constructor / resize left them *)
  sh_fresh : forall i j, n_vars s <= i \/ n_vars s <= j ->
             dget s i j = (if Nat.eqb i j && Nat.ltb i (length (dists s)) then dzero dm else dinf dm)
}.

Record tables_ok (s : state) : Prop := mktables {
  tb_nodup : NoDup (map fst (var_dists s));
  tb_wf : forall v c, vd_find v (var_dists s) = Some c ->
            c_from c < n_vars s /\ c_to c < n_vars s /\ c_from c <> c_to c /\ dwok dm (c_dist c) = true /\ 0 < v < length (assigns s);
  tb_cs : forall v c, vd_find v (var_dists s) = Some c ->
            exists l, pm_find (c_from c, c_to c) (dist_constrs s) = Some l /\ In v l;
  tb_cs_sorted : pm_sorted (dist_constrs s);
  tb_cs_inv : forall k l v, pm_find k (dist_constrs s) = Some l -> In v l ->
            exists c, vd_find v (var_dists s) = Some c /\ k = (c_from c, c_to c)
}.

Record sat_ok (s : state) : Prop := mksat {
  so_false : value_var s 0 = LF;
  so_q_true : forall l, In l (prop_q s) -> value s l = LT;
  so_q_nodup : NoDup (map fst (prop_q s));
  so_levels : length (trail s) = S (length (layers s))
}.

(* ---- predecessors: the chain from j back to i in row i, along entries of dist_constr that are asserted and tight ---- *)
(* dist_constr has an entry for (p, j), its constraint has been processed and contributes the edge p -g-> j *)
Definition cedge (s : state) (p j : nat) (g : O) : Prop :=
  exists c, pm_find (p, j) (dist_constr s) = Some c /\ proc s c /\ lit_edge s (true_lit s c) (p, j, g).

Inductive gtree (pg : nat -> nat -> option nat) (dv : nat -> nat -> xd O) (ce : nat -> nat -> O -> Prop) (i : nat) : nat -> Prop :=
| tree_root : gtree pg dv ce i i
| tree_step j p g :
    j <> i -> pg i j = Some p -> gtree pg dv ce i p -> ce p j g ->
    dv i j = xadd (dv i p) g ->
    gtree pg dv ce i j.
Definition tree (s : state) : nat -> nat -> Prop := gtree (pget s) (dval s) (cedge s).

Definition preds_ok (s : state) : Prop :=
  forall i j, i < n_vars s -> j < n_vars s -> dval s i j <> Inf -> tree s i j.

(* every entry of dist_constr is an asserted constraint of that very pair *)
Definition dc_ok (s : state) : Prop :=
  pm_sorted (dist_constr s) /\
  forall k c, pm_find k (dist_constr s) = Some c -> proc s c /\ exists g, lit_edge s (true_lit s c) (fst k, snd k, g).

Lemma gtree_mono pg dv (ce ce' : nat -> nat -> O -> Prop) i j :
  (forall pp jj g, ce pp jj g -> ce' pp jj g) -> gtree pg dv ce i j -> gtree pg dv ce' i j.
Proof. intros H. induction 1; [apply tree_root | eapply tree_step; eauto]. Qed.

Lemma cedge_edge s p j g : cedge s p j g -> edges s (p, j, g).
Proof. intros (c & _ & Hp & He). exists c. split; assumption. Qed.

Definition decided (s : state) (c : cstr D) : Prop :=
  dltb dm (dget s (c_to c) (c_from c)) (dneg dm (c_dist c)) = true \/ dleb dm (dget s (c_from c) (c_to c)) (c_dist c) = true.
(* every undefined constraint is undecided by the distances *)
Definition prop_ok (s : state) : Prop :=
  forall v c, vd_find v (var_dists s) = Some c -> value_var s v = LU -> ~ decided s c.

(* every assigned constraint variable has been processed or is waiting in the queue *)
Definition queue_ok (s : state) : Prop :=
  forall v c, vd_find v (var_dists s) = Some c -> value_var s v <> LU -> proc s v \/ in_q s v.

Record layers_ok (s : state) : Prop := mklayers {
  ly_sorted : Forall (fun l => pm_sorted (old_dists l) /\ pm_sorted (old_preds l) /\ pm_sorted (old_constrs l)) (layers s);
  ly_range : Forall (fun l => (forall k v, pm_find k (old_dists l) = Some v -> fst k < length (dists s) /\ snd k < length (dists s)) /\
                              (forall k v, pm_find k (old_preds l) = Some v -> fst k < length (dists s) /\ snd k < length (dists s))) (layers s)
}.

(* everything except "every undefined constraint is undecided" (which is re-established by the last pass of propagate) *)
Record ngood (s : state) : Prop := mkngood {
  gd_fault : fault s = 0;
  gd_shape : shape_ok s;
  gd_tables : tables_ok s;
  gd_sat : sat_ok s;
  gd_layers : layers_ok s;
  gd_exact : exact (n_vars s) (edges s) (dval s);
  gd_preds : preds_ok s;
  gd_dc : dc_ok s;
  gd_queue : queue_ok s
}.
Record good (s : state) : Prop := mkgood { gd_n : ngood s; gd_prop : prop_ok s }.

End Spec.
