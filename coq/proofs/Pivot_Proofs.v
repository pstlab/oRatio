(* C20: every interleaving of one pivot's row-update tasks gives the sequential result; no two unsynchronised steps touch
   the same object; join returns only when every submitted task has completed. *)
From Coq Require Import QArith List Lia.
From ORatio Require Import smt.Lra smt.Pivot proofs.LraBase_Proofs.
Import ListNotations.
#[local] Arguments Qred : simpl never.

Lemma length_set_nth {A} (l : list A) n a : length (set_nth l n a) = length l.
Proof. revert n. induction l as [| h t IH]; intros [| n]; simpl; auto. Qed.
Lemma nth_set_nth_same {A} (l : list A) n a d : (n < length l)%nat -> nth n (set_nth l n a) d = a.
Proof. revert n. induction l as [| h t IH]; intros [| n] H; simpl in *; try lia; auto. apply IH. lia. Qed.
Lemma nth_set_nth_other {A} (l : list A) n m a d : n <> m -> nth m (set_nth l n a) d = nth m l d.
Proof. revert n m. induction l as [| h t IH]; intros [| n] [| m] H; simpl; auto; try congruence. Qed.
Lemma nth_some_lt {A} (l : list (list A)) t a r : nth t l [] = a :: r -> (t < length l)%nat.
Proof. intro E. destruct (Nat.lt_ge_cases t (length l)) as [K | K]; auto. rewrite nth_overflow in E by lia. discriminate. Qed.
Lemma existsb_eqb_in v l : existsb (Nat.eqb v) l = true <-> In v l.
Proof.
  rewrite existsb_exists. split; [intros [x [H E]]; apply Nat.eqb_eq in E; subst; auto | intro H; exists v; split; auto; apply Nat.eqb_refl].
Qed.

(* what a program does to one row / one membership bit *)
Fixpoint rowproj (r : rowid) (p : list action) (l : lin) : lin :=
  match p with
  | [] => l
  | ARow q f :: t => rowproj r t (if Nat.eqb r q then f l else l)
  | _ :: t => rowproj r t l
  end.
Fixpoint watchproj (v : var) (r : rowid) (p : list action) (b : bool) : bool :=
  match p with
  | [] => b
  | AIns w q :: t => watchproj v r t (if Nat.eqb v w && Nat.eqb r q then true else b)
  | ADel w q :: t => watchproj v r t (if Nat.eqb v w && Nat.eqb r q then false else b)
  | _ :: t => watchproj v r t b
  end.
Lemma rowproj_app r p q l : rowproj r (p ++ q) l = rowproj r q (rowproj r p l).
Proof. revert l. induction p as [| a t IH]; intro l; simpl; auto. destruct a; auto. Qed.
Lemma watchproj_app v r p q b : watchproj v r (p ++ q) b = watchproj v r q (watchproj v r p b).
Proof. revert b. induction p as [| a t IH]; intro b; simpl; auto. destruct a; auto. Qed.

(* the lock discipline, one action at a time *)
Lemma well_locked_cons own held a t : well_locked own held (a :: t) = true ->
  match a with
  | ARow r _ => r = own /\ well_locked own held t = true
  | ALock v => ~ In v held /\ well_locked own (v :: held) t = true
  | AUnlock v => exists hs, held = v :: hs /\ well_locked own hs t = true
  | AIns v r | ADel v r => In v held /\ r = own /\ well_locked own held t = true
  end.
Proof.
  destruct a; simpl; rewrite ?andb_true_iff, ?negb_true_iff, ?existsb_eqb_in, ?Nat.eqb_eq; try tauto.
  - rewrite <- existsb_eqb_in. intros [H K]. split; [congruence | exact K].
  - destruct held as [| w hs]; [discriminate |]. rewrite andb_true_iff, Nat.eqb_eq. intros [-> K]. exists hs. auto.
Qed.

(* an action of a program that only concerns row `own` leaves the other rows / bits alone *)
Definition concerns (own : rowid) (a : action) : Prop :=
  match a with ARow r _ => r = own | AIns _ r | ADel _ r => r = own | _ => True end.
Lemma well_locked_concerns own held p : well_locked own held p = true -> Forall (concerns own) p.
Proof.
  revert held. induction p as [| a t IH]; intros held H; constructor; apply well_locked_cons in H; destruct a; simpl; try tauto;
    try (destruct H as [hs [_ H]]); eapply IH; apply H.
Qed.
Lemma footprint_row own a r : concerns own a -> In (LRow r) (footprint a) -> r = own.
Proof. destruct a; simpl; intros C H; try tauto; destruct H as [E | []]; congruence. Qed.
Lemma footprint_watch own held a t v : well_locked own held (a :: t) = true -> In (LWatch v) (footprint a) -> In v held.
Proof. intro W. apply well_locked_cons in W. destruct a; simpl; intro H; try tauto; destruct H as [E | []]; try discriminate; injection E as <-; tauto. Qed.
Lemma conflict_true a b : conflict a b = true -> exists x, In x (footprint a) /\ In x (footprint b).
Proof.
  unfold conflict. rewrite existsb_exists. intros [x [Ha H]]. apply existsb_exists in H. destruct H as [y [Hb E]].
  exists x. split; auto. destruct x, y; simpl in E; try discriminate; apply Nat.eqb_eq in E; subst; exact Hb.
Qed.

Lemma exec_row t a s r : prow (exec t a s) r = match a with ARow q f => if Nat.eqb r q then f (prow s r) else prow s r | _ => prow s r end.
Proof. destruct a; reflexivity. Qed.
Lemma exec_watch t a s v r :
  pwatch (exec t a s) v r = match a with
                            | AIns w q => if Nat.eqb v w && Nat.eqb r q then true else pwatch s v r
                            | ADel w q => if Nat.eqb v w && Nat.eqb r q then false else pwatch s v r
                            | _ => pwatch s v r end.
Proof. destruct a; reflexivity. Qed.

Lemma run_sched_inv (P : config -> Prop) :
  (forall c t c', P c -> step t c = Some c' -> P c') -> forall sched c c', P c -> run_sched sched c = Some c' -> P c'.
Proof.
  intros H sched. induction sched as [| t s IH]; intros c c' I R; simpl in R.
  - injection R as <-. exact I.
  - destruct (step t c) as [c1 |] eqn:S; [| discriminate]. apply (IH c1); [eapply H; eauto | exact R].
Qed.

Section Tasks.
  Variable progs : list (list action).
  Variable owner : nat -> rowid.
  Let n := length progs.
  Hypothesis owner_inj : forall t u, (t < n)%nat -> (u < n)%nat -> owner t = owner u -> t = u.
  Hypothesis progs_wl : forall t, (t < n)%nat -> well_locked (owner t) [] (nth t progs []) = true.
  Variable s0 : pstate.
  Hypothesis free0 : forall v, pheld s0 v = None.

  (* data invariant: each task's own row and bits are what the executed prefix of ITS program made of them *)
  Definition data_inv (c : config) : Prop :=
    length (snd c) = n /\
    (forall t, (t < n)%nat -> exists done, done ++ nth t (snd c) [] = nth t progs [] /\
        prow (fst c) (owner t) = rowproj (owner t) done (prow s0 (owner t)) /\
        forall v, pwatch (fst c) v (owner t) = watchproj v (owner t) done (pwatch s0 v (owner t))) /\
    (forall r, (forall t, (t < n)%nat -> owner t <> r) -> prow (fst c) r = prow s0 r /\ forall v, pwatch (fst c) v r = pwatch s0 v r).

  Lemma data_inv_init : data_inv (s0, progs).
  Proof.
    split; [reflexivity | split].
    - intros t Ht. exists []. simpl. auto.
    - intros r _. auto.
  Qed.

  Lemma rest_concerns c t : data_inv c -> (t < n)%nat -> Forall (concerns (owner t)) (nth t (snd c) []).
  Proof.
    intros [_ [H _]] Ht. destruct (H t Ht) as [done [E _]]. pose proof (well_locked_concerns _ _ _ (progs_wl t Ht)) as F.
    rewrite <- E in F. apply Forall_app in F. tauto.
  Qed.

  Lemma data_inv_step c t c' : data_inv c -> step t c = Some c' -> data_inv c'.
  Proof.
    intros I S. unfold step in S. destruct (nth t (snd c) []) as [| a rest] eqn:En; [discriminate |].
    destruct (enabled t a (fst c)); [| discriminate]. injection S as <-.
    assert (Ht : (t < n)%nat) by (destruct I as [<- _]; eapply nth_some_lt; eauto).
    assert (Ca : concerns (owner t) a).
    { pose proof (rest_concerns c t I Ht) as F. rewrite En in F. inversion F; auto. }
    destruct I as [L [I1 I2]].
    (* a step of task t leaves the row and the bits of every other row r alone *)
    assert (Other : forall r, r <> owner t -> prow (exec t a (fst c)) r = prow (fst c) r /\ forall v, pwatch (exec t a (fst c)) v r = pwatch (fst c) v r).
    { intros r N. apply Nat.eqb_neq in N. rewrite exec_row. split; [| intro v; rewrite exec_watch];
        destruct a; simpl in Ca; subst; rewrite ?N, ?andb_false_r; reflexivity. }
    split; [simpl; rewrite length_set_nth; exact L | split].
    - intros u Hu. simpl. destruct (Nat.eq_dec u t) as [-> | N].
      + rewrite nth_set_nth_same by lia. destruct (I1 t Ht) as [done [E [R W]]]. rewrite En in E.
        exists (done ++ [a]). split; [rewrite <- app_assoc; exact E | split].
        * rewrite rowproj_app, exec_row, <- R. destruct a; simpl in *; auto; subst; rewrite ?Nat.eqb_refl; reflexivity.
        * intro v. rewrite watchproj_app, exec_watch, <- W. destruct a; simpl in *; auto.
      + rewrite nth_set_nth_other by auto. destruct (I1 u Hu) as [done [E [R W]]]. exists done.
        destruct (Other (owner u)) as [OR OW]; [intro K; apply owner_inj in K; auto |].
        split; [exact E | split; [rewrite OR; exact R | intro v; rewrite OW; apply W]].
    - intros r Hr. simpl. destruct (I2 r Hr) as [R W]. destruct (Other r) as [OR OW]; [intro K; eapply Hr; eauto |].
      split; [rewrite OR; exact R | intro v; rewrite OW; apply W].
  Qed.

  Lemma data_inv_run sched c c' : data_inv c -> run_sched sched c = Some c' -> data_inv c'.
  Proof. apply run_sched_inv. exact data_inv_step. Qed.

  (* the data every complete execution ends with, as a function of the programs and the initial state only *)
  Lemma finished_data c : data_inv c -> finished c ->
    forall t, (t < n)%nat -> prow (fst c) (owner t) = rowproj (owner t) (nth t progs []) (prow s0 (owner t)) /\
                             forall v, pwatch (fst c) v (owner t) = watchproj v (owner t) (nth t progs []) (pwatch s0 v (owner t)).
  Proof. intros [_ [I1 _]] F t Ht. destruct (I1 t Ht) as [done [Ed K]]. rewrite F, app_nil_r in Ed. subst. exact K. Qed.

  Lemma owner_dec r : (exists t, (t < n)%nat /\ owner t = r) \/ (forall t, (t < n)%nat -> owner t <> r).
  Proof.
    clear. induction n as [| k IH].
    - right. intros t Ht. lia.
    - destruct IH as [[t [Ht E]] | IH]; [left; exists t; split; [lia | auto] |].
      destruct (Nat.eq_dec (owner k) r) as [E | N]; [left; exists k; split; [lia | auto] |].
      right. intros t Ht. destruct (Nat.eq_dec t k) as [-> | Nk]; auto. apply IH. lia.
  Qed.

  Theorem interleavings_agree sched1 sched2 c1 c2 :
    run_sched sched1 (s0, progs) = Some c1 -> finished c1 -> run_sched sched2 (s0, progs) = Some c2 -> finished c2 ->
    (forall r, prow (fst c1) r = prow (fst c2) r) /\ (forall v r, pwatch (fst c1) v r = pwatch (fst c2) v r).
  Proof.
    intros R1 F1 R2 F2.
    pose proof (data_inv_run _ _ _ data_inv_init R1) as D1. pose proof (data_inv_run _ _ _ data_inv_init R2) as D2.
    assert (A : forall r, prow (fst c1) r = prow (fst c2) r /\ forall v, pwatch (fst c1) v r = pwatch (fst c2) v r).
    { intro r. destruct (owner_dec r) as [[t [Ht <-]] | N].
      - destruct (finished_data c1 D1 F1 t Ht) as [P1 W1]. destruct (finished_data c2 D2 F2 t Ht) as [P2 W2].
        split; [congruence | intro v; rewrite W1, W2; reflexivity].
      - destruct D1 as [_ [_ I1]]. destruct D2 as [_ [_ I2]]. destruct (I1 r N) as [P1 W1]. destruct (I2 r N) as [P2 W2].
        split; [congruence | intro v; rewrite W1, W2; reflexivity]. }
    split; [intro r; apply A | intros v r; apply A].
  Qed.

  (* lock discipline: a task holds exactly the mutexes its remaining program assumes *)
  Definition lock_inv (c : config) : Prop :=
    length (snd c) = n /\
    forall t, (t < n)%nat -> exists H, NoDup H /\ well_locked (owner t) H (nth t (snd c) []) = true /\
                                 (forall v, In v H <-> pheld (fst c) v = Some t).

  Lemma lock_inv_init : lock_inv (s0, progs).
  Proof.
    split; [reflexivity |]. intros t Ht. exists []. split; [constructor | split; [apply progs_wl; auto |]].
    intro v. simpl. rewrite free0. split; [tauto | discriminate].
  Qed.

  Lemma lock_inv_step c t c' : lock_inv c -> step t c = Some c' -> lock_inv c'.
  Proof.
    intros [L I] S. unfold step in S. destruct (nth t (snd c) []) as [| a rest] eqn:En; [discriminate |].
    destruct (enabled t a (fst c)) eqn:Ena; [| discriminate]. injection S as <-.
    assert (Ht : (t < n)%nat) by (rewrite <- L; eapply nth_some_lt; eauto).
    split; [simpl; rewrite length_set_nth; exact L |]. intros u Hu. simpl.
    destruct (I t Ht) as [H [ND [WL HH]]]. rewrite En in WL. apply well_locked_cons in WL.
    destruct (Nat.eq_dec u t) as [-> | N].
    - rewrite nth_set_nth_same by lia. destruct a; simpl.
      + exists H. tauto.
      + (* lock v *)
        exists (v :: H). split; [constructor; tauto | split; [tauto |]].
        intro w. simpl. destruct (Nat.eqb_spec w v) as [-> | E]; [tauto |]. rewrite <- HH. split; [intros [K | K]; [congruence | auto] | auto].
      + (* unlock v *)
        destruct WL as [hs [-> WL]]. inversion ND; subst. exists hs. split; auto. split; auto.
        intro w. destruct (Nat.eqb_spec w v) as [-> | E]; [split; [tauto | discriminate] |].
        rewrite <- HH. simpl. split; [auto | intros [K | K]; [congruence | auto]].
      + exists H. tauto.
      + exists H. tauto.
    - rewrite nth_set_nth_other by auto. destruct (I u Hu) as [Hu' [NDu [WLu HHu]]]. exists Hu'. split; auto. split; auto.
      intro w. rewrite HHu. destruct a; simpl; try tauto; destruct (Nat.eqb_spec w v) as [-> | E]; try tauto; simpl in Ena.
      + (* t locks v: it was free *) destruct (pheld (fst c) v); [discriminate |]. split; [discriminate | intro K; injection K as K; congruence].
      + (* t unlocks v: it held it *) destruct (pheld (fst c) v) as [o |]; [| discriminate].
        apply Nat.eqb_eq in Ena. subst. split; [intro K; injection K as K; congruence | discriminate].
  Qed.
  Lemma lock_inv_run sched c c' : lock_inv c -> run_sched sched c = Some c' -> lock_inv c'.
  Proof. apply run_sched_inv. exact lock_inv_step. Qed.

  (* no data race at the granularity of the C++ objects: in a reachable configuration two different tasks never both
     have a next step on the same row or the same watch set: rows are owned, and a watch set is touched under its mutex *)
  Theorem no_race sched c t u a b ra rb :
    run_sched sched (s0, progs) = Some c -> t <> u ->
    nth t (snd c) [] = a :: ra -> nth u (snd c) [] = b :: rb -> conflict a b = false.
  Proof.
    intros R N Ea Eb.
    pose proof (lock_inv_run _ _ _ lock_inv_init R) as [L I]. pose proof (data_inv_run _ _ _ data_inv_init R) as DI.
    assert (Ht : (t < n)%nat) by (rewrite <- L; eapply nth_some_lt; eauto).
    assert (Hu : (u < n)%nat) by (rewrite <- L; eapply nth_some_lt; eauto).
    pose proof (rest_concerns c t DI Ht) as Ca. rewrite Ea in Ca. inversion Ca as [| ? ? Ca1 _]; subst.
    pose proof (rest_concerns c u DI Hu) as Cb. rewrite Eb in Cb. inversion Cb as [| ? ? Cb1 _]; subst.
    destruct (I t Ht) as [H1 [_ [W1 HH1]]]. destruct (I u Hu) as [H2 [_ [W2 HH2]]]. rewrite Ea in W1. rewrite Eb in W2.
    destruct (conflict a b) eqn:C; auto. exfalso. apply conflict_true in C. destruct C as [[r | v] [Ia Ib]].
    - apply N, owner_inj; auto. rewrite <- (footprint_row _ a r Ca1 Ia). apply (footprint_row _ b r Cb1 Ib).
    - apply (footprint_watch _ _ _ _ _ W1), HH1 in Ia. apply (footprint_watch _ _ _ _ _ W2), HH2 in Ib. congruence.
  Qed.

  (* every access to a watch set is made while holding that variable's mutex *)
  Theorem watch_access_is_locked sched c t a ra :
    run_sched sched (s0, progs) = Some c -> nth t (snd c) [] = a :: ra ->
    forall v, In (LWatch v) (footprint a) -> pheld (fst c) v = Some t.
  Proof.
    intros R Ea v Hv. pose proof (lock_inv_run _ _ _ lock_inv_init R) as [L I].
    assert (Ht : (t < n)%nat) by (rewrite <- L; eapply nth_some_lt; eauto).
    destruct (I t Ht) as [H [_ [W HH]]]. rewrite Ea in W. apply HH. eapply footprint_watch; eauto.
  Qed.
End Tasks.

Lemma run_sched_app s1 s2 c : run_sched (s1 ++ s2) c = match run_sched s1 c with Some c' => run_sched s2 c' | None => None end.
Proof. revert c. induction s1 as [| t s IH]; intro c; simpl; auto. destruct (step t c); auto. Qed.

(* the actions of the model respect the discipline the footprint table certifies for the source text *)
Lemma term_actions_wl r cc e row : well_locked r [] (term_actions r cc e row) = true.
Proof.
  revert row. induction e as [| [v c] t IH]; intro row; simpl; auto.
  destruct (coef v (lterms row)) as [d |].
  - destruct (Qeq_bool (d + c * cc) 0); simpl; rewrite ?Nat.eqb_refl; simpl; auto.
  - simpl. rewrite !Nat.eqb_refl. simpl. auto.
Qed.
Lemma well_locked_app own p q held : well_locked own held p = true -> well_locked own [] q = true -> well_locked own held (p ++ q) = true.
Proof.
  revert held. induction p as [| a t IH]; intros held Hp Hq; simpl in *.
  - destruct held; [exact Hq | discriminate].
  - destruct a; try (destruct held; [discriminate |]); apply andb_true_iff in Hp; destruct Hp as [A B]; rewrite A; simpl; auto.
Qed.
Theorem task_actions_well_locked x_j expr r row0 : well_locked r [] (task_actions x_j expr r row0) = true.
Proof.
  unfold task_actions. destruct (coef x_j (lterms row0)) as [cc |]; [| reflexivity].
  simpl. rewrite Nat.eqb_refl. simpl. apply well_locked_app; [apply term_actions_wl | simpl; rewrite Nat.eqb_refl; reflexivity].
Qed.

(* executed alone, a task turns its row into what the sequential code of lra_theory::pivot computes (Lra.lin_add_scaled) *)
Lemma rowproj_term_actions r cc e row :
  rowproj r (term_actions r cc e row) row = mkLin (fold_left (fun acc t => add_term (fst t) (snd t * cc) acc) e (lterms row)) (lconst row).
Proof.
  revert row. induction e as [| [v c] t IH]; intro row; simpl.
  - destruct row; reflexivity.
  - destruct (coef v (lterms row)) as [d |] eqn:C.
    + destruct (Qeq_bool (d + c * cc) 0); simpl; rewrite Nat.eqb_refl; rewrite IH; reflexivity.
    + simpl. rewrite Nat.eqb_refl, IH, (add_term_absent v (c * cc) _ C). reflexivity.
Qed.
Theorem task_computes_pivot_row x_j expr r row0 cc :
  coef x_j (lterms row0) = Some cc ->
  rowproj r (task_actions x_j expr r row0) row0 = lin_add_scaled (lin_remove x_j row0) expr cc.
Proof.
  intro C. unfold task_actions. rewrite C. simpl. rewrite Nat.eqb_refl. rewrite rowproj_app. rewrite rowproj_term_actions. simpl.
  rewrite Nat.eqb_refl. unfold lin_add_scaled. simpl. reflexivity.
Qed.

(* the data after ANY complete interleaving of the tasks of one pivot is the sequential result *)
Definition pivot_progs (x_j : var) (expr : lin) (rows : list (rowid * lin)) : list (list action) :=
  map (fun rr => task_actions x_j expr (fst rr) (snd rr)) rows.
Definition no_row : rowid * lin := (0%nat, mkLin [] 0).
Definition pivot_owner (rows : list (rowid * lin)) (t : nat) : rowid := fst (nth t rows no_row).

Lemma nth_pivot_progs x_j expr rows t : (t < length rows)%nat ->
  nth t (pivot_progs x_j expr rows) [] = task_actions x_j expr (pivot_owner rows t) (snd (nth t rows no_row)).
Proof.
  intro Ht. unfold pivot_progs, pivot_owner.
  rewrite (nth_indep _ [] (task_actions x_j expr (fst no_row) (snd no_row))) by (rewrite map_length; auto).
  apply (map_nth (fun rr => task_actions x_j expr (fst rr) (snd rr))).
Qed.

Theorem parallel_pivot_rows x_j expr rows s0 sched c :
  NoDup (map fst rows) -> (forall r row0, In (r, row0) rows -> prow s0 r = row0) ->
  run_sched sched (s0, pivot_progs x_j expr rows) = Some c -> finished c ->
  forall r row0 cc, In (r, row0) rows -> coef x_j (lterms row0) = Some cc ->
    prow (fst c) r = lin_add_scaled (lin_remove x_j row0) expr cc.
Proof.
  intros ND H0 R F r row0 cc Hin Hc.
  set (progs := pivot_progs x_j expr rows). set (owner := pivot_owner rows).
  assert (Len : length progs = length rows) by apply map_length.
  assert (Inj : forall t u, (t < length progs)%nat -> (u < length progs)%nat -> owner t = owner u -> t = u).
  { intros t u Ht Hu E. rewrite Len in *. apply (proj1 (NoDup_nth (map fst rows) 0%nat) ND); rewrite ?map_length; auto.
    exact (eq_trans (map_nth fst rows _ t) (eq_trans E (eq_sym (map_nth fst rows _ u)))). }
  assert (WL : forall t, (t < length progs)%nat -> well_locked (owner t) [] (nth t progs []) = true).
  { intros t Ht. unfold progs. rewrite nth_pivot_progs by (rewrite <- Len; exact Ht). apply task_actions_well_locked. }
  destruct (In_nth _ _ no_row Hin) as [t [Ht Et]].
  destruct (finished_data progs owner s0 c (data_inv_run progs owner Inj WL s0 _ _ _ (data_inv_init progs owner s0) R) F t) as [A _];
    [rewrite Len; exact Ht |].
  assert (Ot : owner t = r) by exact (f_equal fst Et).
  assert (Pt : nth t progs [] = task_actions x_j expr r row0).
  { unfold progs. rewrite nth_pivot_progs by exact Ht. exact (f_equal2 (task_actions x_j expr) (f_equal fst Et) (f_equal snd Et)). }
  rewrite Ot, Pt in A. rewrite A, (H0 r row0 Hin). apply task_computes_pivot_row. exact Hc.
Qed.

Lemma watchproj_term_actions v r cc e : forall row b,
  ksorted (keys (lterms row)) -> (b = true <-> coef v (lterms row) <> None) ->
  (watchproj v r (term_actions r cc e row) b = true <->
   coef v (fold_left (fun acc t => add_term (fst t) (snd t * cc) acc) e (lterms row)) <> None).
Proof.
  induction e as [| [w c] t IH]; intros row b S Hb; simpl; [exact Hb |].
  assert (S' : ksorted (keys (add_term w (c * cc) (lterms row)))) by (apply ksorted_add_term; exact S).
  (* the bit of v after the step on term w: unchanged for v <> w, otherwise set by emplace and cleared by erase *)
  assert (Other : v <> w -> (b = true <-> coef v (add_term w (c * cc) (lterms row)) <> None)) by (intro N; rewrite coef_add_other by auto; exact Hb).
  destruct (coef w (lterms row)) as [d |] eqn:C.
  - pose proof (coef_add_same_sorted w (c * cc) _ d S C) as Same.
    destruct (Qeq_bool (d + c * cc) 0) eqn:Z; simpl; apply (IH (mkLin (add_term w (c * cc) (lterms row)) (lconst row))); simpl; auto.
    + destruct (Nat.eqb_spec v w) as [-> | N]; simpl; [rewrite Nat.eqb_refl, Same; split; [discriminate | congruence] | auto].
    + destruct (Nat.eq_dec v w) as [-> | N]; [rewrite Same, Hb, C; split; intros _; discriminate | auto].
  - rewrite (add_term_absent w (c * cc) _ C) in *. simpl.
    apply (IH (mkLin (insert_term w (Qred (c * cc)) (lterms row)) (lconst row))); simpl; auto.
    destruct (Nat.eqb_spec v w) as [-> | N]; simpl; [| auto].
    rewrite Nat.eqb_refl, (alook_ains w (Qred (c * cc)) (lterms row) w C : coef w (insert_term w _ _) = _), Nat.eqb_refl. split; [discriminate | reflexivity].
Qed.

(* the watch bits written by a task agree with the derived watch sets of the C09 model: after the task, row r watches v
   exactly when v occurs in the new row (for every v other than x_j, whose watch set the pivot swaps out beforehand) *)
Theorem task_watch_bits_match_new_row v r x_j expr row0 cc b0 :
  ksorted (keys (lterms row0)) -> coef x_j (lterms row0) = Some cc -> v <> x_j ->
  (b0 = true <-> coef v (lterms row0) <> None) ->
  (watchproj v r (task_actions x_j expr r row0) b0 = true <-> coef v (lterms (lin_add_scaled (lin_remove x_j row0) expr cc)) <> None).
Proof.
  intros S C N Hb. unfold task_actions. rewrite C. simpl. rewrite watchproj_app. simpl.
  unfold lin_add_scaled. simpl. apply (watchproj_term_actions v r cc (lterms expr) (lin_remove x_j row0) b0).
  - simpl. apply ksorted_arem. exact S.
  - simpl. rewrite (alook_arem_other x_j _ v N : coef v (remove_term x_j (lterms row0)) = _). exact Hb.
Qed.

Lemma pool_balance p : pool_reach p -> (queued p + active p + completed p = submitted p)%nat.
Proof.
  induction 1 as [| p q R IH S]; [reflexivity |]. destruct S as [p | p q E | p a E]; simpl in *; lia.
Qed.
Theorem join_returns_only_when_all_done p : pool_reach p -> join_may_return p -> completed p = submitted p.
Proof. intros R [A Q]. pose proof (pool_balance p R). lia. Qed.

Lemma pool_table_ok_spec t : pool_table_ok t = true -> forall e, In e t -> pa_locked e = true /\ pa_fn e <> POtherFn.
Proof.
  unfold pool_table_ok. rewrite !andb_true_iff. intros [[[[[[H1 H2] _] _] _] _] _] e He.
  rewrite forallb_forall in H1, H2. split; [apply H1; exact He |]. specialize (H2 e He). intro K. rewrite K in H2. discriminate.
Qed.
(* table_ok is exactly the discipline: watch accesses indexed by the loop variable under that variable's mutex, no other
   shared object *)
Lemma table_ok_spec t : table_ok t = true ->
  forall e, In e t -> match f_obj e with FWatch => f_index_is_v e = true /\ f_guard_on_v e = true | FOtherShared => False | _ => True end.
Proof.
  unfold table_ok. rewrite andb_true_iff. intros [H _] e He. rewrite forallb_forall in H. specialize (H e He).
  unfold entry_ok in H. destruct (f_obj e); auto; [apply andb_true_iff in H; exact H | discriminate].
Qed.

(* data of C20_example_interleaving: two tasks on rows 5 and 7 that both add a term in x_3 and one removes x_2 *)
Definition ex_expr : lin := mkLin [(2%nat, 1%Q); (3%nat, 2%Q)] 0%Q.
Definition ex_rows : list (rowid * lin) := [(5%nat, mkLin [(1%nat, 1%Q); (2%nat, (-1)%Q)] 0%Q); (7%nat, mkLin [(1%nat, 2%Q); (4%nat, 1%Q)] 0%Q)].
Definition ex_s0 : pstate :=
  mkP (fun r => if Nat.eqb r 5 then mkLin [(1%nat, 1%Q); (2%nat, (-1)%Q)] 0%Q else if Nat.eqb r 7 then mkLin [(1%nat, 2%Q); (4%nat, 1%Q)] 0%Q else mkLin [] 0%Q)
      (fun v r => (Nat.eqb v 1 && (Nat.eqb r 5 || Nat.eqb r 7)) || (Nat.eqb v 2 && Nat.eqb r 5) || (Nat.eqb v 4 && Nat.eqb r 7)) (fun _ => None).
Definition ex_sched : list nat := [0; 1; 0; 1; 0; 0; 0; 1; 0; 1; 0; 1; 0; 1; 0; 1; 0; 1; 1; 1]%nat.
