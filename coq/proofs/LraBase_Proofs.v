(* Basic facts for the LRA model: boolean comparisons, the order of Q_delta, the "eventually" filter and the reading of
   bounds over Q, sorted association lists, linear expressions. *)
From Coq Require Import QArith Qminmax List Lia Lqa.
From ORatio Require Import smt.Lra smt.LraSem.
Import ListNotations.
Local Open Scope Q_scope.
#[local] Arguments Qred : simpl never.
#[local] Arguments Qplus : simpl never.
#[local] Arguments Qmult : simpl never.
#[local] Arguments Qopp : simpl never.
#[local] Arguments Qminus : simpl never.
#[local] Arguments Qdiv : simpl never.
#[local] Arguments Qinv : simpl never.
#[local] Arguments Qeq_bool : simpl never.
#[local] Arguments Qle_bool : simpl never.

Lemma qltb_true a b : qltb a b = true <-> a < b.
Proof.
  unfold qltb. rewrite negb_true_iff. split; intro H.
  - destruct (Qlt_le_dec a b) as [L | L]; auto. apply Qle_bool_iff in L. congruence.
  - destruct (Qle_bool b a) eqn:E; auto. apply Qle_bool_iff in E. lra.
Qed.
Lemma qltb_false a b : qltb a b = false <-> b <= a.
Proof.
  split; intro H.
  - destruct (Qlt_le_dec a b) as [L | L]; auto. apply qltb_true in L. congruence.
  - destruct (qltb a b) eqn:E; auto. apply qltb_true in E. lra.
Qed.
Lemma qpos_true c : qpos c = true <-> 0 < c. Proof. apply qltb_true. Qed.
Lemma qpos_false c : qpos c = false <-> c <= 0. Proof. apply qltb_false. Qed.
Lemma qneg_true c : qneg c = true <-> c < 0. Proof. apply qltb_true. Qed.
Lemma qneg_false c : qneg c = false <-> 0 <= c. Proof. apply qltb_false. Qed.
Lemma qzero c : qpos c || qneg c = false -> c == 0.
Proof. intro H. apply orb_false_iff in H. destruct H as [P N]. apply qpos_false in P. apply qneg_false in N. lra. Qed.
Lemma qeqb_true a b : Qeq_bool a b = true <-> a == b. Proof. apply Qeq_bool_iff. Qed.
Lemma qeqb_false a b : Qeq_bool a b = false <-> ~ a == b.
Proof. rewrite <- qeqb_true. destruct (Qeq_bool a b); split; congruence. Qed.
Lemma qleb_true a b : Qle_bool a b = true <-> a <= b. Proof. apply Qle_bool_iff. Qed.
Lemma qleb_false a b : Qle_bool a b = false <-> b < a.
Proof. rewrite <- qltb_true. unfold qltb. destruct (Qle_bool a b); split; auto. Qed.

Lemma qd_ltb_true a b : qd_ltb a b = true <-> qd_lt a b.
Proof.
  unfold qd_ltb, qd_lt. rewrite orb_true_iff, andb_true_iff, !qltb_true, qeqb_true. tauto.
Qed.
Lemma qd_leb_true a b : qd_leb a b = true <-> qd_le a b.
Proof.
  unfold qd_leb, qd_le. rewrite orb_true_iff, andb_true_iff, qltb_true, qeqb_true, qleb_true. tauto.
Qed.
Lemma qd_eqb_true a b : qd_eqb a b = true <-> qd_eq a b.
Proof. unfold qd_eqb, qd_eq. rewrite andb_true_iff, !qeqb_true. tauto. Qed.

Lemma qd_lt_not_le a b : qd_lt a b <-> ~ qd_le b a.
Proof.
  unfold qd_lt, qd_le. destruct a as [a1 a2], b as [b1 b2]; simpl. split.
  - intros [H | [H1 H2]] [K | [K1 K2]]; lra.
  - intro H. destruct (Qlt_le_dec a1 b1) as [L | L]; auto. right.
    destruct (Qlt_le_dec b1 a1) as [L2 | L2]. { exfalso. apply H. auto. }
    assert (E : a1 == b1) by lra. split; auto.
    destruct (Qlt_le_dec a2 b2) as [L3 | L3]; auto. exfalso. apply H. right. split; lra.
Qed.
Lemma qd_leb_false a b : qd_leb a b = false <-> qd_lt b a.
Proof. rewrite qd_lt_not_le, <- qd_leb_true. destruct (qd_leb a b); split; congruence. Qed.
Lemma qd_ltb_false a b : qd_ltb a b = false <-> qd_le b a.
Proof.
  rewrite <- qd_leb_true. destruct (qd_leb b a) eqn:E.
  - apply qd_leb_true in E. split; auto. intros _. destruct (qd_ltb a b) eqn:L; auto. apply qd_ltb_true, qd_lt_not_le in L. tauto.
  - apply qd_leb_false, qd_ltb_true in E. split; congruence.
Qed.

Lemma qd_le_refl a : qd_le a a.
Proof. right. split; lra. Qed.
Lemma qd_lt_le a b : qd_lt a b -> qd_le a b.
Proof. unfold qd_lt, qd_le. intros [H | [H1 H2]]; [left | right]; auto. split; lra. Qed.
Lemma qd_le_trans a b c : qd_le a b -> qd_le b c -> qd_le a c.
Proof. unfold qd_le. intros [H | [H1 H2]] [K | [K1 K2]]; try (left; lra). right. split; lra. Qed.
Lemma qd_lt_le_trans a b c : qd_lt a b -> qd_le b c -> qd_lt a c.
Proof. unfold qd_le, qd_lt. intros [H | [H1 H2]] [K | [K1 K2]]; try (left; lra). right. split; lra. Qed.
Lemma qd_le_lt_trans a b c : qd_le a b -> qd_lt b c -> qd_lt a c.
Proof. unfold qd_le, qd_lt. intros [H | [H1 H2]] [K | [K1 K2]]; try (left; lra). right. split; lra. Qed.
Lemma qd_le_total a b : qd_le a b \/ qd_lt b a.
Proof. destruct (qd_leb a b) eqn:E. - left. apply qd_leb_true; auto. - right. apply qd_leb_false; auto. Qed.
Lemma qd_le_antisym a b : qd_le a b -> qd_le b a -> qd_eq a b.
Proof. unfold qd_le, qd_eq. intros [H | [H1 H2]] [K | [K1 K2]]; split; lra. Qed.
Lemma qd_eq_le a b : qd_eq a b -> qd_le a b.
Proof. intros [H1 H2]. right. split; lra. Qed.
Lemma qd_eq_sym a b : qd_eq a b -> qd_eq b a.
Proof. intros [H1 H2]. split; lra. Qed.
Lemma qd_red_eq a : qd_eq (qd_red a) a.
Proof. split; simpl; apply Qred_correct. Qed.

Lemma qd_at_red d a : qd_at d (qd_red a) == qd_at d a.
Proof. unfold qd_at, qd_red. simpl. rewrite !Qred_correct. reflexivity. Qed.
Lemma qd_at_add d a b : qd_at d (qd_add a b) == qd_at d a + qd_at d b.
Proof. unfold qd_at, qd_add. simpl. ring. Qed.
Lemma qd_at_sub d a b : qd_at d (qd_sub a b) == qd_at d a - qd_at d b.
Proof. unfold qd_at, qd_sub. simpl. ring. Qed.
Lemma qd_at_scale d c a : qd_at d (qd_scale c a) == c * qd_at d a.
Proof. unfold qd_at, qd_scale. simpl. ring. Qed.
Lemma qd_at_div d a c : ~ c == 0 -> qd_at d (qd_div a c) == qd_at d a / c.
Proof. intro H. unfold qd_at, qd_div. simpl. field. auto. Qed.
Lemma qd_at_of_q d q : qd_at d (qd_of_q q) == q.
Proof. unfold qd_at, qd_of_q. simpl. ring. Qed.
Lemma qd_at_eq d a b : qd_eq a b -> qd_at d a == qd_at d b.
Proof. intros [H1 H2]. unfold qd_at. rewrite H1, H2. reflexivity. Qed.
Lemma qd_eq_at a b : (forall d, qd_at d a == qd_at d b) -> qd_eq a b.
Proof.
  intro H. pose proof (H 0) as H0. pose proof (H 1) as H1. unfold qd_at in *. split; lra.
Qed.

Lemma ev_all (P : Q -> Prop) : (forall d, 0 < d -> P d) -> ev P.
Proof. intro H. exists 1. split; [lra | auto]. Qed.
Lemma ev_const (P : Prop) : P -> ev (fun _ => P).
Proof. intro H. apply ev_all. auto. Qed.
Lemma ev_mono (P R : Q -> Prop) : (forall d, 0 < d -> P d -> R d) -> ev P -> ev R.
Proof. intros H [d0 [H0 H1]]. exists d0. split; auto. Qed.
Lemma ev_and (P R : Q -> Prop) : ev P -> ev R -> ev (fun d => P d /\ R d).
Proof.
  intros [d0 [H0 H1]] [d1 [K0 K1]]. exists (Qmin d0 d1). split.
  - apply Q.min_glb_lt; auto.
  - intros d Hd Hle. split; [apply H1 | apply K1]; auto.
    + eapply Qle_trans; [exact Hle | apply Q.le_min_l].
    + eapply Qle_trans; [exact Hle | apply Q.le_min_r].
Qed.
Lemma ev_witness (P : Q -> Prop) : ev P -> exists d, 0 < d /\ P d.
Proof. intros [d0 [H0 H1]]. exists d0. split; auto. apply H1; auto. lra. Qed.
Lemma ev_false : ~ ev (fun _ => False).
Proof. intro H. apply ev_witness in H. destruct H as [d [_ []]]. Qed.
Lemma ev_Forall {A} (P : A -> Q -> Prop) (l : list A) :
  (forall a, In a l -> ev (P a)) -> ev (fun d => forall a, In a l -> P a d).
Proof.
  induction l as [| a l IH]; intro H.
  - apply ev_all. intros d _ a [].
  - assert (E1 : ev (P a)) by (apply H; left; auto).
    assert (E2 : ev (fun d => forall a, In a l -> P a d)) by (apply IH; intros; apply H; right; auto).
    eapply ev_mono; [| exact (ev_and _ _ E1 E2)]. intros d _ [K1 K2] b [<- | Hb]; auto.
Qed.

Lemma le_div_mul d b c : 0 < c -> d <= b / c -> d * c <= b.
Proof.
  intros Hc H. assert (E : b / c * c == b) by (field; lra).
  apply (Qmult_le_compat_r _ _ c) in H; [| lra]. rewrite E in H. exact H.
Qed.
Lemma div_pos b c : 0 < b -> 0 < c -> 0 < b / c.
Proof. intros Hb Hc. apply Qlt_shift_div_l; lra. Qed.

Lemma ev_lt_of_qd_lt a b : qd_lt a b -> ev (fun d => qd_at d a < qd_at d b).
Proof.
  destruct a as [a1 a2], b as [b1 b2]. unfold qd_lt, qd_at; simpl. intros [H | [H1 H2]].
  - (* a1 < b1: take d0 with |a2 - b2| d0 < b1 - a1 *)
    destruct (Qlt_le_dec b2 a2) as [L | L].
    + exists ((b1 - a1) / (2 * (a2 - b2))). split.
      * apply div_pos; lra.
      * intros d Hd Hle. assert (K : d * (2 * (a2 - b2)) <= b1 - a1).
        { apply le_div_mul in Hle; lra. } nra.
    + apply ev_all. intros d Hd. nra.
  - apply ev_all. intros d Hd. nra.
Qed.
Lemma ev_le_of_qd_le a b : qd_le a b -> ev (fun d => qd_at d a <= qd_at d b).
Proof.
  intro H. destruct (qd_le_total b a) as [L | L].
  - apply ev_all. intros d _. rewrite (qd_at_eq d a b (qd_le_antisym _ _ H L)). lra.
  - eapply ev_mono; [| apply ev_lt_of_qd_lt; exact L]. intros; simpl in *; lra.
Qed.
Lemma qd_le_of_ev a b : ev (fun d => qd_at d a <= qd_at d b) -> qd_le a b.
Proof.
  intro H. destruct (qd_le_total a b) as [L | L]; auto. exfalso.
  apply ev_false. eapply ev_mono; [| exact (ev_and _ _ H (ev_lt_of_qd_lt _ _ L))]. intros d _ [K1 K2]. simpl in *. lra.
Qed.

(* the reading of a Q_delta bound over Q; an upper bound of y is a lower bound of - y *)
Lemma sat_lower_strict y c k : 0 < k -> (sat_lower y (c, k) <-> c < y).
Proof.
  intro Hk. unfold sat_lower, qd_at; simpl. split.
  - intro H. apply ev_witness in H. destruct H as [d [Hd H]]. nra.
  - intro H. exists ((y - c) / k). split. { apply div_pos; lra. }
    intros d Hd Hle. apply le_div_mul in Hle; nra.
Qed.
Lemma sat_lower_weak y c k : k <= 0 -> (sat_lower y (c, k) <-> c <= y).
Proof.
  intro Hk. split.
  - (* if y < c then (y, 0) < (c, k), so y is eventually below the bound *)
    intro H. destruct (Qlt_le_dec y c) as [L | L]; auto. exfalso.
    assert (L' : qd_lt (y, 0) (c, k)) by (left; exact L).
    apply ev_false. eapply ev_mono; [| exact (ev_and _ _ H (ev_lt_of_qd_lt _ _ L'))]. intros d _ [K1 K2]. unfold qd_at in *. simpl in *. lra.
  - intro H. apply ev_all. intros d Hd. unfold qd_at. simpl. nra.
Qed.
Lemma sat_upper_opp y b : sat_upper y b <-> sat_lower (- y) (- fst b, - snd b).
Proof. unfold sat_upper, sat_lower, qd_at; simpl. split; apply ev_mono; intros d _ H; lra. Qed.
Lemma sat_upper_strict y c k : k < 0 -> (sat_upper y (c, k) <-> y < c).
Proof. intro Hk. rewrite sat_upper_opp. simpl. rewrite sat_lower_strict by lra. split; lra. Qed.
Lemma sat_upper_weak y c k : 0 <= k -> (sat_upper y (c, k) <-> y <= c).
Proof. intro Hk. rewrite sat_upper_opp. simpl. rewrite sat_lower_weak by lra. split; lra. Qed.

Lemma sat_lower_eq y y' b b' : y == y' -> qd_eq b b' -> sat_lower y b -> sat_lower y' b'.
Proof.
  intros Hy Hb. unfold sat_lower. apply ev_mono. intros d _ H. rewrite <- Hy, <- (qd_at_eq d _ _ Hb). auto.
Qed.
Lemma sat_upper_eq y y' b b' : y == y' -> qd_eq b b' -> sat_upper y b -> sat_upper y' b'.
Proof.
  intros Hy Hb. unfold sat_upper. apply ev_mono. intros d _ H. rewrite <- Hy, <- (qd_at_eq d _ _ Hb). auto.
Qed.
Lemma sat_lower_mono y b b' : qd_le b' b -> sat_lower y b -> sat_lower y b'.
Proof.
  intros Hb H. eapply ev_mono; [| exact (ev_and _ _ H (ev_le_of_qd_le _ _ Hb))]. intros d _ [K1 K2]. simpl in *. lra.
Qed.
Lemma sat_upper_mono y b b' : qd_le b b' -> sat_upper y b -> sat_upper y b'.
Proof.
  intros Hb H. eapply ev_mono; [| exact (ev_and _ _ H (ev_le_of_qd_le _ _ Hb))]. intros d _ [K1 K2]. simpl in *. lra.
Qed.
(* a lower and an upper bound of the same number do not cross *)
Lemma sat_lower_upper y lo hi : sat_lower y lo -> sat_upper y hi -> qd_le lo hi.
Proof.
  intros L U. apply qd_le_of_ev. eapply ev_mono; [| exact (ev_and _ _ L U)]. intros d _ [K1 K2]. simpl in *. lra.
Qed.
Lemma sat_cross y lo hi : qd_lt hi lo -> sat_lower y lo -> sat_upper y hi -> False.
Proof. intros H L U. apply qd_lt_not_le in H. apply H. eapply sat_lower_upper; eauto. Qed.

(* negation of a bound, for the constants that occur in assertions (infinitesimal part 0 or -1 / 0 or 1) *)
Lemma not_upper_lower y c k : (k == 0 \/ k == -1) -> (~ sat_upper y (c, k) <-> sat_lower y (qd_red (qd_add (c, k) qd_eps))).
Proof.
  intro Hk. assert (E : qd_eq (qd_red (qd_add (c, k) qd_eps)) (c, k + 1)).
  { split; unfold qd_red, qd_add, qd_eps; cbn [fst snd]; rewrite Qred_correct; ring. }
  assert (R : sat_lower y (qd_red (qd_add (c, k) qd_eps)) <-> sat_lower y (c, k + 1)).
  { split; apply sat_lower_eq; try reflexivity; [| apply qd_eq_sym]; exact E. }
  rewrite R. destruct Hk as [Hk | Hk].
  - rewrite sat_upper_weak, sat_lower_strict by lra. split; lra.
  - rewrite sat_upper_strict, sat_lower_weak by lra. split; lra.
Qed.
Lemma not_lower_upper y c k : (k == 0 \/ k == 1) -> (~ sat_lower y (c, k) <-> sat_upper y (qd_red (qd_sub (c, k) qd_eps))).
Proof.
  intro Hk. assert (E : qd_eq (qd_red (qd_sub (c, k) qd_eps)) (c, k - 1)).
  { split; unfold qd_red, qd_sub, qd_eps; cbn [fst snd]; rewrite Qred_correct; ring. }
  assert (R : sat_upper y (qd_red (qd_sub (c, k) qd_eps)) <-> sat_upper y (c, k - 1)).
  { split; apply sat_upper_eq; try reflexivity; [| apply qd_eq_sym]; exact E. }
  rewrite R. destruct Hk as [Hk | Hk].
  - rewrite sat_lower_weak, sat_upper_strict by lra. split; lra.
  - rewrite sat_lower_strict, sat_upper_weak by lra. split; lra.
Qed.

Fixpoint ksorted (ks : list nat) : Prop :=
  match ks with
  | [] => True
  | k :: t => (forall w, In w t -> (k < w)%nat) /\ ksorted t
  end.
Definition keys (ts : list (var * Q)) : list nat := map fst ts.

Lemma ksorted_nodup ks : ksorted ks -> NoDup ks.
Proof.
  induction ks as [| k t IH]; simpl; intro H; constructor.
  - intro K. destruct H as [H _]. specialize (H k K). lia.
  - apply IH. tauto.
Qed.

(* Lra.v keeps a std::map<var, .> as a list of pairs sorted by key, once with rational values (the terms of a lin: coef,
   remove_term, insert_term) and once with rows as values (the tableau: trow, tremove, tinsert). Here are those functions
   with the type of the values as a parameter: the model's are instances of them by conversion (`coef = alook` holds by reflexivity),
   so the lemmas below apply to both as they stand; only trow takes its arguments in the other order (LraTab_Proofs.trow_alook). *)
Section Assoc.
  Context {A : Type}.
  Implicit Types (l : list (nat * A)) (k w : nat) (a : A).

  Fixpoint alook k l : option A :=
    match l with
    | [] => None
    | (w, d) :: t => if Nat.eqb k w then Some d else alook k t
    end.
  Fixpoint arem k l : list (nat * A) :=
    match l with
    | [] => []
    | (w, d) :: t => if Nat.eqb k w then t else (w, d) :: arem k t
    end.
  Fixpoint ains k a l : list (nat * A) :=
    match l with
    | [] => [(k, a)]
    | (w, d) :: t => if Nat.ltb k w then (k, a) :: l
                     else if Nat.eqb k w then l
                     else (w, d) :: ains k a t
    end.

  Lemma alook_In k l a : alook k l = Some a -> In (k, a) l.
  Proof.
    induction l as [| [w d] t IH]; simpl; [discriminate |]. destruct (Nat.eqb_spec k w) as [-> | N]; auto.
    intro H; injection H as <-. auto.
  Qed.
  Lemma alook_keys k l a : alook k l = Some a -> In k (map fst l).
  Proof. intro H. apply alook_In in H. apply (in_map fst) in H. exact H. Qed.
  Lemma alook_none k l : alook k l = None <-> ~ In k (map fst l).
  Proof.
    induction l as [| [w d] t IH]; simpl; [tauto |]. destruct (Nat.eqb_spec k w) as [-> | N].
    - split; [discriminate | intro H; exfalso; auto].
    - rewrite IH. split; intro H; [intros [K | K]; [congruence | tauto] | tauto].
  Qed.
  Lemma In_alook k l a : ksorted (map fst l) -> In (k, a) l -> alook k l = Some a.
  Proof.
    induction l as [| [w d] t IH]; simpl; [tauto |]. intros [H1 H2] [K | K].
    - injection K as -> ->. rewrite Nat.eqb_refl. auto.
    - destruct (Nat.eqb_spec k w) as [-> | N]; auto. apply (in_map fst) in K. specialize (H1 w K). lia.
  Qed.

  Lemma keys_ains k a l w : In w (map fst (ains k a l)) -> w = k \/ In w (map fst l).
  Proof.
    induction l as [| [u d] t IH]; simpl.
    - intros [H | []]; auto.
    - destruct (Nat.ltb k u); simpl. { intros [H | [H | H]]; auto. }
      destruct (Nat.eqb k u); simpl; auto. intros [H | H]; auto. destruct (IH H); auto.
  Qed.
  Lemma ksorted_ains k a l : ksorted (map fst l) -> ksorted (map fst (ains k a l)).
  Proof.
    induction l as [| [u d] t IH]; simpl; intro H.
    - split; auto. intros w [].
    - destruct H as [H1 H2]. destruct (Nat.ltb_spec k u) as [L | L]; simpl.
      + split; [| split; auto]. intros w [<- | K]; auto. specialize (H1 w K). lia.
      + destruct (Nat.eqb_spec k u) as [-> | N]; simpl; auto.
        split; auto. intros w K. destruct (keys_ains k a t w K) as [-> | K2]; auto. lia.
  Qed.
  Lemma In_ains k a l w b : In (w, b) (ains k a l) -> (w, b) = (k, a) \/ In (w, b) l.
  Proof.
    induction l as [| [u d] t IH]; simpl.
    - intros [H | []]; auto.
    - destruct (Nat.ltb k u); simpl. { intros [H | [H | H]]; auto. }
      destruct (Nat.eqb k u); simpl; auto. intros [H | H]; auto. destruct (IH H); auto.
  Qed.
  Lemma ains_old k a l w b : In (w, b) l -> In (w, b) (ains k a l).
  Proof.
    induction l as [| [u d] t IH]; simpl; [tauto |].
    intros [H | H]; destruct (Nat.ltb k u); simpl; auto; destruct (Nat.eqb k u); simpl; auto.
  Qed.
  (* vars.emplace: the key is inserted only when it is absent *)
  Lemma alook_ains k a l w : alook k l = None -> alook w (ains k a l) = if Nat.eqb w k then Some a else alook w l.
  Proof.
    induction l as [| [u d] t IH]; simpl; intro H; [reflexivity |].
    destruct (Nat.eqb_spec k u) as [-> | N]; [discriminate |].
    destruct (Nat.ltb k u); simpl; [reflexivity |]. rewrite IH by auto.
    destruct (Nat.eqb_spec w u) as [-> | N2]; auto. destruct (Nat.eqb_spec u k); congruence.
  Qed.
  Lemma ains_new k a l : alook k l = None -> In (k, a) (ains k a l).
  Proof. intro H. apply alook_In. rewrite alook_ains, Nat.eqb_refl; auto. Qed.

  Lemma keys_arem k l w : In w (map fst (arem k l)) -> In w (map fst l).
  Proof. induction l as [| [u d] t IH]; simpl; auto. destruct (Nat.eqb k u); simpl; auto. intros [H | H]; auto. Qed.
  Lemma ksorted_arem k l : ksorted (map fst l) -> ksorted (map fst (arem k l)).
  Proof.
    induction l as [| [u d] t IH]; simpl; auto. intros [H1 H2]. destruct (Nat.eqb k u); simpl; auto.
    split; auto. intros w K. apply H1. apply keys_arem in K. auto.
  Qed.
  Lemma In_arem k l w b : In (w, b) (arem k l) -> In (w, b) l.
  Proof. induction l as [| [u d] t IH]; simpl; auto. destruct (Nat.eqb k u); simpl; auto. intros [H | H]; auto. Qed.
  Lemma arem_notin k l : ksorted (map fst l) -> ~ In k (map fst (arem k l)).
  Proof.
    induction l as [| [u d] t IH]; simpl; auto. intros [H1 H2]. destruct (Nat.eqb_spec k u) as [-> | N]; simpl.
    - intro K. specialize (H1 u K). lia.
    - intros [K | K]; [congruence | apply IH; auto].
  Qed.
  Lemma arem_none k l : alook k l = None -> arem k l = l.
  Proof. induction l as [| [w d] t IH]; simpl; auto. destruct (Nat.eqb k w); [discriminate |]. intro H. rewrite IH; auto. Qed.
  Lemma alook_arem_other k l w : w <> k -> alook w (arem k l) = alook w l.
  Proof.
    intro N. induction l as [| [u d] t IH]; simpl; auto. destruct (Nat.eqb_spec k u) as [-> | N2].
    - destruct (Nat.eqb_spec w u); congruence.
    - simpl. rewrite IH. reflexivity.
  Qed.
  Lemma alook_arem k l w : ksorted (map fst l) -> alook w (arem k l) = if Nat.eqb w k then None else alook w l.
  Proof.
    intro S. destruct (Nat.eqb_spec w k) as [-> | N]; [| apply alook_arem_other; exact N].
    apply alook_none. apply arem_notin. exact S.
  Qed.
End Assoc.

Lemma alook_map {A B} (f : nat * A -> B) (l : list (nat * A)) k :
  alook k (map (fun r => (fst r, f r)) l) = match alook k l with Some a => Some (f (k, a)) | None => None end.
Proof. induction l as [| [u d] t IH]; simpl; auto. destruct (Nat.eqb_spec k u) as [-> | N]; auto. Qed.
Lemma keys_map {A B} (f : nat * A -> B) (l : list (nat * A)) : map fst (map (fun r => (fst r, f r)) l) = map fst l.
Proof. rewrite map_map. reflexivity. Qed.

Lemma coef_In v ts c : coef v ts = Some c -> In (v, c) ts.
Proof. apply alook_In. Qed.
Lemma coef_none_remove v ts : coef v ts = None -> remove_term v ts = ts.
Proof. apply arem_none. Qed.

Lemma sumq_ext rho rho' ts : (forall v, In v (map fst ts) -> rho v == rho' v) -> sumq rho ts == sumq rho' ts.
Proof.
  induction ts as [| [v c] t IH]; simpl; intro H; [reflexivity |].
  rewrite (H v) by auto. rewrite IH; [reflexivity | intros; apply H; auto].
Qed.
Lemma sumq_notin rho rho' v ts : ~ In v (keys ts) -> (forall w, w <> v -> rho w == rho' w) -> sumq rho ts == sumq rho' ts.
Proof.
  intros H K. apply sumq_ext. intros w Hw. apply K. intro E. subst. auto.
Qed.
Lemma sumq_app rho a b : sumq rho (a ++ b) == sumq rho a + sumq rho b.
Proof. induction a as [| [v c] t IH]; simpl; [ring | rewrite IH; ring]. Qed.

Lemma coef_remove rho v ts c : coef v ts = Some c -> sumq rho ts == c * rho v + sumq rho (remove_term v ts).
Proof.
  induction ts as [| [w d] t IH]; simpl; [discriminate |].
  destruct (Nat.eqb_spec v w) as [-> | N].
  - intro H; injection H as <-. reflexivity.
  - intro H. simpl. rewrite (IH H). ring.
Qed.

Lemma sumq_add_term rho v c ts : sumq rho (add_term v c ts) == c * rho v + sumq rho ts.
Proof.
  induction ts as [| [w d] t IH]; simpl.
  - rewrite Qred_correct. ring.
  - destruct (Nat.ltb v w); simpl. { rewrite Qred_correct. ring. }
    destruct (Nat.eqb_spec v w) as [-> | N].
    + destruct (Qeq_bool (d + c) 0) eqn:Z.
      * apply Qeq_bool_iff in Z. assert (d == - c) by lra. rewrite H. ring.
      * simpl. rewrite Qred_correct. ring.
    + simpl. rewrite IH. ring.
Qed.
Lemma sumq_insert_term rho v c ts : coef v ts = None -> sumq rho (insert_term v c ts) == c * rho v + sumq rho ts.
Proof.
  induction ts as [| [w d] t IH]; simpl; intro H; [ring |].
  destruct (Nat.eqb v w) eqn:E; [discriminate |].
  destruct (Nat.ltb v w); simpl; [ring |]. rewrite IH; auto. ring.
Qed.
Lemma sumq_map rho (f : Q -> Q) k ts : (forall c, f c == k * c) -> sumq rho (map (fun t => (fst t, f (snd t))) ts) == k * sumq rho ts.
Proof. intro H. induction ts as [| [v c] t IH]; simpl; [ring | rewrite IH, H; ring]. Qed.
Lemma sumq_fold_add rho (f : Q -> Q) k b a : (forall c, f c == k * c) ->
  sumq rho (fold_left (fun acc t => add_term (fst t) (f (snd t)) acc) b a) == sumq rho a + k * sumq rho b.
Proof.
  intro H. revert a. induction b as [| [v c] t IH]; intro a; simpl; [ring |].
  rewrite IH, sumq_add_term, H. ring.
Qed.

Lemma evalq_lin_add rho a b : evalq rho (lin_add a b) == evalq rho a + evalq rho b.
Proof.
  unfold evalq, lin_add; simpl. rewrite Qred_correct, (sumq_fold_add rho (fun c => c) 1) by (intro; ring). ring.
Qed.
Lemma evalq_lin_sub rho a b : evalq rho (lin_sub a b) == evalq rho a - evalq rho b.
Proof.
  unfold evalq, lin_sub; simpl. rewrite Qred_correct, (sumq_fold_add rho Qopp (-1)) by (intro; ring). ring.
Qed.
Lemma evalq_lin_add_scaled rho r e cc : evalq rho (lin_add_scaled r e cc) == evalq rho r + cc * evalq rho e.
Proof.
  unfold evalq, lin_add_scaled; simpl. rewrite Qred_correct, (sumq_fold_add rho (fun c => c * cc) cc) by (intro; ring). ring.
Qed.
Lemma evalq_lin_scale rho c a : evalq rho (lin_scale c a) == c * evalq rho a.
Proof.
  unfold evalq, lin_scale; simpl. rewrite Qred_correct, (sumq_map rho (fun d => Qred (d * c)) c) by (intro; rewrite Qred_correct; ring). ring.
Qed.
Lemma evalq_lin_div rho a c : ~ c == 0 -> evalq rho (lin_div a c) == evalq rho a / c.
Proof.
  intro H. unfold evalq, lin_div; simpl.
  rewrite Qred_correct, (sumq_map rho (fun d => Qred (d / c)) (/ c)) by (intro; rewrite Qred_correct; field; auto). field; auto.
Qed.
Lemma evalq_lin_remove rho v a c : coef v (lterms a) = Some c -> evalq rho a == c * rho v + evalq rho (lin_remove v a).
Proof. intro H. unfold evalq, lin_remove; simpl. rewrite (coef_remove rho v _ c H). ring. Qed.
Lemma evalq_lin_var rho v : evalq rho (lin_var v) == rho v.
Proof. unfold evalq, lin_var; simpl. ring. Qed.
Lemma evalq_ext rho rho' l : (forall v, In v (map fst (lterms l)) -> rho v == rho' v) -> evalq rho l == evalq rho' l.
Proof. intro H. unfold evalq. rewrite (sumq_ext rho rho'); auto. reflexivity. Qed.

(* equality test on canonical expressions is sound *)
Lemma terms_eqb_sumq rho a b : terms_eqb a b = true -> sumq rho a == sumq rho b.
Proof.
  revert b. induction a as [| [v c] t IH]; intros [| [w d] u]; simpl; try discriminate; [reflexivity |].
  rewrite !andb_true_iff. intros [[E1 E2] E3]. apply Nat.eqb_eq in E1. apply Qeq_bool_iff in E2. subst.
  rewrite E2, (IH u E3). reflexivity.
Qed.
Lemma lin_eqb_evalq rho a b : lin_eqb a b = true -> evalq rho a == evalq rho b.
Proof.
  unfold lin_eqb, evalq. rewrite andb_true_iff. intros [E1 E2]. apply Qeq_bool_iff in E2.
  rewrite E2, (terms_eqb_sumq rho _ _ E1). reflexivity.
Qed.
Lemma terms_eqb_keys a b : terms_eqb a b = true -> map fst a = map fst b.
Proof.
  revert b. induction a as [| [v c] t IH]; intros [| [w d] u]; simpl; try discriminate; auto.
  rewrite !andb_true_iff. intros [[E1 E2] E3]. apply Nat.eqb_eq in E1. subst. f_equal. auto.
Qed.

(* add_term: lin::operator+= on one term *)
Lemma keys_add_term v c ts w : In w (keys (add_term v c ts)) -> w = v \/ In w (keys ts).
Proof.
  unfold keys. induction ts as [| [u d] t IH]; simpl.
  - intros [H | []]; auto.
  - destruct (Nat.ltb v u); simpl. { intros [H | [H | H]]; auto. }
    destruct (Nat.eqb v u) eqn:E.
    + destruct (Qeq_bool (d + c) 0); simpl; intuition.
    + simpl. intros [H | H]; auto. destruct (IH H); auto.
Qed.
Lemma ksorted_add_term v c ts : ksorted (keys ts) -> ksorted (keys (add_term v c ts)).
Proof.
  unfold keys. induction ts as [| [u d] t IH]; simpl; intro H.
  - split; auto. intros w [].
  - destruct H as [H1 H2]. destruct (Nat.ltb_spec v u) as [L | L]; simpl.
    + split; [| split; auto]. intros w [<- | K]; auto. specialize (H1 w K). lia.
    + destruct (Nat.eqb_spec v u) as [-> | N].
      * destruct (Qeq_bool (d + c) 0); simpl; auto.
      * simpl. split; auto. intros w K. destruct (keys_add_term v c t w K) as [-> | K2]; auto. lia.
Qed.
Lemma coef_add_other v w c ts : v <> w -> coef v (add_term w c ts) = coef v ts.
Proof.
  intro N. apply Nat.eqb_neq in N. induction ts as [| [u d] t IH]; simpl; [rewrite N; reflexivity |].
  destruct (Nat.ltb w u); simpl; [rewrite N; reflexivity |].
  destruct (Nat.eqb_spec w u) as [-> | N2]; [| simpl; rewrite IH; reflexivity].
  destruct (Qeq_bool (d + c) 0); simpl; rewrite N; reflexivity.
Qed.
(* on an absent key add_term inserts exactly what emplace inserts *)
Lemma add_term_absent v c ts : coef v ts = None -> add_term v c ts = insert_term v (Qred c) ts.
Proof.
  induction ts as [| [w d] t IH]; simpl; auto.
  destruct (Nat.eqb v w); [discriminate |]. destruct (Nat.ltb v w); auto. intro H. rewrite IH; auto.
Qed.

Lemma coef_add_same_sorted w c ts d : ksorted (keys ts) -> coef w ts = Some d ->
  coef w (add_term w c ts) = if Qeq_bool (d + c) 0 then None else Some (Qred (d + c)).
Proof.
  induction ts as [| [u e] t IH]; simpl; [discriminate |]. intros [S1 S2]. destruct (Nat.eqb w u) eqn:E.
  - apply Nat.eqb_eq in E. subst. intro H; injection H as ->. rewrite Nat.ltb_irrefl. rewrite ?Nat.eqb_refl.
    destruct (Qeq_bool (d + c) 0); simpl; [| rewrite ?Nat.eqb_refl; reflexivity].
    apply alook_none. intro K. specialize (S1 u K). lia.
  - intro H. assert (Lt : Nat.ltb w u = false).
    { apply Nat.ltb_ge. apply alook_keys in H. specialize (S1 w H). lia. }
    rewrite Lt. simpl. rewrite ?E. apply IH; auto.
Qed.

Lemma keys_fold_add (f : Q -> Q) b a w :
  In w (keys (fold_left (fun acc t => add_term (fst t) (f (snd t)) acc) b a)) -> In w (keys a) \/ In w (keys b).
Proof.
  revert a. induction b as [| [v c] t IH]; intro a; simpl; auto. intro H. destruct (IH _ H) as [K | K]; auto.
  destruct (keys_add_term _ _ _ _ K); auto.
Qed.
Lemma ksorted_fold_add (f : Q -> Q) b a :
  ksorted (keys a) -> ksorted (keys (fold_left (fun acc t => add_term (fst t) (f (snd t)) acc) b a)).
Proof. revert a. induction b as [| [v c] t IH]; intro a; simpl; auto. intro H. apply IH. apply ksorted_add_term; auto. Qed.
Lemma coef_fold_add_other (f : Q -> Q) w b a :
  ~ In w (keys b) -> coef w (fold_left (fun acc t => add_term (fst t) (f (snd t)) acc) b a) = coef w a.
Proof.
  revert a. induction b as [| [v c] t IH]; intros a H; simpl; auto. rewrite IH.
  - apply coef_add_other. intro E. apply H. left. simpl. auto.
  - intro K. apply H. right. exact K.
Qed.
