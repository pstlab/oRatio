(* Theorems about the decimal printers of base/DecStr.v (digits only, non-empty, no leading zero, injective) and the
   string lemmas used to take a printed text apart: the longest prefix made of a character class is unique
   (span_unique), texts joined by single spaces determine their space-free parts (join_inj). *)
From Coq Require Import ZArith NArith String Ascii Bool List Decimal DecimalString DecimalNat DecimalN DecimalPos DecimalZ.
From ORatio Require Import base.DecStr.
Import ListNotations.
Local Open Scope string_scope.

Lemma app_nil_r_s (s : string) : s ++ "" = s.
Proof. induction s as [|a s IH]; cbn; [reflexivity|now rewrite IH]. Qed.

Lemma app_assoc_s (a b c : string) : (a ++ b) ++ c = a ++ (b ++ c).
Proof. induction a as [|x a IH]; cbn; [reflexivity|now rewrite IH]. Qed.

Lemma app_inv_head_s (a s1 s2 : string) : a ++ s1 = a ++ s2 -> s1 = s2.
Proof. induction a as [|x a IH]; cbn; [auto|]. intros H. inversion H. auto. Qed.

Lemma allc_app P a b : allc P (a ++ b) = allc P a && allc P b.
Proof. induction a as [|x a IH]; cbn; [reflexivity|]. now rewrite IH, andb_assoc. Qed.

Lemma allc_impl (P Q : ascii -> bool) s : (forall a, P a = true -> Q a = true) -> allc P s = true -> allc Q s = true.
Proof.
  intros HPQ. induction s as [|x s IH]; cbn; [auto|]. intros H. apply andb_prop in H as [H1 H2].
  now rewrite (HPQ _ H1), (IH H2).
Qed.

(* the longest prefix inside a character class is unique *)
Lemma span_unique P a b s1 s2 :
  allc P a = true -> allc P b = true -> nhead P s1 -> nhead P s2 -> a ++ s1 = b ++ s2 -> a = b /\ s1 = s2.
Proof.
  revert b. induction a as [|x a IH]; intros b Ha Hb H1 H2 E.
  - destruct b as [|y b]; cbn in *; [auto|]. subst s1. cbn in H1. apply andb_prop in Hb as [Hy _]. congruence.
  - destruct b as [|y b]; cbn in *.
    + subst s2. cbn in H2. apply andb_prop in Ha as [Hx _]. congruence.
    + inversion E; subst. apply andb_prop in Ha as [_ Ha]. apply andb_prop in Hb as [_ Hb].
      destruct (IH b Ha Hb H1 H2 H3) as [-> ->]. auto.
Qed.

Lemma nhead_nil P : nhead P "".
Proof. exact I. Qed.

Lemma join_cons t r : r <> [] -> join (t :: r) = t ++ " " ++ join r.
Proof. destruct r; [congruence|reflexivity]. Qed.

Lemma join_inj ts : forall ts', Forall (fun t => allc not_space t = true) ts -> Forall (fun t => allc not_space t = true) ts' ->
  ts <> [] -> ts' <> [] -> join ts = join ts' -> ts = ts'.
Proof.
  induction ts as [|t r IH]; intros ts' F F' N N' E; [exfalso; now apply N|].
  destruct ts' as [|t' r']; [exfalso; now apply N'|]. inversion F as [|? ? Ft Fr]; inversion F' as [|? ? Ft' Fr']; subst.
  destruct r as [|u r], r' as [|u' r'].
  - cbn in E. now subst.
  - rewrite (join_cons t' (u' :: r')) in E by discriminate. cbn [join] in E. rewrite <- (app_nil_r_s t) in E.
    destruct (span_unique not_space t t' "" (" " ++ join (u' :: r')) Ft Ft' I eq_refl E) as [_ H]. discriminate H.
  - rewrite (join_cons t (u :: r)) in E by discriminate. cbn [join] in E. rewrite <- (app_nil_r_s t') in E.
    destruct (span_unique not_space t t' (" " ++ join (u :: r)) "" Ft Ft' eq_refl I E) as [_ H]. discriminate H.
  - rewrite (join_cons t (u :: r)), (join_cons t' (u' :: r')) in E by discriminate.
    destruct (span_unique not_space t t' (" " ++ join (u :: r)) (" " ++ join (u' :: r')) Ft Ft' eq_refl eq_refl E) as [-> H].
    cbn in H. inversion H as [H']. f_equal. apply IH; try assumption; discriminate.
Qed.

Lemma uint_digits d : allc is_digit (NilEmpty.string_of_uint d) = true.
Proof. induction d; cbn; auto. Qed.

Lemma uint_inj d d' : NilEmpty.string_of_uint d = NilEmpty.string_of_uint d' -> d = d'.
Proof. intros H. pose proof (NilEmpty.usu d) as U. rewrite H, NilEmpty.usu in U. congruence. Qed.

Lemma uint_nonempty d : d <> Nil -> NilEmpty.string_of_uint d <> "".
Proof. destruct d; cbn; congruence. Qed.

Theorem str_nat_inj n n' : str_nat n = str_nat n' -> n = n'.
Proof. intros H. apply DecimalNat.Unsigned.to_uint_inj. now apply uint_inj. Qed.

Theorem str_N_inj n n' : str_N n = str_N n' -> n = n'.
Proof. intros H. apply DecimalN.Unsigned.to_uint_inj. now apply uint_inj. Qed.

Theorem str_pos_inj p p' : str_pos p = str_pos p' -> p = p'.
Proof. intros H. apply DecimalPos.Unsigned.to_uint_inj. now apply uint_inj. Qed.

Theorem str_Z_inj z z' : str_Z z = str_Z z' -> z = z'.
Proof.
  intros H. apply DecimalZ.to_int_inj. unfold str_Z in H.
  pose proof (NilEmpty.isi (Z.to_int z)) as U. rewrite H, NilEmpty.isi in U. congruence.
Qed.

Theorem str_nat_digits n : allc is_digit (str_nat n) = true.
Proof. apply uint_digits. Qed.

Theorem str_N_digits n : allc is_digit (str_N n) = true.
Proof. apply uint_digits. Qed.

Theorem str_pos_digits p : allc is_digit (str_pos p) = true.
Proof. apply uint_digits. Qed.

Lemma nat_to_uint_nonnil n : Nat.to_uint n <> Nil.
Proof.
  intros H. pose proof (DecimalNat.Unsigned.of_to n) as E. rewrite H in E. cbn in E. subst n. discriminate H.
Qed.

Lemma N_to_uint_nonnil n : N.to_uint n <> Nil.
Proof. destruct n; cbn; [discriminate|apply DecimalPos.Unsigned.to_uint_nonnil]. Qed.

Theorem str_nat_nonempty n : str_nat n <> "".
Proof. apply uint_nonempty, nat_to_uint_nonnil. Qed.

Theorem str_N_nonempty n : str_N n <> "".
Proof. apply uint_nonempty, N_to_uint_nonnil. Qed.

Theorem str_pos_nonempty p : str_pos p <> "".
Proof. apply uint_nonempty, DecimalPos.Unsigned.to_uint_nonnil. Qed.

(* the shape of a printed integer: digits, preceded by '-' exactly when negative *)
Theorem str_Z_shape z :
  match z with
  | Z0 => str_Z z = "0"
  | Zpos p => str_Z z = str_pos p
  | Zneg p => str_Z z = String "-" (str_pos p)
  end.
Proof. destruct z; reflexivity. Qed.

Theorem str_Z_num z : allc is_num (str_Z z) = true.
Proof.
  assert (D : forall s, allc is_digit s = true -> allc is_num s = true).
  { intros s. apply allc_impl. intros a Ha. unfold is_num. now rewrite Ha. }
  destruct z as [|p|p]; cbn -[is_num]; [reflexivity|apply D, uint_digits|].
  change (is_num "-" && allc is_num (str_pos p) = true). cbn. apply D, uint_digits.
Qed.

Theorem str_Z_nonempty z : str_Z z <> "".
Proof. destruct z as [|p|p]; [discriminate|apply str_pos_nonempty|discriminate]. Qed.

(* no leading zero: only zero itself starts with '0' *)
Lemma nzhead_head d : match nzhead d with D0 _ => False | _ => True end.
Proof. induction d; cbn; auto. Qed.

Lemma pos_to_uint_head p : match Pos.to_uint p with D0 _ | Nil => False | _ => True end.
Proof.
  pose proof (DecimalPos.Unsigned.to_of (Pos.to_uint p)) as H. rewrite DecimalPos.Unsigned.of_to in H. cbn in H.
  pose proof (DecimalPos.Unsigned.to_uint_nonzero p) as NZ. pose proof (DecimalPos.Unsigned.to_uint_nonnil p) as NN.
  pose proof (nzhead_head (Pos.to_uint p)) as NH. unfold unorm in H.
  destruct (nzhead (Pos.to_uint p)) eqn:E; rewrite H in *; try contradiction; auto.
Qed.

Theorem str_pos_head p : exists a r, str_pos p = String a r /\ is_digit a = true /\ a <> "0"%char.
Proof.
  unfold str_pos. pose proof (pos_to_uint_head p) as H.
  destruct (Pos.to_uint p); try contradiction; cbn; eexists _, _; (split; [reflexivity|split; [reflexivity|discriminate]]).
Qed.

Theorem str_N_no_leading_zero n a r : str_N n = String a r -> a = "0"%char -> n = 0%N.
Proof.
  destruct n as [|p]; [auto|]. intros H ->. exfalso. destruct (str_pos_head p) as (a & r' & E & _ & Ha).
  change (str_N (Npos p)) with (str_pos p) in H. rewrite E in H. inversion H. congruence.
Qed.

Theorem str_Z_no_leading_zero z a r : str_Z z = String a r -> a = "0"%char -> z = 0%Z.
Proof.
  destruct z as [|p|p]; [auto| |intros H ->; discriminate H]. intros H ->. exfalso. destruct (str_pos_head p) as (a & r' & E & _ & Ha).
  change (str_Z (Zpos p)) with (str_pos p) in H. rewrite E in H. inversion H. congruence.
Qed.

Lemma str_Z_not_minus z : str_Z z <> "-".
Proof.
  destruct z as [|p|p]; [discriminate| |].
  - destruct (str_pos_head p) as (a & t & E & D & _). change (str_Z (Z.pos p)) with (str_pos p). rewrite E.
    intros H. inversion H. subst a. discriminate D.
  - change (str_Z (Z.neg p)) with (String "-" (str_pos p)). intros H. inversion H as [H']. now apply (str_pos_nonempty p).
Qed.

Example str_examples : str_Z 0 = "0" /\ str_Z (-1203) = "-1203" /\ str_N 47 = "47" /\ str_nat 10 = "10".
Proof. repeat split. Qed.
