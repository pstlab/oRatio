(* Proofs about lang/Refcnt.v (property C18, the reference counting part): along EVERY sequence of handle operations a
   client can perform, the counter of a node equals the number of live handles pointing to it, a node is deleted exactly
   when its last handle goes away, never twice, and no live handle points to a deleted node. *)
From Coq Require Import List Arith Bool Lia.
From ORatio Require Import lang.Refcnt.
Import ListNotations.

(* born n: how many times node n was given to a handle by ONew. A node that was handed out is either referenced or deleted,
   exactly one of the two and the latter once: freed + min 1 refs = min 1 born *)
Record inv (s : state) (born : node -> nat) : Prop := {
  inv_nodup : NoDup (map fst (own s));
  inv_node : forall n, cnt s n = refs s n /\ freed s n + Nat.min 1 (refs s n) = Nat.min 1 (born n)
}.

Definition born_after (born : node -> nat) (o : op) : node -> nat :=
  match o with ONew _ n => upd born n (S (born n)) | _ => born end.

Lemma upd_same f n v : upd f n v n = v.
Proof. unfold upd. rewrite Nat.eqb_refl. reflexivity. Qed.
Lemma upd_other f n v m : m <> n -> upd f n v m = f m.
Proof. intros H. unfold upd. destruct (Nat.eqb_spec m n); [contradiction|reflexivity]. Qed.

Lemma target_in s h n : target s h = Some n -> In (h, n) (own s).
Proof.
  unfold target. intros H.
  match type of H with context [find ?f ?l] => destruct (find f l) as [[h' n']|] eqn:E end; [|discriminate H].
  cbn in H. injection H as ->. apply find_some in E. destruct E as [Hin Hh]. cbn in Hh. apply Nat.eqb_eq in Hh. subst. exact Hin.
Qed.

Lemma not_live_notin s h : ~ live s h -> ~ In h (map fst (own s)).
Proof.
  unfold live, target. intros H Hin. apply in_map_iff in Hin. destruct Hin as ([h' n] & Eh & Hin). cbn in Eh. subst h'.
  match type of H with context [find ?f ?l] => destruct (find f l) eqn:E end; [apply H; discriminate|].
  eapply find_none in E; [|exact Hin]. cbn in E. rewrite Nat.eqb_refl in E. discriminate.
Qed.

Definition count (n : node) (l : list (handle * node)) : nat := List.length (filter (fun p => Nat.eqb (snd p) n) l).

Lemma count_pos l h n : In (h, n) l -> 1 <= count n l.
Proof.
  unfold count. induction l as [|[h' n'] r IH]; intros Hin; [contradiction|]. cbn [filter snd].
  destruct Hin as [E|Hin].
  - inversion E; subst. rewrite Nat.eqb_refl. cbn. lia.
  - specialize (IH Hin). destruct (Nat.eqb n' n); cbn [List.length]; lia.
Qed.

Lemma remove_absent l h : ~ In h (map fst l) -> remove_handle h l = l.
Proof.
  unfold remove_handle. induction l as [|[h2 n2] r IH]; intros Hni; [reflexivity|]. cbn [filter fst].
  destruct (Nat.eqb_spec h2 h) as [->|Hne]; [exfalso; apply Hni; left; reflexivity|].
  cbn [negb]. f_equal. apply IH. intros Hc. apply Hni. right. exact Hc.
Qed.

Lemma count_remove l h n m : NoDup (map fst l) -> In (h, n) l ->
  count m (remove_handle h l) = if Nat.eqb n m then count m l - 1 else count m l.
Proof.
  induction l as [|[h' n'] r IH]; intros ND Hin; [contradiction|].
  cbn [map] in ND. inversion ND as [|? ? Hni ND']; subst.
  destruct Hin as [E|Hin].
  - inversion E; subst. unfold remove_handle. cbn [filter fst]. rewrite Nat.eqb_refl. cbn [negb].
    fold (remove_handle h r). rewrite (remove_absent r h Hni). unfold count. cbn [filter snd].
    destruct (Nat.eqb n m); cbn [List.length]; lia.
  - assert (Hne : h' <> h).
    { intros ->. apply Hni. apply in_map_iff. exists (h, n). split; [reflexivity|exact Hin]. }
    unfold remove_handle. cbn [filter fst]. destruct (Nat.eqb_spec h' h); [contradiction|]. cbn [negb].
    fold (remove_handle h r). specialize (IH ND' Hin). unfold count in *. cbn [filter snd].
    destruct (Nat.eqb n' m); cbn [List.length]; rewrite IH; destruct (Nat.eqb_spec n m) as [->|]; try reflexivity.
    pose proof (count_pos r h m Hin) as P. unfold count in P. lia.
Qed.

Lemma remove_nodup l h : NoDup (map fst l) -> NoDup (map fst (remove_handle h l)) /\ ~ In h (map fst (remove_handle h l)).
Proof.
  unfold remove_handle. induction l as [|[h' n'] r IH]; intros ND; [split; [constructor|tauto]|].
  cbn [map] in ND. inversion ND as [|? ? Hni ND']; subst. destruct (IH ND') as [N1 N2]. cbn [filter fst].
  destruct (Nat.eqb_spec h' h) as [->|Hne]; cbn [negb]; [split; assumption|].
  cbn [map fst]. split.
  - constructor; [|exact N1]. intros Hc. apply Hni. apply in_map_iff in Hc. destruct Hc as (p & Ep & Hp).
    apply filter_In in Hp. apply in_map_iff. exists p. tauto.
  - intros [E|Hc]; [congruence|contradiction].
Qed.

Lemma count_cons h n m l : count m ((h, n) :: l) = if Nat.eqb n m then S (count m l) else count m l.
Proof. unfold count. cbn [filter snd]. destruct (Nat.eqb n m); reflexivity. Qed.

Lemma refs_count s n : refs s n = count n (own s).
Proof. reflexivity. Qed.

Lemma release_spec s n : cnt (release s n) = upd (cnt s) n (cnt s n - 1) /\ own (release s n) = own s /\
  freed (release s n) = if Nat.eqb (cnt s n - 1) 0 then upd (freed s) n (S (freed s n)) else freed s.
Proof. repeat split. Qed.

(* one operation preserves the invariant: node by node, after comparing the node with those the operation touches (eqb_cases),
   the new counters are the old ones up to +1 / -1, and the claim is linear arithmetic *)
Ltac eqb_cases := repeat first [rewrite Nat.eqb_refl | match goal with |- context [Nat.eqb ?a ?b] => destruct (Nat.eqb_spec a b); [subst|]; try congruence end].

Theorem step_inv s born o : inv s born -> op_ok s o -> inv (step s o) (born_after born o).
Proof.
  intros [ND OK] Hok. destruct o as [h n|h' h|h|h t]; cbn [step born_after op_ok] in *.
  - (* new *)
    destruct Hok as [Hl Hf]. split; cbn [cnt freed own map fst]; [constructor; [exact (not_live_notin s h Hl)|exact ND]|].
    intros m. pose proof (OK m). pose proof (OK n). rewrite !refs_count in *. cbn [own]. rewrite count_cons. unfold upd. eqb_cases; lia.
  - (* copy *)
    destruct Hok as [Hl Hs]. destruct (target s h) as [n|] eqn:T; [|exfalso; apply Hs; exact T].
    pose proof (count_pos _ _ _ (target_in s h n T)) as P.
    split; cbn [cnt freed own map fst]; [constructor; [exact (not_live_notin s h' Hl)|exact ND]|].
    intros m. pose proof (OK m). pose proof (OK n). rewrite !refs_count in *. cbn [own]. rewrite count_cons. unfold upd. eqb_cases; lia.
  - (* drop *)
    destruct (target s h) as [n|] eqn:T; [|exfalso; apply Hok; exact T].
    pose proof (target_in s h n T) as Hin. pose proof (count_pos _ _ _ Hin) as P.
    split; cbn [cnt freed own release]; [exact (proj1 (remove_nodup (own s) h ND))|].
    intros m. pose proof (OK m). pose proof (OK n). rewrite !refs_count in *. cbn [own]. rewrite (count_remove _ h n m ND Hin). unfold upd. eqb_cases; lia.
  - (* assignment *)
    destruct (Nat.eqb_spec h t) as [->|Hht]; [split; assumption|].
    destruct Hok as [Hlh Hlt]. destruct (target s h) as [n|] eqn:Th; [|exfalso; apply Hlh; exact Th].
    destruct (target s t) as [n'|] eqn:Tt; [|exfalso; apply Hlt; exact Tt].
    pose proof (target_in s h n Th) as Hin. pose proof (target_in s t n' Tt) as Hin'.
    destruct (remove_nodup (own s) h ND) as [ND' Hni].
    assert (Hin2 : In (t, n') (remove_handle h (own s))).
    { unfold remove_handle. apply filter_In. split; [exact Hin'|]. cbn. destruct (Nat.eqb_spec t h); [congruence|reflexivity]. }
    pose proof (count_pos _ _ _ Hin) as P. pose proof (count_pos _ _ _ Hin2) as P2. rewrite (count_remove _ h n n' ND Hin) in P2.
    split; cbn [cnt freed own release map fst]; [constructor; assumption|].
    intros m. rewrite !refs_count. cbn [own]. rewrite count_cons, (count_remove _ h n m ND Hin). unfold upd. revert P2.
    (* only the facts about the nodes involved are kept: each of them makes lia distinguish cases *)
    pose proof (OK n) as Kn. pose proof (OK n') as Kn'. pose proof (OK m) as Km. rewrite !refs_count in *. clear - Kn Kn' Km P.
    destruct (Nat.eqb_spec m n) as [->|Hn].
    + clear Km. destruct (Nat.eqb_spec n n') as [<-|Hnn]; [clear Kn'|]; eqb_cases; lia.
    + destruct (Nat.eqb_spec m n') as [->|Hn']; [clear Km Kn|clear Kn Kn']; eqb_cases; lia.
Qed.

Definition new_nodes (os : list op) : list node := flat_map (fun o => match o with ONew _ n => [n] | _ => [] end) os.

Lemma inv_ext s b1 b2 : (forall n, b1 n = b2 n) -> inv s b1 -> inv s b2.
Proof. intros E [A B]. split; [exact A|]. intros n. rewrite <- E. apply B. Qed.

Lemma run_inv os : forall s born, inv s born -> ops_ok s os ->
  inv (fold_left step os s) (fun m => born m + count_occ (A := node) Nat.eq_dec (new_nodes os) m).
Proof.
  induction os as [|o r IH]; intros s born I Hok; cbn [fold_left new_nodes flat_map].
  - eapply inv_ext; [|exact I]. intros n. cbn. lia.
  - destruct Hok as [H1 H2]. specialize (IH _ _ (step_inv s born o I H1) H2). eapply inv_ext; [|exact IH].
    intros n. fold (new_nodes r). rewrite count_occ_app. destruct o as [h0 n0| | |]; cbn [born_after app count_occ]; try lia.
    unfold upd. destruct (Nat.eqb_spec n n0), (Nat.eq_dec n0 n); subst; try congruence; lia.
Qed.

Lemma init_inv : inv init (fun _ => 0).
Proof. split; [constructor|]. intros n. cbn. lia. Qed.

(* the reference counting protocol: for EVERY sequence of handle operations a client can perform (new handles are fresh,
   used handles are live, a deleted node is not handed out again):
   the counter is the number of live handles; no node is deleted twice; a deleted node has no live handle; and a node that
   was ever handed out and has no live handle left HAS been deleted (no leak) *)
Theorem refcount_protocol os : ops_ok init os ->
  let s := fold_left step os init in
  (forall n, cnt s n = refs s n) /\ (forall n, freed s n <= 1) /\
  (forall h n, In (h, n) (own s) -> freed s n = 0) /\
  (forall n, In n (new_nodes os) -> refs s n = 0 -> freed s n = 1).
Proof.
  intros Hok s. pose proof (run_inv os init _ init_inv Hok) as [ND OK]. fold s in ND, OK. clearbody s. repeat split.
  - intros n. apply OK.
  - intros n. pose proof (OK n). lia.
  - intros h n Hin. pose proof (count_pos _ _ _ Hin) as P. pose proof (OK n) as [_ K]. rewrite refs_count in K. clear - P K. lia.
  - intros n Hn Hr. apply (count_occ_In (A := node) Nat.eq_dec) in Hn. pose proof (OK n) as [_ K]. cbn beta in K. clear - Hn Hr K. lia.
Qed.

(* the assignment operator as it was before the repair loses the overwritten node *)
Theorem old_assignment_leaks_refuted :
  exists os, ops_ok init os /\
    let s := fold_left step_old_assign os init in exists n, In n (new_nodes os) /\ refs s n = 0 /\ freed s n = 0.
Proof.
  exists [ONew 0 0; ONew 1 1; OAssign 0 1; ODrop 0; ODrop 1]. split.
  - cbn. unfold live, target. cbn. repeat split; try congruence; try discriminate.
  - exists 0. vm_compute. repeat split; auto.
Qed.

Example protocol_example :
  ops_ok init [ONew 0 7; OCopy 1 0; ONew 2 8; OAssign 0 2; ODrop 1; ODrop 0; ODrop 2] /\
  (let s := fold_left step [ONew 0 7; OCopy 1 0; ONew 2 8; OAssign 0 2; ODrop 1; ODrop 0; ODrop 2] init in
   freed s 7 = 1 /\ freed s 8 = 1 /\ own s = []).
Proof. split; [cbn; unfold live, target; cbn; repeat split; try congruence; try discriminate|vm_compute; repeat split]. Qed.
