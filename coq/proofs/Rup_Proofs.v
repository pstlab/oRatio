(* Soundness of the RUP checker of smt/Rup.v:  rup F C = true -> F |= C  (for every theory T, in particular none). *)
From Coq Require Import List Arith Bool.
From ORatio Require Import smt.SatCoreBase smt.Rup proofs.SatCoreBase_Proofs.
Import ListNotations.

Definition good (a : asg) (A : list lit) : Prop := forall p, In p A -> sat_lit a p.

Lemma a_true_sound : forall a A p, good a A -> a_true A p = true -> sat_lit a p.
Proof.
  intros a A p G H. unfold a_true in H. apply existsb_exists in H. destruct H as [q [Hq He]].
  apply lit_eqb_eq in He. subst. auto.
Qed.
Lemma a_false_sound : forall a A p, good a A -> a_false A p = true -> ~ sat_lit a p.
Proof. intros a A p G H. apply sat_lit_neg. eapply a_true_sound; eauto. Qed.

Lemma cstatus_conflict : forall a A c, good a A -> sat_clause a c -> cstatus A c <> CConflict.
Proof.
  intros a A c G [q [Hq Hs]] H. unfold cstatus in H.
  destruct (existsb (a_true A) c); try discriminate.
  destruct (filter (fun p => negb (a_false A p)) c) as [|p r] eqn:E.
  - assert (Hin : In q (filter (fun p => negb (a_false A p)) c)).
    { apply filter_In. split; auto. destruct (a_false A q) eqn:Ef; auto. exfalso. eapply a_false_sound; eauto. }
    rewrite E in Hin. destruct Hin.
  - destruct (forallb (lit_eqb p) r); discriminate.
Qed.
Lemma cstatus_unit : forall a A c p, good a A -> sat_clause a c -> cstatus A c = CUnit p -> sat_lit a p.
Proof.
  intros a A c p G [q [Hq Hs]] H. unfold cstatus in H.
  destruct (existsb (a_true A) c); try discriminate.
  destruct (filter (fun p => negb (a_false A p)) c) as [|p0 r] eqn:E; try discriminate.
  destruct (forallb (lit_eqb p0) r) eqn:Ea; try discriminate. inversion H; subst.
  assert (Hin : In q (p :: r)).
  { rewrite <- E. apply filter_In. split; auto. destruct (a_false A q) eqn:Ef; auto. exfalso. eapply a_false_sound; eauto. }
  destruct Hin as [->|Hin]; auto.
  rewrite forallb_forall in Ea. apply Ea in Hin. apply lit_eqb_eq in Hin. now subst.
Qed.

Lemma up_sweep_sound : forall a F A ch, good a A -> models a F ->
  let '(cf, A1, _) := up_sweep A F ch in cf = false /\ good a A1.
Proof.
  induction F as [|c t IH]; intros A ch G M; simpl. auto.
  apply models_cons in M. destruct M as [Mc Mt].
  destruct (cstatus A c) eqn:E.
  - apply IH; auto.
  - exfalso. eapply cstatus_conflict; eauto.
  - apply IH; auto. intros q [<-|Hq]; auto. eapply cstatus_unit; eauto.
  - apply IH; auto.
Qed.

Lemma up_sound : forall a F fuel A, good a A -> models a F -> up fuel A F = false.
Proof.
  induction fuel as [|f IH]; intros A G M; simpl; auto.
  pose proof (up_sweep_sound a F A false G M) as H.
  destruct (up_sweep A F false) as [[cf A1] ch]. destruct H as [-> G1].
  destruct ch; auto.
Qed.

Theorem rup_sound : forall F C, rup F C = true -> forall a, models a F -> sat_clause a C.
Proof.
  intros F C H a M. destruct (sat_clauseb a C) eqn:E. now apply sat_clauseb_iff.
  exfalso. unfold rup in H. rewrite (up_sound a F (S (length F)) (map lneg C)) in H; auto; try discriminate.
  intros p Hp. apply in_map_iff in Hp. destruct Hp as [q [<- Hq]]. apply sat_lit_neg. intros Hs.
  assert (sat_clauseb a C = true) by (apply sat_clauseb_iff; exists q; auto). congruence.
Qed.

Corollary rup_entails : forall T F C, rup F C = true -> entails T F C.
Proof. intros T F C H a _ M. eapply rup_sound; eauto. Qed.

(* a derivation: every checked clause is entailed by the initial clauses alone *)
Fixpoint rup_chain (F : list clause) (Ls : list clause) : bool :=
  match Ls with [] => true | c :: t => rup F c && rup_chain (c :: F) t end.
Theorem rup_chain_sound : forall Ls F, rup_chain F Ls = true -> forall T c, In c Ls -> entails T F c.
Proof.
  induction Ls as [|d t IH]; intros F H T c Hc. destruct Hc.
  simpl in H. apply andb_true_iff in H. destruct H as [H1 H2].
  destruct Hc as [<-|Hc]. now apply rup_entails.
  intros a Ta M. apply (IH (d :: F) H2 T c Hc a Ta). apply models_cons. split; auto.
  eapply rup_sound; eauto.
Qed.

Lemma lits_eqb_eq : forall a b, lits_eqb a b = true <-> a = b.
Proof.
  induction a as [|x s IH]; intros [|y t]; simpl; split; intros H; try discriminate; auto.
  - apply andb_true_iff in H. destruct H as [H1 H2]. apply lit_eqb_eq in H1. apply IH in H2. now subst.
  - inversion H; subst. rewrite lit_eqb_refl. simpl. now apply IH.
Qed.
Theorem nogood_shape_spec : forall ds c, nogood_shape ds c = true <-> c = map lneg ds.
Proof. intros. unfold nogood_shape. apply lits_eqb_eq. Qed.
