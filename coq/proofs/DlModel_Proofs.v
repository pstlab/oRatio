(* Satisfiability direction of difference logic ("a model attains each distance").

   Graph level, generic in the ordered group O.  Let m be the shortest-path closure of the edge set E on the nodes
   0 .. n-1 (`exact n E m`: this is what the invariant of the model states for every reachable state without a pending
   conflict; it contains "no negative cycle").  For any offsets c : nat -> O the potential

        x(k) := min { m(r,k) + c(r) | r < n, m(r,k) finite }          (virtual source with an edge of weight c(r) to r)

   is finite (r = k is a candidate) and satisfies every edge  i -w-> k  of E, i.e.  x(k) - x(i) <= w.  Entries that are
   +infinity (time points not connected) need no special treatment: they are just not candidates of the minimum.

     c(r) := 0                         : a model exists                                            (exact_has_model)
     c(r) := K - m(r,b) (0 if +inf)    : a model with x(b) = K and x(a) <= c(a)                     (potential_at_b, potential_at_a)
        K := m(a,b) finite             : x(a) = 0, so x(b) - x(a) = m(a,b): the bound is attained   (exact_attained)
        m(a,b) = +inf, K arbitrary     : x(b) - x(a) >= K: there is no bound at all                 (exact_unbounded)

   State level (generic in the distance domain, instantiated for IDL and RDL in props/Properties_C10.v):
   after any history, without fault and pending conflict, the processed constraints have a model, every finite distance
   is attained by one, every infinite distance is exceeded by one; once the queue has been drained the processed
   constraints are all the assigned ones (true literal: to - from <= d; false literal: from - to <= -d-1, resp. -d-eps). *)
From Coq Require Import List Arith Bool Lia.
From ORatio Require Import smt.DlDom smt.Dl proofs.DlOrd_Proofs proofs.DlGraph_Proofs proofs.DlSpec_Proofs proofs.DlHist_Proofs
  proofs.DlThm_Proofs.
Import ListNotations.
Local Open Scope nat_scope.

Section Potential.
Variable O : ogroup.
Notation xmin := (xmin O).

Lemma xmin_le_l (x y : xd O) : xle (xmin x y) x. Proof. exact (is_min_le_l O _ _ _ (xmin_is_min O x y)). Qed.
Lemma xmin_le_r (x y : xd O) : xle (xmin x y) y. Proof. exact (is_min_le_r O _ _ _ (xmin_is_min O x y)). Qed.
Lemma xmin_cases (x y : xd O) : xmin x y = x \/ xmin x y = y. Proof. exact (is_min_cases O _ _ _ (xmin_is_min O x y)). Qed.

(* the minimum of f 0, ..., f (n-1); +infinity for n = 0 *)
Fixpoint xmin_upto (f : nat -> xd O) (n : nat) : xd O :=
  match n with 0 => Inf | S k => xmin (xmin_upto f k) (f k) end.

Lemma xmin_upto_le f n r : r < n -> xle (xmin_upto f n) (f r).
Proof.
  induction n as [| n IH]; intro H; [lia |]. cbn [xmin_upto].
  destruct (Nat.eq_dec r n) as [-> | Hne].
  - apply xmin_le_r.
  - eapply (xle_trans O); [apply xmin_le_l | apply IH; lia].
Qed.

Lemma xmin_upto_att f n : xmin_upto f n = Inf \/ exists r, r < n /\ xmin_upto f n = f r.
Proof.
  induction n as [| n IH]; [left; reflexivity |]. cbn [xmin_upto].
  destruct (xmin_cases (xmin_upto f n) (f n)) as [E | E]; rewrite E.
  - destruct IH as [IH | (r & Hr & IH)]; [left; exact IH | right; exists r; split; [lia | exact IH]].
  - right. exists n. split; [lia | reflexivity].
Qed.

Definition xval (x : xd O) : O := match x with Fin g => g | Inf => g0 end.

Definition pot (n : nat) (m : mat O) (c : nat -> O) (k : nat) : xd O := xmin_upto (fun r => xadd (m r k) (c r)) n.
Definition potential (n : nat) (m : mat O) (c : nat -> O) (k : nat) : O := xval (pot n m c k).

Variable n : nat.
Variable E : edge O -> Prop.
Variable m : mat O.
Hypothesis X : exact n E m.

Lemma pot_le c k r g : r < n -> m r k = Fin g -> exists v, pot n m c k = Fin v /\ v <=o g +o c r.
Proof.
  intros Hr Eg. pose proof (xmin_upto_le (fun r => xadd (m r k) (c r)) n r Hr) as L. cbn beta in L. rewrite Eg in L. cbn in L.
  fold (pot n m c k) in L. destruct (pot n m c k) as [v |]; cbn in L; [| contradiction]. exists v. split; [reflexivity | exact L].
Qed.

Lemma pot_att c k : k < n -> exists v r g, pot n m c k = Fin v /\ r < n /\ m r k = Fin g /\ v = g +o c r.
Proof.
  intro Hk. destruct (pot_le c k k g0 Hk (ex_diag _ _ _ _ X k Hk)) as (v & Ev & _).
  destruct (xmin_upto_att (fun r => xadd (m r k) (c r)) n) as [Ei | (r & Hr & Er)]; fold (pot n m c k) in *.
  - rewrite Ev in Ei. discriminate.
  - cbn beta in Er. rewrite Ev in Er. destruct (m r k) as [g |] eqn:Eg; cbn in Er; [| discriminate]. injection Er as ->.
    exists (g +o c r), r, g. auto.
Qed.

(* the potential satisfies every edge, whatever the offsets *)
Theorem potential_sat c : forall e, E e -> esat O (potential n m c) e.
Proof.
  intros [[i k] w] He. unfold esat. cbn [fst snd]. destruct (ex_in _ _ _ _ X _ _ _ He) as [Hi Hk].
  destruct (pot_att c i Hi) as (vi & r & h & Evi & Hr & Eh & ->).
  pose proof (exact_relaxed_r O n E m X r i k w He Hr) as R. rewrite Eh in R. cbn in R.
  destruct (m r k) as [h' |] eqn:Eh'; cbn in R; [| contradiction].
  destruct (pot_le c k r h' Hr Eh') as (vk & Evk & Lk).
  unfold potential. rewrite Evi, Evk. cbn [xval]. og O.
Qed.

Theorem exact_has_model : exists x : nat -> O, forall e, E e -> esat O x e.
Proof. exists (potential n m (fun _ => g0)). apply potential_sat. Qed.

(* ---- a model that puts b at K, and a at most at its own offset ---- *)
Definition off_to (b : nat) (K : O) (r : nat) : O := match m r b with Fin h => K +o -o h | Inf => g0 end.

Lemma potential_at_b b K : b < n -> potential n m (off_to b K) b = K.
Proof.
  intro Hb. destruct (pot_att (off_to b K) b Hb) as (v & r & g & Ev & Hr & Eg & ->).
  unfold potential. rewrite Ev. cbn [xval]. unfold off_to. rewrite Eg. og O.
Qed.

Lemma potential_at_a a b K : a < n -> potential n m (off_to b K) a <=o off_to b K a.
Proof.
  intro Ha. destruct (pot_le (off_to b K) a a g0 Ha (ex_diag _ _ _ _ X a Ha)) as (v & Ev & L).
  unfold potential. rewrite Ev. cbn [xval]. og O.
Qed.

Theorem exact_attained a b d : a < n -> b < n -> m a b = Fin d ->
  exists x : nat -> O, (forall e, E e -> esat O x e) /\ x b +o -o x a = d.
Proof.
  intros Ha Hb Ed. exists (potential n m (off_to b d)). split; [apply potential_sat |].
  rewrite (potential_at_b b d Hb).
  assert (Za : potential n m (off_to b d) a = g0).
  { apply (gle_antisym O).
    - pose proof (potential_at_a a b d Ha) as L. unfold off_to in L at 2. rewrite Ed in L. og O.
    - destruct (pot_att (off_to b d) a Ha) as (v & r & g & Ev & Hr & Eg & ->).
      unfold potential. rewrite Ev. cbn [xval].
      pose proof (exact_triangle O n E m r a b X Hr Ha Hb) as T. rewrite Eg, Ed in T. cbn in T.
      unfold off_to. destruct (m r b) as [h |]; cbn in T; [| contradiction]. og O. }
  rewrite Za. og O.
Qed.

(* ---- an infinite distance is no bound at all ---- *)
Theorem exact_unbounded a b K : a < n -> b < n -> m a b = Inf ->
  exists x : nat -> O, (forall e, E e -> esat O x e) /\ K <=o x b +o -o x a.
Proof.
  intros Ha Hb Ei. exists (potential n m (off_to b K)). split; [apply potential_sat |].
  rewrite (potential_at_b b K Hb).
  pose proof (potential_at_a a b K Ha) as L. unfold off_to in L at 2. rewrite Ei in L. og O.
Qed.

End Potential.

Section ModelThm.
Variable O : ogroup.
Variable D : Type.
Variable dm : dom D.
Variable DS : domspec O D dm.
Notation state := (state D).
Notation good := (good O D dm DS).
Notation edges := (edges O D dm DS).
Notation dval := (dval O D dm DS).
Notation models := (models O D dm DS).

Lemma good_exact s : good s -> exact (n_vars s) (edges s) (dval s).
Proof. intro G. exact (gd_exact _ _ _ _ _ (gd_n _ _ _ _ _ G)). Qed.

Theorem good_satisfiable s : good s -> exists x, models x s.
Proof. intro G. exact (exact_has_model O _ _ _ (good_exact s G)). Qed.

Theorem good_attained s i j g : good s -> i < n_vars s -> j < n_vars s -> dval s i j = Fin g ->
  exists x, models x s /\ x j +o -o x i = g.
Proof. intros G Hi Hj Eg. exact (exact_attained O _ _ _ (good_exact s G) i j g Hi Hj Eg). Qed.

Theorem good_unbounded s i j K : good s -> i < n_vars s -> j < n_vars s -> dval s i j = Inf ->
  exists x, models x s /\ K <=o x j +o -o x i.
Proof. intros G Hi Hj Eg. exact (exact_unbounded O _ _ _ (good_exact s G) i j K Hi Hj Eg). Qed.

(* once the queue is drained, a model of the processed edges satisfies every assigned constraint literal *)
Theorem models_assigned s x v c g : good s -> prop_q s = [] -> models x s ->
  vd_find v (var_dists s) = Some c -> wt DS (c_dist c) g ->
  (value_var s v = LT -> csat O x (c_from c) (c_to c) g) /\
  (value_var s v = LF -> csat O x (c_to c) (c_from c) (gpred DS g)).
Proof.
  intros G Hq M Hc Hw.
  assert (P : value_var s v <> LU -> proc D s v).
  { intro Hv. destruct (gd_queue _ _ _ _ _ (gd_n _ _ _ _ _ G) v c Hc Hv) as [P | Q]; [exact P |].
    unfold in_q in Q. rewrite Hq in Q. destruct Q. }
  split; intro Hv.
  - assert (Ed : edges s (c_from c, c_to c, g)).
    { exists v. split; [apply P; congruence |]. exists c, g. unfold true_lit. rewrite Hv. cbn [fst snd]. auto. }
    exact (M _ Ed).
  - assert (Ed : edges s (c_to c, c_from c, gpred DS g)).
    { exists v. split; [apply P; congruence |]. exists c, g. unfold true_lit. rewrite Hv. cbn [fst snd]. auto. }
    exact (M _ Ed).
Qed.

Theorem dl_satisfiable size os :
  0 < size -> wf_run D dm (init D dm size) os ->
  let s := Dl.run D dm (init D dm size) os in
  fault s = 0 -> confl s = false ->
  exists x, models x s.
Proof. intros Hs W s F C. exact (good_satisfiable s (history_good O D dm DS size os Hs W F C)). Qed.

Theorem dl_distance_attained size os :
  0 < size -> wf_run D dm (init D dm size) os ->
  let s := Dl.run D dm (init D dm size) os in
  fault s = 0 -> confl s = false ->
  forall i j, i < n_vars s -> j < n_vars s ->
    match dval s i j with
    | Fin g => (forall x, models x s -> x j +o -o x i <=o g) /\ exists x, models x s /\ x j +o -o x i = g
    | Inf => forall K, exists x, models x s /\ K <=o x j +o -o x i
    end.
Proof.
  intros Hs W s F C i j Hi Hj. pose proof (history_good O D dm DS size os Hs W F C) as G. fold s in G.
  destruct (dval s i j) as [g |] eqn:Eg.
  - split; [intros x M; exact (models_dist O D dm DS s x i j g G M Hi Hj Eg) | exact (good_attained s i j g G Hi Hj Eg)].
  - intro K. exact (good_unbounded s i j K G Hi Hj Eg).
Qed.

Theorem dl_assigned_satisfiable size os :
  0 < size -> wf_run D dm (init D dm size) os ->
  let s := Dl.run D dm (init D dm size) os in
  fault s = 0 -> confl s = false -> prop_q s = [] ->
  exists x, forall v c g, vd_find v (var_dists s) = Some c -> wt DS (c_dist c) g ->
    (value_var s v = LT -> csat O x (c_from c) (c_to c) g) /\
    (value_var s v = LF -> csat O x (c_to c) (c_from c) (gpred DS g)).
Proof.
  intros Hs W s F C Hq. pose proof (history_good O D dm DS size os Hs W F C) as G. fold s in G.
  destruct (good_satisfiable s G) as [x M]. exists x. intros v c g Hc Hw. exact (models_assigned s x v c g G Hq M Hc Hw).
Qed.

End ModelThm.
