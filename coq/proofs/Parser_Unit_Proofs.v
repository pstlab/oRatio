(* C16: the printer/parser round trip for classes and whole compilation units.
   - the kind of member / top-level item the parser's look-ahead assigns to the printed text of each declaration
   - the five segments of a class body (fields, constructors, methods, predicates, nested types) and
     `tdecl_roundtrip`: every well-formed type declaration (typedef, enum, class with arbitrarily nested classes) is read back
   - the four segments of a compilation unit (types, methods, predicates, statements) and
     `parse_unit`: parse (pp_unit u) = Ok u [] for every well-formed unit u that fits the nesting limit of the parser *)
From Coq Require Import List String Bool Arith Lia.
From ORatio Require Import lang.Token lang.Lexer lang.Ast lang.Parser lang.Printer.
From ORatio Require Import proofs.Parser_Len_Proofs proofs.Parser_Proofs proofs.Parser_Stmt_Proofs.
From ORatio Require Import proofs.Parser_Decl_Proofs.
Import ListNotations.

Lemma kind_typed q x t r : q <> [] -> member_kind_of (pp_type q ++ TId x :: t :: r) = field_or_method (t :: r) /\
                                     is_rbrace (pp_type q ++ TId x :: t :: r) = false.
Proof.
  intros Hq. destruct (pp_type_cases q Hq) as [(n & k & _ & -> & Hp)|(y & ys & _ & ->)].
  - cbn [app]. destruct k; try discriminate Hp; split; reflexivity.
  - cbn [app]. split; [|reflexivity]. destruct ys as [|z zs].
    + cbn [dots flat_map app]. destruct t; reflexivity.
    + pose proof (after_dots_pp (z :: zs) (TId x :: t :: r) I) as E. cbn [dots flat_map app] in E |- *. fold (dots zs) in E |- *.
      cbn [member_kind_of]. cbn [after_dots] in E |- *. rewrite E. reflexivity.
Qed.

Lemma kind_field fd rest : wf_field fd -> member_kind_of (pp_field fd ++ rest) = MField /\ is_rbrace (pp_field fd ++ rest) = false.
Proof.
  intros (Hq & Hv & _). unfold pp_field. assoc_app.
  destruct (vars_head (f_vars fd) rest Hv) as (x & t & r0 & -> & Ht).
  destruct (kind_typed (f_tp fd) x t r0 Hq) as [-> ->]. split; [|reflexivity].
  destruct Ht as [->|[->| ->]]; reflexivity.
Qed.

Lemma kind_method m rest : member_kind_of (pp_method m ++ rest) = MMethod /\ is_rbrace (pp_method m ++ rest) = false.
Proof.
  rewrite pp_method_eq. destruct (m_rt m) as [|y ys] eqn:Er; [split; reflexivity|]. unfold pp_rtype.
  match goal with |- context [pp_type (y :: ys) ++ TId ?x :: ?t :: ?r] =>
    destruct (kind_typed (y :: ys) x t r ltac:(discriminate)) as [-> ->] end. split; reflexivity.
Qed.

Lemma kind_ctor cn c rest : member_kind_of (pp_ctor cn c ++ rest) = MCtor /\ is_rbrace (pp_ctor cn c ++ rest) = false.
Proof. rewrite pp_ctor_eq. split; reflexivity. Qed.
Lemma kind_pred p rest : member_kind_of (pp_pred p ++ rest) = MPred /\ is_rbrace (pp_pred p ++ rest) = false.
Proof. rewrite pp_pred_eq. split; reflexivity. Qed.

Lemma members_fields d fs : forall T a b c e g rest,
  Forall (fun x => wf_field x /\ fneed x <= d) fs ->
  reads (fun f => p_members f d T) (Members a b c e g) rest ->
  reads (fun f => p_members f d (flat_map pp_field fs ++ T)) (Members (fs ++ a) b c e g) rest.
Proof.
  induction fs as [|x fs IH]; intros T a b c e g rest HF HT; [exact HT|].
  inversion HF as [|? ? [W Hd] HF']; subst. cbn [flat_map]. rewrite <- app_assoc.
  destruct (kind_field x (flat_map pp_field fs ++ T) W) as [Hk Hr].
  apply loop_step with (PX := fun f => p_field f d _) (PG := fun f => p_members f d)
    (k := fun y m => Members (y :: mb_fs m) (mb_cs m) (mb_ms m) (mb_ps m) (mb_ts m)) (2 := field_ok x d _ W Hd) (3 := IH T a b c e g rest HF' HT).
  intros f. rewrite members_eq by exact Hr. unfold members_body. rewrite Hk. reflexivity.
Qed.

Lemma members_ctors cn d cs : forall T a b c e g rest,
  Forall (fun x => wf_ctor x /\ cneed x <= d) cs ->
  reads (fun f => p_members f d T) (Members a b c e g) rest ->
  reads (fun f => p_members f d (flat_map (pp_ctor cn) cs ++ T)) (Members a (cs ++ b) c e g) rest.
Proof.
  induction cs as [|x cs IH]; intros T a b c e g rest HF HT; [exact HT|].
  inversion HF as [|? ? [W Hd] HF']; subst. cbn [flat_map]. rewrite <- app_assoc.
  destruct (kind_ctor cn x (flat_map (pp_ctor cn) cs ++ T)) as [Hk Hr].
  apply loop_step with (PX := fun f => p_ctor f d _) (PG := fun f => p_members f d)
    (k := fun y m => Members (mb_fs m) (y :: mb_cs m) (mb_ms m) (mb_ps m) (mb_ts m)) (2 := ctor_ok cn x d _ W Hd) (3 := IH T a b c e g rest HF' HT).
  intros f. rewrite members_eq by exact Hr. unfold members_body. rewrite Hk. reflexivity.
Qed.

Lemma members_methods d ms : forall T a b c e g rest,
  Forall (fun x => wf_method x /\ bneed (m_body x) <= d) ms ->
  reads (fun f => p_members f d T) (Members a b c e g) rest ->
  reads (fun f => p_members f d (flat_map pp_method ms ++ T)) (Members a b (ms ++ c) e g) rest.
Proof.
  induction ms as [|x ms IH]; intros T a b c e g rest HF HT; [exact HT|].
  inversion HF as [|? ? [W Hd] HF']; subst. cbn [flat_map]. rewrite <- app_assoc.
  destruct (kind_method x (flat_map pp_method ms ++ T)) as [Hk Hr].
  apply loop_step with (PX := fun f => p_method f d _) (PG := fun f => p_members f d)
    (k := fun y m => Members (mb_fs m) (mb_cs m) (y :: mb_ms m) (mb_ps m) (mb_ts m)) (2 := method_ok x d _ W Hd) (3 := IH T a b c e g rest HF' HT).
  intros f. rewrite members_eq by exact Hr. unfold members_body. rewrite Hk. reflexivity.
Qed.

Lemma members_preds d ps : forall T a b c e g rest,
  Forall (fun x => wf_pred x /\ bneed (p_body x) <= d) ps ->
  reads (fun f => p_members f d T) (Members a b c e g) rest ->
  reads (fun f => p_members f d (flat_map pp_pred ps ++ T)) (Members a b c (ps ++ e) g) rest.
Proof.
  induction ps as [|x ps IH]; intros T a b c e g rest HF HT; [exact HT|].
  inversion HF as [|? ? [W Hd] HF']; subst. cbn [flat_map]. rewrite <- app_assoc.
  destruct (kind_pred x (flat_map pp_pred ps ++ T)) as [Hk Hr].
  apply loop_step with (PX := fun f => p_pred f d _) (PG := fun f => p_members f d)
    (k := fun y m => Members (mb_fs m) (mb_cs m) (mb_ms m) (y :: mb_ps m) (mb_ts m)) (2 := pred_ok x d _ W Hd) (3 := IH T a b c e g rest HF' HT).
  intros f. rewrite members_eq by exact Hr. unfold members_body. rewrite Hk. reflexivity.
Qed.

Definition lmax {A} (f : A -> nat) (l : list A) : nat := fold_right (fun x a => max (f x) a) 0 l.
Definition mneed (m : method_decl) : nat := bneed (m_body m).
Definition pneed (p : pred_decl) : nat := bneed (p_body p).

Fixpoint wf_tdecl (t : type_decl) : Prop :=
  match t with
  | DTypedef _ pt e => prim_token pt <> None /\ wf_expr e
  | DEnum _ vals refs => (vals <> [] \/ refs <> []) /\ wf_qids refs
  | DClass _ bases fs cs ms ps ts =>
      wf_qids bases /\ Forall wf_field fs /\ Forall wf_ctor cs /\ Forall wf_method ms /\ Forall wf_pred ps /\
      fold_right (fun x a => wf_tdecl x /\ a) True ts
  end.
(* the nesting budget a declaration needs *)
Fixpoint tneed (t : type_decl) : nat :=
  match t with
  | DTypedef _ _ e => 1 + hgt e
  | DEnum _ _ _ => 0
  | DClass _ _ fs cs ms ps ts =>
      1 + max (lmax fneed fs) (max (lmax cneed cs) (max (lmax mneed ms) (max (lmax pneed ps) (fold_right (fun x a => max (tneed x) a) 0 ts))))
  end.

Section TdInd.
  Variable P : type_decl -> Prop.
  Hypothesis HT : forall n pt e, P (DTypedef n pt e).
  Hypothesis HE : forall n vals refs, P (DEnum n vals refs).
  Hypothesis HC : forall n bases fs cs ms ps ts, Forall P ts -> P (DClass n bases fs cs ms ps ts).
  Fixpoint tdecl_ind' (t : type_decl) : P t :=
    match t with
    | DTypedef n pt e => HT n pt e
    | DEnum n vals refs => HE n vals refs
    | DClass n bases fs cs ms ps ts =>
        HC n bases fs cs ms ps ts ((fix all (l : list type_decl) : Forall P l :=
                                      match l with [] => Forall_nil P | x :: r => Forall_cons x (tdecl_ind' x) (all r) end) ts)
    end.
End TdInd.

(* the parser function that reads a declaration of the given kind *)
Definition run_tdecl (t : type_decl) (f d : nat) (ts : list token) : res type_decl :=
  match t with
  | DTypedef _ _ _ => p_typedef f d ts
  | DEnum _ _ _ => p_enum f ts
  | DClass _ _ _ _ _ _ _ => p_class f d ts
  end.
Definition tdecl_rt (t : type_decl) : Prop := forall d rest, tneed t <= d ->
  reads (fun f => run_tdecl t f d (pp_type_decl t ++ rest)) t rest.

Lemma members_types d ts : forall T a b c e g rest,
  Forall (fun x => tdecl_rt x /\ tneed x <= d) ts ->
  reads (fun f => p_members f d T) (Members a b c e g) rest ->
  reads (fun f => p_members f d (flat_map pp_type_decl ts ++ T)) (Members a b c e (ts ++ g)) rest.
Proof.
  induction ts as [|x ts IH]; intros T a b c e g rest HF HT; [exact HT|].
  inversion HF as [|? ? [RT Hd] HF']; subst. cbn [flat_map]. rewrite <- app_assoc.
  apply loop_step with (PX := fun f => run_tdecl x f d _) (PG := fun f => p_members f d)
    (k := fun y m => Members (mb_fs m) (mb_cs m) (mb_ms m) (mb_ps m) (y :: mb_ts m)) (2 := RT d _ Hd) (3 := IH T a b c e g rest HF' HT).
  intros f. rewrite members_eq by (destruct x; reflexivity). destruct x; reflexivity.
Qed.

Lemma lmax_all {A} (f : A -> nat) l n : lmax f l <= n -> Forall (fun x => f x <= n) l.
Proof. apply fold_max_all. Qed.

Lemma pp_class_eq n bases fs cs ms ps ts rest :
  pp_type_decl (DClass n bases fs cs ms ps ts) ++ rest =
  TClass :: TId n :: pp_sup bases ++ TLBrace :: flat_map pp_field fs ++ flat_map (pp_ctor n) cs ++ flat_map pp_method ms ++
  flat_map pp_pred ps ++ flat_map pp_type_decl ts ++ TRBrace :: rest.
Proof.
  cbn [pp_type_decl]. unfold pp_sup. assoc_app. destruct bases; reflexivity.
Qed.


Theorem tdecl_roundtrip t : wf_tdecl t -> tdecl_rt t.
Proof.
  induction t as [n pt e|n vals refs|n bases fs cs ms ps ts IH] using tdecl_ind'; intros W d rest Hd; cbn [wf_tdecl tneed run_tdecl] in *.
  - destruct W as [Hp We]. destruct d as [|d0]; [lia|]. apply typedef_ok; [exact Hp|exact We|lia].
  - destruct W as [Hne Wq]. apply enum_ok; assumption.
  - destruct W as (Wb & Wf & Wc & Wm & Wp & Wt). apply fold_and_all in Wt. destruct d as [|d0]; [lia|].
    rewrite pp_class_eq.
    assert (Hf : Forall (fun x => wf_field x /\ fneed x <= d0) fs) by (apply Forall_and; [exact Wf|apply lmax_all; lia]).
    assert (Hc : Forall (fun x => wf_ctor x /\ cneed x <= d0) cs) by (apply Forall_and; [exact Wc|apply lmax_all; lia]).
    assert (Hm : Forall (fun x => wf_method x /\ bneed (m_body x) <= d0) ms) by (apply Forall_and; [exact Wm|apply (lmax_all mneed); lia]).
    assert (Hp : Forall (fun x => wf_pred x /\ bneed (p_body x) <= d0) ps) by (apply Forall_and; [exact Wp|apply (lmax_all pneed); lia]).
    assert (Ht : Forall (fun x => tdecl_rt x /\ tneed x <= d0) ts).
    { apply Forall_and; [exact (Forall_mp _ _ _ IH Wt)|apply (fold_max_all tneed); lia]. }
    assert (H0 : reads (fun f => p_members f d0 (TRBrace :: rest)) (Members [] [] [] [] []) rest).
    { exists 1. intros [|f] Hf0; [lia|reflexivity]. }
    pose proof (members_fields d0 fs _ _ _ _ _ _ _ Hf (members_ctors n d0 cs _ _ _ _ _ _ _ Hc (members_methods d0 ms _ _ _ _ _ _ _ Hm
                  (members_preds d0 ps _ _ _ _ _ _ _ Hp (members_types d0 ts _ _ _ _ _ _ _ Ht H0))))) as H5.
    rewrite !app_nil_r in H5.
    eapply reads_S; [intros f; cbn [p_class]; reflexivity|]. eapply reads_bind; [exact (opt_qids_ok bases _ Wb)|].
    eapply reads_bind; [apply reads_pure; reflexivity|]. eapply reads_bind; [exact H5|apply reads_ret].
Qed.

Lemma p_stmtS f d ts : NF (p_stmt f d ts) -> p_stmt (S f) d ts = p_stmt f d ts.  Proof. apply (run_mono (p_stmt_run f d ts)). Qed.

Lemma ukind_method m rest : exists r0, unit_kind_of (pp_method m ++ rest) = Ok UMethod r0.
Proof.
  rewrite pp_method_eq. destruct (m_rt m) as [|y ys] eqn:Er; [eexists; reflexivity|]. unfold pp_rtype.
  destruct (pp_type_cases (y :: ys) ltac:(discriminate)) as [(n & k & _ & -> & Hp)|(x & xs & _ & ->)].
  - cbn [app]. destruct k; try discriminate Hp; eexists; reflexivity.
  - cbn [app unit_kind_of]. rewrite p_dots_pp by exact I. cbn [bind]. eexists; reflexivity.
Qed.
Lemma nonempty_method m rest : pp_method m ++ rest <> [].
Proof.
  rewrite pp_method_eq. unfold pp_rtype. destruct (m_rt m) as [|y ys]; [discriminate|].
  destruct (pp_type_head (y :: ys) ltac:(discriminate)) as (t & r & -> & _). discriminate.
Qed.

Lemma units_types ts : forall T a b c e,
  Forall (fun x => tdecl_rt x /\ tneed x <= MAX_DEPTH) ts ->
  reads (fun f => p_units f T) (CU a b c e) [] ->
  reads (fun f => p_units f (flat_map pp_type_decl ts ++ T)) (CU (ts ++ a) b c e) [].
Proof.
  induction ts as [|x ts IH]; intros T a b c e HF HT; [exact HT|].
  inversion HF as [|? ? [RT Hd] HF']; subst. cbn [flat_map]. rewrite <- app_assoc.
  apply loop_step with (PX := fun f => run_tdecl x f MAX_DEPTH _) (PG := p_units)
    (k := fun y u => CU (y :: cu_types u) (cu_methods u) (cu_preds u) (cu_stmts u)) (2 := RT MAX_DEPTH _ Hd) (3 := IH T a b c e HF' HT).
  intros f. destruct x; reflexivity.
Qed.

Lemma units_methods ms : forall T a b c e,
  Forall (fun x => wf_method x /\ bneed (m_body x) <= MAX_DEPTH) ms ->
  reads (fun f => p_units f T) (CU a b c e) [] ->
  reads (fun f => p_units f (flat_map pp_method ms ++ T)) (CU a (ms ++ b) c e) [].
Proof.
  induction ms as [|x ms IH]; intros T a b c e HF HT; [exact HT|].
  inversion HF as [|? ? [W Hd] HF']; subst. cbn [flat_map]. rewrite <- app_assoc.
  destruct (ukind_method x (flat_map pp_method ms ++ T)) as [r0 Hk].
  apply loop_step with (PX := fun f => p_method f MAX_DEPTH _) (PG := p_units)
    (k := fun y u => CU (cu_types u) (y :: cu_methods u) (cu_preds u) (cu_stmts u)) (2 := method_ok x MAX_DEPTH _ W Hd) (3 := IH T a b c e HF' HT).
  intros f. pose proof (nonempty_method x (flat_map pp_method ms ++ T)) as Hne.
  destruct (pp_method x ++ flat_map pp_method ms ++ T); [congruence|]. cbn [p_units]. rewrite Hk. reflexivity.
Qed.

Lemma units_preds ps : forall T a b c e,
  Forall (fun x => wf_pred x /\ bneed (p_body x) <= MAX_DEPTH) ps ->
  reads (fun f => p_units f T) (CU a b c e) [] ->
  reads (fun f => p_units f (flat_map pp_pred ps ++ T)) (CU a b (ps ++ c) e) [].
Proof.
  induction ps as [|x ps IH]; intros T a b c e HF HT; [exact HT|].
  inversion HF as [|? ? [W Hd] HF']; subst. cbn [flat_map]. rewrite <- app_assoc.
  apply loop_step with (PX := fun f => p_pred f MAX_DEPTH _) (PG := p_units)
    (k := fun y u => CU (cu_types u) (cu_methods u) (y :: cu_preds u) (cu_stmts u)) (2 := pred_ok x MAX_DEPTH _ W Hd) (3 := IH T a b c e HF' HT).
  intros f. rewrite pp_pred_eq. reflexivity.
Qed.

Definition wf_unit (u : comp_unit) : Prop :=
  Forall wf_tdecl (cu_types u) /\ Forall wf_method (cu_methods u) /\ Forall wf_pred (cu_preds u) /\ Forall wf_top (cu_stmts u).
Definition uneed (u : comp_unit) : nat :=
  max (lmax tneed (cu_types u)) (max (lmax mneed (cu_methods u)) (max (lmax pneed (cu_preds u)) (lmax sneed (cu_stmts u)))).

Theorem parse_unit u : wf_unit u -> uneed u <= MAX_DEPTH -> parse (pp_unit u) = Ok u [].
Proof.
  intros (Wt & Wm & Wp & Ws) Hd. destruct u as [ts ms ps ss]. unfold uneed in Hd. cbn [cu_types cu_methods cu_preds cu_stmts] in *.
  assert (Hs : Forall (fun s => wf_top s /\ sneed s <= MAX_DEPTH) ss) by (apply Forall_and; [exact Ws|apply lmax_all; lia]).
  assert (Hp : Forall (fun x => wf_pred x /\ bneed (p_body x) <= MAX_DEPTH) ps) by (apply Forall_and; [exact Wp|apply (lmax_all pneed); lia]).
  assert (Hm : Forall (fun x => wf_method x /\ bneed (m_body x) <= MAX_DEPTH) ms) by (apply Forall_and; [exact Wm|apply (lmax_all mneed); lia]).
  assert (Ht : Forall (fun x => tdecl_rt x /\ tneed x <= MAX_DEPTH) ts).
  { apply Forall_and; [|apply lmax_all; lia]. apply Forall_forall. intros x Hx. apply tdecl_roundtrip. rewrite Forall_forall in Wt. apply Wt. exact Hx. }
  pose proof (units_types ts _ _ _ _ _ Ht (units_methods ms _ _ _ _ _ Hm (units_preds ps _ _ _ _ _ Hp (units_stmts ss Hs)))) as H3.
  rewrite !app_nil_r in H3. apply parse_reads. exact H3.
Qed.

(* example: the hypotheses are satisfiable by a unit that uses every kind of declaration *)
Definition ex_unit : comp_unit :=
  CU [ DTypedef (la "Speed") (la "real") (ENary NAdd [ex_id "v0"; EReal (la "1") (la "5")]);
       DEnum (la "Color") [la "red"; la "green"] [[la "Other"]; [la "pkg"; la "Shade"]];
       DEnum (la "Alias") [] [[la "Color"]];
       DClass (la "Robot") [[la "Agent"]; [la "pkg"; la "Mobile"]]
         [ Field [la "real"] [(la "x", None); (la "y", Some (EInt (la "0")))];
           Field [la "pkg"; la "Arm"] [(la "left", Some (ENew [la "pkg"; la "Arm"] [ex_id "x"])); (la "right", None)] ]
         [ Ctor [([la "real"], la "x0"); ([la "Robot"], la "other")]
                [(la "x", [ex_id "x0"]); (la "Agent", []); (la "left", [ex_id "x0"; EInt (la "2")])]
                [SExpr (EBin BLeq (ex_id "x0") (EInt (la "10")))];
           Ctor [] [] [] ]
         [ Method [] (la "reset") [] [SAssign [] (la "y") (EInt (la "0"))];
           Method [la "real"] (la "dist") [([la "Robot"], la "r")]
                  [SReturn (ENary NSub [EId [la "r"; la "x"]; ex_id "x"])];
           Method [la "pkg"; la "Arm"] (la "arm") [([la "bool"], la "l")] [SReturn (ex_id "left")] ]
         [ Pred (la "At") [([la "real"], la "where")] [[la "Impulse"]]
                [SFormula false (la "g") [] (la "At") [(la "where", ex_id "x")];
                 SDisj [([SExpr (EBin BGt (ex_id "where") (EInt (la "1")))], Some (EInt (la "2")));
                        ([SExpr (EBin BLt (ex_id "where") (EInt (la "1")))], None);
                        ([], Some (EInt (la "3")))]] ]
         [ DEnum (la "Mode") [la "on"; la "off"] [];
           DClass (la "Wheel") [] [Field [la "int"] [(la "n", None)]] [] [] [] [DTypedef (la "R") (la "int") (EInt (la "4"))] ] ]
     [ Method [] (la "main") [([la "Robot"], la "r")] [SExpr (EFun [la "r"] (la "reset") [])];
       Method [la "int"] (la "two") [] [SReturn (EInt (la "2"))] ]
     [ Pred (la "Go") [] [] [];
       Pred (la "Stay") [([la "Robot"], la "r"); ([la "int"], la "k")] [[la "Interval"]; [la "pkg"; la "Q"]] [SExpr (EBool true)] ]
     ex_prog.
Example ex_unit_wf : wf_unit ex_unit.
Proof.
  unfold wf_unit, ex_unit. cbn [cu_types cu_methods cu_preds cu_stmts]. repeat split.
  1-3: repeat first [apply Forall_cons | apply Forall_nil | discriminate | exact I | (left; discriminate) | (right; discriminate) | split | progress cbn].
  pose proof ex_prog_ok as H. apply Forall_forall. intros s Hs. rewrite Forall_forall in H. apply (H s Hs).
Qed.
Example ex_unit_need : uneed ex_unit <= MAX_DEPTH.
Proof. apply Nat.leb_le. vm_compute. reflexivity. Qed.
Example ex_unit_roundtrip : parse (pp_unit ex_unit) = Ok ex_unit [].
Proof. apply parse_unit; [exact ex_unit_wf|exact ex_unit_need]. Qed.
