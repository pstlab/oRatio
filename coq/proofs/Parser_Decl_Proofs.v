(* C16: the printer/parser round trip for declarations below the class level.
   - one `*_ok` lemma per kind of declaration below the class level: "the printed text followed by anything is read
     back, with some fuel, as the tree and what followed":
       types, parameter lists, methods (void and typed), supertype lists, predicates, typedefs,
       enums (string values and references to other enums), fields (lists of variables with initialisers),
       constructors (with initialisation lists)
   Classes, class bodies and whole compilation units are in Parser_Unit_Proofs.v. *)
From Coq Require Import List Bool Arith Lia.
From ORatio Require Import lang.Token lang.Lexer lang.Ast lang.Parser lang.Printer.
From ORatio Require Import proofs.Parser_Len_Proofs proofs.Parser_Proofs proofs.Parser_Stmt_Proofs.
Import ListNotations.

Lemma p_blockS f d ts : NF (p_block f d ts) -> p_block (S f) d ts = p_block f d ts.  Proof. apply (run_mono (p_block_run f d ts)). Qed.
Lemma opt_initsS f d r : NF (match r with TColon :: r' => p_inits f d r' | _ => Ok [] r end) ->
  match r with TColon :: r' => p_inits (S f) d r' | _ => Ok [] r end = match r with TColon :: r' => p_inits f d r' | _ => Ok [] r end.
Proof. apply (run_mono (opt_inits_run f d r)). Qed.
Lemma opt_qidsS f r : NF (match r with TColon :: r' => p_qids f r' | _ => Ok [] r end) ->
  match r with TColon :: r' => p_qids (S f) r' | _ => Ok [] r end = match r with TColon :: r' => p_qids f r' | _ => Ok [] r end.
Proof. apply (run_mono (opt_qids_run f r)). Qed.
Lemma members_rbrace f d r : p_members (S f) d (TRBrace :: r) = Ok no_members r.
Proof. reflexivity. Qed.

Lemma p_params1_mono f f' ts a r : f <= f' -> p_params1 f ts = Ok a r -> p_params1 f' ts = Ok a r.
Proof. apply (mono_ok (fun f => p_params1 f ts)). intros f0. apply (run_mono (p_params1_run f0 ts)). Qed.
Lemma p_enum_alts_mono f f' ts a r : f <= f' -> p_enum_alts f ts = Ok a r -> p_enum_alts f' ts = Ok a r.
Proof. apply (mono_ok (fun f => p_enum_alts f ts)). intros f0. apply (run_mono (p_enum_alts_run f0 ts)). Qed.

Lemma type_ok q rest : q <> [] -> no_dot rest -> p_type (pp_type q ++ rest) = Ok q rest.
Proof.
  intros Hq Hn. destruct (pp_type_cases q Hq) as [(n & k & -> & -> & Hp)|(x & xs & -> & ->)].
  - cbn [app]. unfold p_type. rewrite Hp. reflexivity.
  - cbn [app]. unfold p_type. cbn [prim_name p_qid]. rewrite p_dots_pp by exact Hn. reflexivity.
Qed.

(* the first token of a printed type is a primitive keyword or an identifier *)
Definition type_head (t : token) : Prop := (exists x, t = TId x) \/ prim_name t <> None.
Lemma pp_type_head q : q <> [] -> exists t r, pp_type q = t :: r /\ type_head t.
Proof.
  intros Hq. destruct (pp_type_cases q Hq) as [(n & k & _ & -> & Hp)|(x & xs & _ & ->)].
  - exists k, []. split; [reflexivity|]. right. rewrite Hp. discriminate.
  - exists (TId x), (dots xs). split; [reflexivity|]. left. eexists. reflexivity.
Qed.

Definition pp_rtype (rt : qid) : list token := match rt with [] => [TVoid] | _ => pp_type rt end.
Lemma rtype_ok rt rest : no_dot rest -> p_rtype (pp_rtype rt ++ rest) = Ok rt rest.
Proof.
  intros Hn. destruct rt as [|x xs]; [reflexivity|]. unfold pp_rtype.
  assert (Hq : x :: xs <> []) by discriminate.
  pose proof (type_ok (x :: xs) rest Hq Hn) as H.
  destruct (pp_type_head (x :: xs) Hq) as (t & r & E & Ht). rewrite E in H |- *. cbn [app] in H |- *.
  unfold p_rtype. destruct Ht as [[y ->]|Hp]; [exact H|]. destruct t; try (destruct (Hp eq_refl)); exact H.
Qed.

Definition pp_param (p : param) : list token := pp_type (fst p) ++ [TId (snd p)].
Definition wf_params (ps : list param) : Prop := Forall (fun p : param => fst p <> []) ps.

Lemma params1_ok ps : forall p rest, wf_params (p :: ps) ->
  reads (fun f => p_params1 f (pp_param p ++ flat_map (fun y => [TComma] ++ pp_param y) ps ++ TRParen :: rest)) (p :: ps) rest.
Proof.
  induction ps as [|p2 ps IH]; intros [q n] rest HF; inversion HF as [|? ? Hp HF']; subst; unfold pp_param at 1;
    assoc_app;
    (eapply reads_S; [intros f; cbn [p_params1]; rewrite type_ok by (exact Hp || exact I); cbn [bind expect_id]; reflexivity|]).
  - apply reads_ret.
  - eapply reads_bind; [exact (IH p2 rest HF')|apply reads_ret].
Qed.

Lemma params_ok ps rest : wf_params ps -> reads (fun f => p_params f (sep_by [TComma] (map pp_param ps) ++ TRParen :: rest)) ps rest.
Proof.
  intros HF. destruct ps as [|p ps]; [exists 0; reflexivity|]. rewrite sep_by_cons, <- app_assoc.
  pose proof (params1_ok ps p rest HF) as H. inversion HF as [|? ? Hp _]; subst.
  unfold pp_param at 1 in H. unfold pp_param at 1. destruct (pp_type_head (fst p) Hp) as (t & r & E & Ht). rewrite E in H |- *.
  eapply reads_ext; [|exact H]. intros f. destruct Ht as [[y ->]|Ht]; [reflexivity|]. destruct t; try (destruct (Ht eq_refl)); reflexivity.
Qed.

Definition bneed (ss : list stmt) : nat := fold_right (fun x a => max (sneed x) a) 0 ss.
Lemma block_ok' ss d rest : Forall wf_stmt ss -> bneed ss <= d ->
  reads (fun f => p_block f d (flat_map pp_stmt ss ++ TRBrace :: rest)) ss rest.
Proof.
  intros W Hd. apply block_ok. apply stmts_pack; [|exact W|exact Hd].
  apply Forall_forall. intros s _. apply stmt_roundtrip.
Qed.

Definition wf_method (m : method_decl) : Prop := wf_params (m_pars m) /\ Forall wf_stmt (m_body m).
Lemma pp_method_eq m rest :
  pp_method m ++ rest = pp_rtype (m_rt m) ++ TId (m_name m) :: TLParen ::
     sep_by [TComma] (map pp_param (m_pars m)) ++ TRParen :: TLBrace :: flat_map pp_stmt (m_body m) ++ TRBrace :: rest.
Proof.
  unfold pp_method, pp_params, pp_block, pp_rtype. assoc_app. destruct (m_rt m); reflexivity.
Qed.
Lemma method_ok m d rest : wf_method m -> bneed (m_body m) <= d -> reads (fun f => p_method f d (pp_method m ++ rest)) m rest.
Proof.
  intros [Wp Wb] Hd. rewrite pp_method_eq. destruct m as [rt n ps ss]. cbn [m_rt m_name m_pars m_body] in *.
  eapply reads_ext; [intros f; unfold p_method; rewrite rtype_ok by exact I; cbn [bind expect_id expect_lparen]; reflexivity|].
  eapply reads_bind; [exact (params_ok ps _ Wp)|]. eapply reads_bind; [apply reads_pure; reflexivity|].
  eapply reads_bind; [exact (block_ok' ss d rest Wb Hd)|apply reads_ret].
Qed.

Definition wf_qids (qs : list qid) : Prop := Forall (fun q : qid => q <> []) qs.
Lemma qids1_ok qs : forall q rest, wf_qids (q :: qs) ->
  reads (fun f => p_qids f (pp_qid q ++ flat_map (fun y => [TComma] ++ pp_qid y) qs ++ TLBrace :: rest)) (q :: qs) (TLBrace :: rest).
Proof.
  induction qs as [|q2 qs IH]; intros q rest HF; inversion HF as [|? ? Hq HF']; subst;
    assoc_app;
    (eapply reads_S; [intros f; cbn [p_qids]; rewrite p_qid_pp by (exact Hq || exact I); cbn [bind]; reflexivity|]).
  - apply reads_ret.
  - eapply reads_bind; [exact (IH q2 rest HF')|apply reads_ret].
Qed.
Definition pp_sup (qs : list qid) : list token := match qs with [] => [] | _ => TColon :: sep_by [TComma] (map pp_qid qs) end.
Lemma opt_qids_ok qs rest : wf_qids qs ->
  reads (fun f => match pp_sup qs ++ TLBrace :: rest with TColon :: r' => p_qids f r' | _ => Ok [] (pp_sup qs ++ TLBrace :: rest) end)
        qs (TLBrace :: rest).
Proof.
  intros HF. destruct qs as [|q qs]; [exists 0; reflexivity|]. unfold pp_sup. rewrite sep_by_cons. cbn [app]. rewrite <- app_assoc.
  apply qids1_ok. exact HF.
Qed.

Definition wf_pred (p : pred_decl) : Prop := wf_params (p_pars p) /\ wf_qids (p_sup p) /\ Forall wf_stmt (p_body p).
Lemma pp_pred_eq p rest :
  pp_pred p ++ rest = TPredicate :: TId (p_name p) :: TLParen :: sep_by [TComma] (map pp_param (p_pars p)) ++ TRParen ::
     pp_sup (p_sup p) ++ TLBrace :: flat_map pp_stmt (p_body p) ++ TRBrace :: rest.
Proof.
  unfold pp_pred, pp_params, pp_block, pp_sup. assoc_app. destruct (p_sup p); reflexivity.
Qed.
Lemma pred_ok p d rest : wf_pred p -> bneed (p_body p) <= d -> reads (fun f => p_pred f d (pp_pred p ++ rest)) p rest.
Proof.
  intros (Wp & Wq & Wb) Hd. rewrite pp_pred_eq. destruct p as [n ps sup ss]. cbn [p_name p_pars p_sup p_body] in *.
  eapply reads_bind; [exact (params_ok ps _ Wp)|]. eapply reads_bind; [exact (opt_qids_ok sup _ Wq)|].
  eapply reads_bind; [apply reads_pure; reflexivity|]. eapply reads_bind; [exact (block_ok' ss d rest Wb Hd)|apply reads_ret].
Qed.

Lemma tail_ok_id n r : tail_ok 0 (TId n :: r).  Proof. cbn. repeat split; discriminate. Qed.

Lemma typedef_ok n pt e d rest : prim_token pt <> None -> wf_expr e -> hgt e <= d ->
  reads (fun f => p_typedef f (S d) (pp_type_decl (DTypedef n pt e) ++ rest)) (DTypedef n pt e) rest.
Proof.
  intros Hp W Hh. cbn [pp_type_decl]. destruct (prim_token pt) as [k|] eqn:Ek; [clear Hp|congruence].
  pose proof (prim_roundtrip pt k Ek) as Hn.
  assoc_app.
  eapply reads_ext; [intros f; unfold p_typedef; rewrite Hn; reflexivity|].
  eapply reads_bind; [exact (expr_ok e d _ W Hh (tail_ok_id n _))|apply reads_ret].
Qed.

Definition pp_strl (s : str) : list token := [TStrLit s].
Lemma strs_ok vs : forall v rest,
  p_strs (pp_strl v ++ flat_map (fun y => [TComma] ++ pp_strl y) vs ++ TRBrace :: rest) = Ok (v :: vs) rest.
Proof.
  induction vs as [|v2 vs IH]; intros v rest; unfold pp_strl at 1; cbn [app flat_map].
  - reflexivity.
  - rewrite <- app_assoc. cbn [p_strs]. rewrite IH. reflexivity.
Qed.

Lemma refs_ok qs : forall q rest, wf_qids (q :: qs) ->
  reads (fun f => p_enum_alts f (pp_qid q ++ flat_map (fun y => [TBar] ++ pp_qid y) qs ++ TSemicolon :: rest)) ([], q :: qs) (TSemicolon :: rest).
Proof.
  induction qs as [|q2 qs IH]; intros q rest HF; inversion HF as [|? ? Hq HF']; subst;
    (destruct q as [|x xs]; [congruence|]); assoc_app.
  - pose proof (p_qid_pp (x :: xs) (TSemicolon :: rest) Hq I) as E. rewrite pp_qid_cons in E |- *. cbn [app] in E |- *.
    eapply reads_S; [intros f; cbn [p_enum_alts]; rewrite E; reflexivity|]. apply reads_ret.
  - pose proof (p_qid_pp (x :: xs) (TBar :: pp_qid q2 ++ flat_map (fun y => TBar :: pp_qid y) qs ++ TSemicolon :: rest) Hq I) as E.
    rewrite pp_qid_cons in E |- *. cbn [app] in E |- *.
    eapply reads_S; [intros f; cbn [p_enum_alts]; rewrite E; cbn [bind]; reflexivity|].
    eapply reads_bind; [exact (IH q2 rest HF')|apply reads_ret].
Qed.

Definition pp_alts (vals : list str) (refs : list qid) : list token :=
  sep_by [TBar] ((match vals with [] => [] | _ => [TLBrace :: sep_by [TComma] (map pp_strl vals) ++ [TRBrace]] end) ++ map pp_qid refs).

Lemma enum_alts_ok vals refs rest : (vals <> [] \/ refs <> []) -> wf_qids refs ->
  reads (fun f => p_enum_alts f (pp_alts vals refs ++ TSemicolon :: rest)) (vals, refs) (TSemicolon :: rest).
Proof.
  intros Hne HF. unfold pp_alts. destruct vals as [|v vs].
  - destruct refs as [|q qs]; [destruct Hne; congruence|]. cbn [app]. rewrite sep_by_cons, <- app_assoc. apply refs_ok. exact HF.
  - cbn [app]. rewrite (sep_by_cons [TComma] pp_strl v vs).
    destruct refs as [|q qs].
    + cbn [map sep_by]. assoc_app.
      eapply reads_S; [intros f; cbn [p_enum_alts]; rewrite (strs_ok vs v); reflexivity|]. apply reads_ret.
    + change (map pp_qid (q :: qs)) with (pp_qid q :: map pp_qid qs). rewrite sep_by_two.
      change (pp_qid q :: map pp_qid qs) with (map pp_qid (q :: qs)). rewrite sep_by_cons.
      assoc_app.
      eapply reads_S; [intros f; cbn [p_enum_alts]; rewrite (strs_ok vs v); cbn [bind]; reflexivity|].
      eapply reads_bind; [exact (refs_ok qs q rest HF)|]. cbn [fst snd app]. rewrite app_nil_r. apply reads_ret.
Qed.

Lemma pp_enum_eq n vals refs rest :
  pp_type_decl (DEnum n vals refs) ++ rest = TEnum :: TId n :: pp_alts vals refs ++ TSemicolon :: rest.
Proof. cbn [pp_type_decl]. unfold pp_alts. assoc_app. destruct vals; reflexivity. Qed.

Lemma enum_ok n vals refs rest : (vals <> [] \/ refs <> []) -> wf_qids refs ->
  reads (fun f => p_enum f (pp_type_decl (DEnum n vals refs) ++ rest)) (DEnum n vals refs) rest.
Proof.
  intros Hne HF. rewrite pp_enum_eq. eapply reads_bind; [exact (enum_alts_ok vals refs rest Hne HF)|apply reads_ret].
Qed.

Definition vneed (vs : list (ident * option expr)) : nat := fold_right (fun v acc => max (ohgt (snd v)) acc) 0 vs.
Definition wf_field (fd : field_decl) : Prop :=
  f_tp fd <> [] /\ f_vars fd <> [] /\ Forall (fun v => wf_oexpr (snd v)) (f_vars fd).
Definition fneed (fd : field_decl) : nat := 1 + vneed (f_vars fd).

Lemma field_ok fd d rest : wf_field fd -> fneed fd <= d -> reads (fun f => p_field f d (pp_field fd ++ rest)) fd rest.
Proof.
  intros (Hq & Hv & Wv) Hd. destruct fd as [q vs]. unfold fneed in Hd. cbn [f_tp f_vars] in *. destruct d as [|d0]; [lia|].
  assert (HF : Forall (fun v => wf_oexpr (snd v) /\ ohgt (snd v) <= d0) vs).
  { apply Forall_and; [exact Wv|]. apply (fold_max_all (fun v => ohgt (snd v))). unfold vneed in Hd. lia. }
  unfold pp_field. cbn [f_tp f_vars]. assoc_app.
  eapply reads_bind; [apply reads_pure, type_ok; [exact Hq|]|].
  - destruct (vars_head vs rest Hv) as (x & t & r0 & -> & _). exact I.
  - eapply reads_bind; [exact (vars_ok vs d0 rest Hv HF)|apply reads_ret].
Qed.

Definition pp_cinit (i : ident * list expr) : list token := TId (fst i) :: TLParen :: sep_by [TComma] (map pp (snd i)) ++ [TRParen].
Definition wf_inits (il : list (ident * list expr)) : Prop := Forall (fun i => Forall wf_expr (snd i)) il.
Definition ineed (il : list (ident * list expr)) : nat := fold_right (fun i acc => max (maxl hgt (snd i)) acc) 0 il.

Lemma cargs_ok es d rest : Forall wf_expr es -> maxl hgt es <= S d -> RA (S d) (sep_by [TComma] (map pp es) ++ TRParen :: rest) es rest.
Proof.
  intros W Hh. apply args_ok. apply Forall_and3; [exact W| |apply maxl_all; exact Hh].
  apply Forall_forall. intros e He. apply expr_roundtrip_loop. rewrite Forall_forall in W. apply W. exact He.
Qed.

Lemma ineed_cons i il : ineed (i :: il) = max (maxl hgt (snd i)) (ineed il).  Proof. reflexivity. Qed.
Lemma inits1_ok il : forall i d rest, wf_inits (i :: il) -> ineed (i :: il) <= S d ->
  reads (fun f => p_inits f (S d) (pp_cinit i ++ flat_map (fun y => [TComma] ++ pp_cinit y) il ++ TLBrace :: rest)) (i :: il) (TLBrace :: rest).
Proof.
  induction il as [|i2 il IH]; intros [x es] d rest HF Hd; inversion HF as [|? ? Wi HF']; subst; rewrite ineed_cons in Hd;
    unfold pp_cinit at 1; assoc_app;
    (eapply reads_S; [intros f; cbn [p_inits]; reflexivity|]); cbn [snd] in *;
    (eapply reads_bind; [exact (cargs_ok es d _ Wi ltac:(lia))|]).
  - apply reads_ret.
  - eapply reads_bind; [exact (IH i2 d rest HF' ltac:(lia))|apply reads_ret].
Qed.

Definition pp_cinits (il : list (ident * list expr)) : list token :=
  match il with [] => [] | _ => TColon :: sep_by [TComma] (map pp_cinit il) end.
Lemma opt_inits_ok il d rest : wf_inits il -> ineed il <= S d ->
  reads (fun f => match pp_cinits il ++ TLBrace :: rest with TColon :: r' => p_inits f (S d) r' | _ => Ok [] (pp_cinits il ++ TLBrace :: rest) end)
        il (TLBrace :: rest).
Proof.
  intros HF Hd. destruct il as [|i il]; [exists 0; reflexivity|]. unfold pp_cinits. rewrite sep_by_cons. cbn [app]. rewrite <- app_assoc.
  apply inits1_ok; assumption.
Qed.

Definition wf_ctor (c : ctor_decl) : Prop := wf_params (c_pars c) /\ wf_inits (c_init c) /\ Forall wf_stmt (c_body c).
Definition cneed (c : ctor_decl) : nat := max 1 (max (ineed (c_init c)) (bneed (c_body c))).
Lemma pp_ctor_eq cn c rest :
  pp_ctor cn c ++ rest = TId cn :: TLParen :: sep_by [TComma] (map pp_param (c_pars c)) ++ TRParen ::
     pp_cinits (c_init c) ++ TLBrace :: flat_map pp_stmt (c_body c) ++ TRBrace :: rest.
Proof.
  unfold pp_ctor, pp_params, pp_block, pp_cinits. assoc_app. destruct (c_init c); reflexivity.
Qed.
Lemma ctor_ok cn c d rest : wf_ctor c -> cneed c <= d -> reads (fun f => p_ctor f d (pp_ctor cn c ++ rest)) c rest.
Proof.
  intros (Wp & Wi & Wb) Hd. rewrite pp_ctor_eq. destruct c as [ps il ss]. unfold cneed in Hd. cbn [c_pars c_init c_body] in *.
  destruct d as [|d0]; [lia|].
  eapply reads_ext; [intros f; unfold p_ctor; cbn [expect_id bind expect_lparen]; reflexivity|].
  eapply reads_bind; [exact (params_ok ps _ Wp)|]. eapply reads_bind; [exact (opt_inits_ok il d0 _ Wi ltac:(lia))|].
  eapply reads_bind; [apply reads_pure; reflexivity|]. eapply reads_bind; [exact (block_ok' ss (S d0) rest Wb ltac:(lia))|apply reads_ret].
Qed.
