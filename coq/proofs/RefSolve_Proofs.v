(* C02 -- proofs about the reference decision procedure of plan/RefSolve.v:
     - linear expressions: evaluation commutes with scale / add / normalise / variable removal;
     - Fourier-Motzkin with strict and non-strict constraints and redundancy removal: fm_solve_none (no solution) and
       fm_solve_some (the returned valuation is a solution) -- both directions, any number of variables and constraints;
     - three-valued evaluation of formulas is sound w.r.t. every model that agrees with the partial assignment, and
       two-valued once all keys of the formula are assigned;
     - the search: ref_solve_sat, ref_solve_unsat, ref_solve_decides;
     - Examples: the procedure answers Sat and Unsat on concrete boundary problems (non-vacuity). *)
From Coq Require Import List QArith Lia Lqa.
From ORatio Require Import plan.RefSolve.
Import ListNotations.
Local Open Scope Q_scope.

Lemma eval_terms_app v a b : eval_terms v (a ++ b) == eval_terms v a + eval_terms v b.
Proof.
  induction a as [|[y d] r IH]; cbn [eval_terms app].
  - ring.
  - rewrite IH. ring.
Qed.

Lemma eval_scale_terms v k ts : eval_terms v (scale_terms k ts) == k * eval_terms v ts.
Proof.
  induction ts as [|[y d] r IH]; cbn [eval_terms scale_terms map fst snd].
  - ring.
  - fold (scale_terms k r). rewrite IH. ring.
Qed.

Lemma eval_lin_scale v k l : eval_lin v (lin_scale k l) == k * eval_lin v l.
Proof. unfold eval_lin, lin_scale; cbn [l_terms l_const]. rewrite eval_scale_terms. ring. Qed.

Lemma eval_lin_add v a b : eval_lin v (lin_add a b) == eval_lin v a + eval_lin v b.
Proof. unfold eval_lin, lin_add; cbn [l_terms l_const]. rewrite eval_terms_app. ring. Qed.

Lemma eval_lin_neg v l : eval_lin v (lin_neg l) == - eval_lin v l.
Proof. unfold lin_neg. rewrite eval_lin_scale. ring. Qed.

Lemma eval_split x v ts : eval_terms v ts == coeff x ts * v x + eval_terms v (remove_var x ts).
Proof.
  induction ts as [|[y d] r IH]; cbn [eval_terms coeff remove_var filter fst].
  - ring.
  - fold (remove_var x r). destruct (Nat.eqb x y) eqn:E; cbn [negb eval_terms].
    + apply Nat.eqb_eq in E; subst y. rewrite IH. ring.
    + rewrite IH. ring.
Qed.

Lemma eval_lin_split x v l : eval_lin v l == coeff x (l_terms l) * v x + eval_lin v (rest_lin x l).
Proof. unfold eval_lin, rest_lin; cbn [l_terms l_const]. rewrite (eval_split x v (l_terms l)). ring. Qed.

Lemma eval_add_term v x c ts : eval_terms v (add_term x c ts) == c * v x + eval_terms v ts.
Proof.
  induction ts as [|[y d] r IH]; cbn [eval_terms add_term].
  - ring.
  - destruct (Nat.eqb x y) eqn:E; cbn [eval_terms].
    + apply Nat.eqb_eq in E; subst y. ring.
    + destruct (Nat.ltb x y); cbn [eval_terms]; [ring|rewrite IH; ring].
Qed.

Lemma eval_norm_terms v ts : eval_terms v (norm_terms ts) == eval_terms v ts.
Proof.
  induction ts as [|[y d] r IH]; cbn [eval_terms norm_terms].
  - reflexivity.
  - rewrite eval_add_term, IH. reflexivity.
Qed.

Lemma eval_red_terms v ts : eval_terms v (red_terms ts) == eval_terms v ts.
Proof.
  induction ts as [|[y d] r IH]; cbn [eval_terms red_terms map fst snd].
  - reflexivity.
  - fold (red_terms r). rewrite IH, Qred_correct. reflexivity.
Qed.

Lemma eval_drop_zero v ts : eval_terms v (drop_zero ts) == eval_terms v ts.
Proof.
  induction ts as [|[y d] r IH]; cbn [eval_terms drop_zero filter snd].
  - reflexivity.
  - fold (drop_zero r). destruct (Qeq_bool d 0) eqn:E; cbn [negb eval_terms].
    + apply Qeq_bool_eq in E. rewrite IH, E. ring.
    + rewrite IH. reflexivity.
Qed.

Lemma eval_lin_norm v l : eval_lin v (lin_norm l) == eval_lin v l.
Proof.
  unfold eval_lin, lin_norm; cbn [l_terms l_const].
  rewrite eval_drop_zero, eval_red_terms, eval_norm_terms, Qred_correct. reflexivity.
Qed.

Lemma remove_var_not_in x ts : ~ In x (term_vars (remove_var x ts)).
Proof.
  unfold term_vars, remove_var. intro H. apply in_map_iff in H. destruct H as [[y d] [E H]].
  apply filter_In in H. destruct H as [_ H]. cbn in *. subst y. rewrite Nat.eqb_refl in H. discriminate.
Qed.

Lemma remove_var_incl x ts : incl (term_vars (remove_var x ts)) (term_vars ts).
Proof. apply incl_map, incl_filter. Qed.

Lemma scale_terms_vars k ts : term_vars (scale_terms k ts) = term_vars ts.
Proof. apply map_map. Qed.

Lemma add_term_vars x c ts : incl (term_vars (add_term x c ts)) (x :: term_vars ts).
Proof.
  induction ts as [|[y d] r IH]; cbn [add_term term_vars map fst].
  - apply incl_refl.
  - destruct (Nat.eqb x y) eqn:E; cbn [map fst].
    + apply incl_tl, incl_refl.
    + destruct (Nat.ltb x y); cbn [map fst].
      * apply incl_refl.
      * intros z [Hz|Hz]; [right; left; exact Hz|].
        destruct (IH z Hz) as [Hz'|Hz']; [left; exact Hz'|right; right; exact Hz'].
Qed.

Lemma norm_terms_vars ts : incl (term_vars (norm_terms ts)) (term_vars ts).
Proof.
  induction ts as [|[y d] r IH]; cbn [norm_terms term_vars map fst].
  - apply incl_refl.
  - intros z Hz. destruct (add_term_vars y d _ z Hz) as [Hz'|Hz']; [left; exact Hz'|right; exact (IH z Hz')].
Qed.

Lemma red_terms_vars ts : term_vars (red_terms ts) = term_vars ts.
Proof. apply map_map. Qed.

Lemma drop_zero_vars ts : incl (term_vars (drop_zero ts)) (term_vars ts).
Proof. apply incl_map, incl_filter. Qed.

Lemma term_vars_app a b : term_vars (a ++ b) = term_vars a ++ term_vars b.
Proof. apply map_app. Qed.

Lemma lin_norm_vars l : incl (term_vars (l_terms (lin_norm l))) (term_vars (l_terms l)).
Proof.
  unfold lin_norm; cbn [l_terms]. apply (incl_tran (drop_zero_vars _)). rewrite red_terms_vars. apply norm_terms_vars.
Qed.

Lemma eval_terms_upd v x q ts : ~ In x (term_vars ts) -> eval_terms (upd_val v x q) ts == eval_terms v ts.
Proof.
  induction ts as [|[y d] r IH]; cbn [eval_terms term_vars map fst]; intro H.
  - reflexivity.
  - unfold upd_val at 1. destruct (Nat.eqb x y) eqn:E.
    + apply Nat.eqb_eq in E. exfalso. apply H. left. auto.
    + rewrite IH; [reflexivity|]. intro H'. apply H. right. exact H'.
Qed.

Lemma Qle_bool_false q r : Qle_bool q r = false <-> r < q.
Proof.
  split; intro H.
  - apply Qnot_le_lt. intro H'. apply Qle_bool_iff in H'. congruence.
  - destruct (Qle_bool q r) eqn:E; [|reflexivity]. apply Qle_bool_iff in E. lra.
Qed.

Lemma Qle_bool_antisym p q : Qle_bool p q && Qle_bool q p = true <-> p == q.
Proof. rewrite andb_true_iff, !Qle_bool_iff. split; intro H; [lra|split; lra]. Qed.

Definition rel (s : bool) (q : Q) : Prop := if s then q < 0 else q <= 0.
Definition lt_or_le (s : bool) (p q : Q) : Prop := if s then p < q else p <= q.

#[local] Instance rel_proper s : Proper (Qeq ==> iff) (rel s).
Proof. intros q q' E. destruct s; cbn; rewrite E; reflexivity. Qed.

#[local] Instance lt_or_le_proper s : Proper (Qeq ==> Qeq ==> iff) (lt_or_le s).
Proof. intros p p' E1 q q' E2. destruct s; cbn; rewrite E1, E2; reflexivity. Qed.

Lemma rel_diff s p q : lt_or_le s p q <-> rel s (p - q).
Proof. destruct s; cbn; split; intro H; lra. Qed.

Lemma lt_or_le_orb s s' p q : lt_or_le (s || s') p q -> lt_or_le s p q /\ lt_or_le s' p q.
Proof. destruct s, s'; cbn; intro H; split; lra. Qed.

Lemma rel_scale s k q : 0 < k -> (rel s (k * q) <-> rel s q).
Proof.
  intro Hk. destruct s; cbn [rel].
  - rewrite <- (Qmult_lt_l q 0 k Hk). setoid_replace (k * 0) with 0 by ring. reflexivity.
  - rewrite <- (Qmult_le_l q 0 k Hk). setoid_replace (k * 0) with 0 by ring. reflexivity.
Qed.

Lemma csat_rel v c : csat v c = rel (c_strict c) (eval_lin v (c_lin c)).
Proof. reflexivity. Qed.

Lemma csat_cnorm v c : csat v (cnorm c) <-> csat v c.
Proof. rewrite !csat_rel. unfold cnorm; cbn [c_lin c_strict]. rewrite eval_lin_norm. reflexivity. Qed.

Lemma csat_all_cons v c cs : csat_all v (c :: cs) <-> csat v c /\ csat_all v cs.
Proof.
  split.
  - intro H. split; [apply H; left; reflexivity|]. intros e He. apply H. right. exact He.
  - intros [A B] e [<-|He]; [exact A|exact (B e He)].
Qed.

Lemma is_lower_spec x c : is_lower x c = true <-> cx x c < 0.
Proof. unfold is_lower. rewrite negb_true_iff. apply Qle_bool_false. Qed.
Lemma is_upper_spec x c : is_upper x c = true <-> 0 < cx x c.
Proof. unfold is_upper. rewrite negb_true_iff. apply Qle_bool_false. Qed.
Lemma is_free_spec x c : is_free x c = true <-> cx x c == 0.
Proof. unfold is_free. rewrite Qle_bool_antisym. split; apply Qeq_sym. Qed.
Lemma sign_cases x c : is_lower x c = true \/ is_upper x c = true \/ is_free x c = true.
Proof.
  rewrite is_lower_spec, is_upper_spec, is_free_spec.
  destruct (Qlt_le_dec (cx x c) 0) as [H|H]; [left; exact H|].
  destruct (Qlt_le_dec 0 (cx x c)) as [H'|H']; [right; left; exact H'|]. right; right. lra.
Qed.

Lemma eval_bound x v c : eval_lin v (bound x c) == / (- cx x c) * eval_lin v (rest_lin x (c_lin c)).
Proof. unfold bound. apply eval_lin_scale. Qed.

(* a*X + R (<|<=) 0 with a <> 0, multiplied by 1/|a|, is  R/(-a) (<|<=) X  resp.  X (<|<=) R/(-a) *)
Lemma lower_csat x v c : cx x c < 0 -> (csat v c <-> lt_or_le (c_strict c) (eval_lin v (bound x c)) (v x)).
Proof.
  intro Ha. rewrite csat_rel, rel_diff.
  rewrite <- (rel_scale _ (/ (- cx x c)) (eval_lin v (c_lin c))) by (apply Qinv_lt_0_compat; lra).
  rewrite eval_bound, (eval_lin_split x v (c_lin c)). fold (cx x c). apply rel_proper. field. lra.
Qed.

Lemma upper_csat x v c : 0 < cx x c -> (csat v c <-> lt_or_le (c_strict c) (v x) (eval_lin v (bound x c))).
Proof.
  intro Ha. rewrite csat_rel, rel_diff.
  rewrite <- (rel_scale _ (/ cx x c) (eval_lin v (c_lin c))) by (apply Qinv_lt_0_compat; exact Ha).
  rewrite eval_bound, (eval_lin_split x v (c_lin c)). fold (cx x c). apply rel_proper. field. lra.
Qed.

Lemma free_csat x v c : cx x c == 0 -> (csat v c <-> csat v (mkC (rest_lin x (c_lin c)) (c_strict c))).
Proof.
  intro Ha. rewrite !csat_rel; cbn [c_lin c_strict]. rewrite (eval_lin_split x v (c_lin c)). fold (cx x c).
  apply rel_proper. rewrite Ha. ring.
Qed.

Lemma eval_rest_upd x v q l : eval_lin (upd_val v x q) (rest_lin x l) == eval_lin v (rest_lin x l).
Proof.
  unfold eval_lin, rest_lin; cbn [l_terms l_const]. rewrite eval_terms_upd; [reflexivity|apply remove_var_not_in].
Qed.

Lemma csat_rest_upd x v q l s : csat (upd_val v x q) (mkC (rest_lin x l) s) <-> csat v (mkC (rest_lin x l) s).
Proof. rewrite !csat_rel; cbn [c_lin c_strict]. rewrite eval_rest_upd. reflexivity. Qed.

Lemma eval_bound_upd x v q c : eval_lin (upd_val v x q) (bound x c) == eval_lin v (bound x c).
Proof. rewrite !eval_bound, eval_rest_upd. reflexivity. Qed.

Lemma upd_val_same v x q : upd_val v x q x = q.
Proof. unfold upd_val. rewrite Nat.eqb_refl. reflexivity. Qed.

Lemma const_ok_spec c : const_ok c = true <-> rel (c_strict c) (l_const (c_lin c)).
Proof.
  unfold const_ok. destruct (c_strict c); cbn [rel].
  - rewrite negb_true_iff. apply Qle_bool_false.
  - apply Qle_bool_iff.
Qed.

Lemma ground_csat v c : is_ground c = true -> (csat v c <-> const_ok c = true).
Proof.
  unfold is_ground. rewrite csat_rel, const_ok_spec. unfold eval_lin.
  destruct (l_terms (c_lin c)); [intros _|discriminate]. apply rel_proper. cbn [eval_terms]. ring.
Qed.

Lemma trivial_csat v c : trivial c = true -> csat v c.
Proof. unfold trivial. rewrite andb_true_iff. intros [G K]. apply (ground_csat v c G). exact K. Qed.

Lemma absurd_not_csat v c : absurd c = true -> ~ csat v c.
Proof.
  unfold absurd. rewrite andb_true_iff, negb_true_iff. intros [G K] H. apply (ground_csat v c G) in H. congruence.
Qed.

Lemma combine_csat x v lo up :
  csat v (combine x lo up) <-> lt_or_le (c_strict lo || c_strict up) (eval_lin v (bound x lo)) (eval_lin v (bound x up)).
Proof.
  rewrite csat_rel, rel_diff. unfold combine; cbn [c_lin c_strict]. apply rel_proper.
  rewrite eval_lin_norm, eval_lin_add, eval_lin_neg. ring.
Qed.

(* what elim_raw x cs keeps, apart from the trivial constraints it drops *)
Inductive derived (x : var) (cs : list constr) : constr -> Prop :=
| derived_free c : In c cs -> is_free x c = true -> derived x cs (cnorm (mkC (rest_lin x (c_lin c)) (c_strict c)))
| derived_pair lo up : In lo cs -> is_lower x lo = true -> In up cs -> is_upper x up = true -> derived x cs (combine x lo up).

Lemma in_elim_raw x cs c' : In c' (elim_raw x cs) <-> derived x cs c' /\ trivial c' = false.
Proof.
  unfold elim_raw. rewrite filter_In, negb_true_iff, in_app_iff, in_map_iff, in_flat_map.
  split; intros [H T]; (split; [|exact T]).
  - destruct H as [[c [<- Hc]]|[lo [Hlo Hin]]].
    + apply filter_In in Hc. destruct Hc. apply derived_free; assumption.
    + apply in_map_iff in Hin. destruct Hin as [up [<- Hup]]. apply filter_In in Hlo, Hup. destruct Hlo, Hup.
      apply derived_pair; assumption.
  - destruct H as [c Hc Hf|lo up Hlo Ll Hup Uu].
    + left. exists c. split; [reflexivity|apply filter_In; auto].
    + right. exists lo. split; [apply filter_In; auto|]. apply in_map, filter_In. auto.
Qed.

Lemma elim_raw_sound x v cs : csat_all v cs -> csat_all v (elim_raw x cs).
Proof.
  intros H c' Hin. apply in_elim_raw in Hin. destruct Hin as [[c Hc Hf|lo up Hlo Ll Hup Uu] _].
  - apply csat_cnorm, (free_csat x v c (proj1 (is_free_spec x c) Hf)), H, Hc.
  - apply combine_csat. apply is_lower_spec in Ll. apply is_upper_spec in Uu.
    pose proof (proj1 (lower_csat x v lo Ll) (H lo Hlo)) as A.
    pose proof (proj1 (upper_csat x v up Uu) (H up Hup)) as B.
    destruct (c_strict lo), (c_strict up); cbn [orb lt_or_le] in *; lra.
Qed.

Lemma maxQ_spec l : match maxQ l with Some m => In m l /\ (forall q, In q l -> q <= m) | None => l = [] end.
Proof.
  induction l as [|q r IH]; cbn [maxQ]; [reflexivity|]. destruct (maxQ r) as [m|].
  - destruct IH as [I A]. destruct (Qle_bool m q) eqn:L.
    + apply Qle_bool_iff in L. split; [left; reflexivity|]. intros q' [<-|Hq]; [lra|]. specialize (A q' Hq). lra.
    + apply Qle_bool_false in L. split; [right; exact I|]. intros q' [<-|Hq]; [lra|exact (A q' Hq)].
  - subst r. split; [left; reflexivity|]. intros q' [<-|[]]. lra.
Qed.

Lemma minQ_spec l : match minQ l with Some m => In m l /\ (forall q, In q l -> m <= q) | None => l = [] end.
Proof.
  induction l as [|q r IH]; cbn [minQ]; [reflexivity|]. destruct (minQ r) as [m|].
  - destruct IH as [I A]. destruct (Qle_bool q m) eqn:L.
    + apply Qle_bool_iff in L. split; [left; reflexivity|]. intros q' [<-|Hq]; [lra|]. specialize (A q' Hq). lra.
    + apply Qle_bool_false in L. split; [right; exact I|]. intros q' [<-|Hq]; [lra|exact (A q' Hq)].
  - subst r. split; [left; reflexivity|]. intros q' [<-|[]]. lra.
Qed.

(* the arithmetic of pick: l is the greatest lower bound (h the least upper one), hi (lo) the bound of the other side if any *)
Lemma above_ok s a l hi :
  a <= l -> (forall h, hi = Some h -> lt_or_le s a h) ->
  lt_or_le s a match hi with Some h => (l + h) * (1 # 2) | None => l + 1 end.
Proof.
  intros A H. destruct hi as [h|]; [specialize (H h eq_refl)|]; destruct s; cbn [lt_or_le] in *; lra.
Qed.

Lemma below_ok s b h lo :
  h <= b -> (forall l, lo = Some l -> lt_or_le s l b) ->
  lt_or_le s match lo with Some l => (l + h) * (1 # 2) | None => h - 1 end b.
Proof.
  intros A H. destruct lo as [l|]; [specialize (H l eq_refl)|]; destruct s; cbn [lt_or_le] in *; lra.
Qed.

Lemma pick_ok x v cs :
  (forall lo up, In lo cs -> is_lower x lo = true -> In up cs -> is_upper x up = true ->
     lt_or_le (c_strict lo || c_strict up) (eval_lin v (bound x lo)) (eval_lin v (bound x up))) ->
  (forall lo, In lo cs -> is_lower x lo = true -> lt_or_le (c_strict lo) (eval_lin v (bound x lo)) (pick x v cs)) /\
  (forall up, In up cs -> is_upper x up = true -> lt_or_le (c_strict up) (pick x v cs) (eval_lin v (bound x up))).
Proof.
  intro P. unfold pick. set (B := fun c => eval_lin v (bound x c)). setoid_rewrite Qred_correct.
  pose proof (maxQ_spec (map B (filter (is_lower x) cs))) as HL.
  pose proof (minQ_spec (map B (filter (is_upper x) cs))) as HU.
  split.
  - intros lo H1 H2. assert (I : In (B lo) (map B (filter (is_lower x) cs))) by (apply in_map, filter_In; auto).
    destruct (maxQ (map B (filter (is_lower x) cs))) as [l|]; [|rewrite HL in I; destruct I].
    apply above_ok; [exact (proj2 HL _ I)|]. intros h E. rewrite E in HU.
    (* the least upper bound is that of some up0 *)
    destruct HU as [MU _]. apply in_map_iff in MU. destruct MU as [up0 [<- MU]]. apply filter_In in MU.
    exact (proj1 (lt_or_le_orb _ _ _ _ (P lo up0 H1 H2 (proj1 MU) (proj2 MU)))).
  - intros up H1 H2. assert (I : In (B up) (map B (filter (is_upper x) cs))) by (apply in_map, filter_In; auto).
    destruct (minQ (map B (filter (is_upper x) cs))) as [h|]; [|rewrite HU in I; destruct I].
    apply below_ok; [exact (proj2 HU _ I)|]. intros l E. rewrite E in HL.
    destruct HL as [ML _]. apply in_map_iff in ML. destruct ML as [lo0 [<- ML]]. apply filter_In in ML.
    exact (proj2 (lt_or_le_orb _ _ _ _ (P lo0 up (proj1 ML) (proj2 ML) H1 H2))).
Qed.

Lemma elim_raw_complete x v cs : csat_all v (elim_raw x cs) -> csat_all (upd_val v x (pick x v cs)) cs.
Proof.
  intro H.
  assert (D : forall c', derived x cs c' -> csat v c').
  { intros c' Hd. destruct (trivial c') eqn:T; [exact (trivial_csat v c' T)|]. apply H, in_elim_raw. split; assumption. }
  destruct (pick_ok x v cs) as [PL PU].
  { intros lo up Hlo Ll Hup Uu. apply (proj1 (combine_csat x v lo up)), D, derived_pair; assumption. }
  intros c Hc. destruct (sign_cases x c) as [S|[S|S]].
  - apply (lower_csat x _ c (proj1 (is_lower_spec x c) S)). rewrite upd_val_same, eval_bound_upd. exact (PL c Hc S).
  - apply (upper_csat x _ c (proj1 (is_upper_spec x c) S)). rewrite upd_val_same, eval_bound_upd. exact (PU c Hc S).
  - apply (free_csat x _ c (proj1 (is_free_spec x c) S)), csat_rest_upd, (proj1 (csat_cnorm v _)), D, derived_free; assumption.
Qed.

Definition vars_in (cs : list constr) (xs : list var) : Prop :=
  forall c, In c cs -> incl (term_vars (l_terms (c_lin c))) xs.

Lemma rest_vars x xs ts y : incl (term_vars ts) (x :: xs) -> In y (term_vars (remove_var x ts)) -> In y xs.
Proof.
  intros I H. destruct (I y (remove_var_incl x ts y H)) as [E|E]; [|exact E].
  subst y. exfalso. exact (remove_var_not_in x ts H).
Qed.

Lemma bound_vars x xs c y : incl (term_vars (l_terms (c_lin c))) (x :: xs) -> In y (term_vars (l_terms (bound x c))) -> In y xs.
Proof.
  intros I H. unfold bound, lin_scale, rest_lin in H; cbn [l_terms] in H. rewrite scale_terms_vars in H.
  exact (rest_vars x xs _ y I H).
Qed.

Lemma elim_raw_vars x xs cs : vars_in cs (x :: xs) -> vars_in (elim_raw x cs) xs.
Proof.
  intros V c' Hin. apply in_elim_raw in Hin. destruct Hin as [[c Hc _|lo up Hlo _ Hup _] _]; intros y Hy.
  - unfold cnorm in Hy; cbn [c_lin] in Hy. apply lin_norm_vars in Hy. exact (rest_vars x xs _ y (V c Hc) Hy).
  - unfold combine in Hy; cbn [c_lin] in Hy. apply lin_norm_vars in Hy. unfold lin_add in Hy; cbn [l_terms] in Hy.
    rewrite term_vars_app in Hy. apply in_app_or in Hy. destruct Hy as [Hy|Hy].
    + exact (bound_vars x xs lo y (V lo Hlo) Hy).
    + unfold lin_neg, lin_scale in Hy; cbn [l_terms] in Hy. rewrite scale_terms_vars in Hy.
      exact (bound_vars x xs up y (V up Hup) Hy).
Qed.

Lemma unit_scale_csat v c : csat v (unit_scale c) <-> csat v c.
Proof.
  unfold unit_scale. destruct (l_terms (c_lin c)) as [|[x a] r] eqn:T; [reflexivity|].
  destruct (Qle_bool a 0 && Qle_bool 0 a) eqn:Z; [reflexivity|].
  rewrite !csat_rel; cbn [c_lin c_strict]. rewrite eval_lin_norm, eval_lin_scale. apply rel_scale.
  destruct (Qle_bool 0 a) eqn:P; apply Qinv_lt_0_compat.
  - destruct (Qle_bool a 0) eqn:N; [discriminate|]. apply Qle_bool_false in N. exact N.
  - apply Qle_bool_false in P. lra.
Qed.

Lemma unit_scale_vars c : incl (term_vars (l_terms (c_lin (unit_scale c)))) (term_vars (l_terms (c_lin c))).
Proof.
  unfold unit_scale. destruct (l_terms (c_lin c)) as [|[x a] r] eqn:T; [rewrite T; apply incl_refl|].
  destruct (Qle_bool a 0 && Qle_bool 0 a); [rewrite T; apply incl_refl|]. cbn [c_lin].
  intros y Hy. apply lin_norm_vars in Hy. unfold lin_scale in Hy; cbn [l_terms] in Hy. rewrite scale_terms_vars, T in Hy. exact Hy.
Qed.

Lemma same_terms_eval v a : forall b, same_terms a b = true -> eval_terms v a == eval_terms v b.
Proof.
  induction a as [|[x c] a IH]; destruct b as [|[y d] b]; cbn [same_terms eval_terms]; try discriminate; [reflexivity|].
  rewrite !andb_true_iff. intros [[E1 E2] E3]. apply Nat.eqb_eq in E1. subst y. apply Qeq_bool_eq in E2.
  rewrite (IH b E3), E2. reflexivity.
Qed.

Lemma tighter_implies v c1 c2 :
  eval_terms v (l_terms (c_lin c1)) == eval_terms v (l_terms (c_lin c2)) -> tighter c1 c2 = true -> csat v c1 -> csat v c2.
Proof.
  intros E T. rewrite !csat_rel. unfold eval_lin. rewrite E. unfold tighter in T.
  destruct (Qle_bool (l_const (c_lin c1)) (l_const (c_lin c2))) eqn:L.
  - apply andb_true_iff in T. destruct T as [T1 T2]. apply Qle_bool_iff in L. apply Qle_bool_iff in T1.
    destruct (c_strict c1), (c_strict c2); cbn [rel orb negb] in *; try discriminate; intro H; lra.
  - apply Qle_bool_false in L. destruct (c_strict c1), (c_strict c2); cbn [rel]; intro H; lra.
Qed.

Lemma tighter_total c d : tighter d c = false -> tighter c d = true.
Proof.
  unfold tighter. destruct (Qle_bool (l_const (c_lin d)) (l_const (c_lin c))) eqn:L; [|discriminate].
  intro H. destruct (Qle_bool (l_const (c_lin c)) (l_const (c_lin d))) eqn:L'; [|reflexivity].
  cbn [andb] in *. destruct (c_strict d), (c_strict c); cbn in *; try discriminate; reflexivity.
Qed.

Lemma insert_incl c acc : incl (insert_c c acc) (c :: acc).
Proof.
  induction acc as [|d r IH]; cbn [insert_c]; [apply incl_refl|].
  destruct (same_terms (l_terms (c_lin c)) (l_terms (c_lin d))); [destruct (tighter d c)|].
  - apply incl_tl, incl_refl.
  - intros e [<-|H]; [left; reflexivity|right; right; exact H].
  - intros e [<-|H]; [right; left; reflexivity|]. destruct (IH e H) as [<-|H']; [left; reflexivity|right; right; exact H'].
Qed.

(* insert_c c acc drops c or one constraint of acc only when another one with the same linear part implies it *)
Lemma insert_sat v c acc : csat_all v (insert_c c acc) <-> csat_all v (c :: acc).
Proof.
  split; [|intros H e He; apply H, insert_incl, He].
  induction acc as [|d r IH]; cbn [insert_c]; [exact (fun H => H)|].
  destruct (same_terms (l_terms (c_lin c)) (l_terms (c_lin d))) eqn:ST.
  - pose proof (same_terms_eval v _ _ ST) as E. destruct (tighter d c) eqn:T; rewrite !csat_all_cons.
    + intros [Hd Hr]. split; [|split; assumption]. exact (tighter_implies v d c (Qeq_sym _ _ E) T Hd).
    + intros [Hc Hr]. split; [exact Hc|]. split; [|exact Hr]. exact (tighter_implies v c d E (tighter_total c d T) Hc).
  - rewrite !csat_all_cons. intros [Hd H]. apply IH, csat_all_cons in H. destruct H as [Hc Hr]. auto.
Qed.

Lemma simplify_sat v cs : csat_all v (simplify cs) <-> csat_all v cs.
Proof.
  unfold simplify. induction cs as [|c cs IH]; cbn [map fold_right]; [reflexivity|].
  rewrite insert_sat, !csat_all_cons, unit_scale_csat, IH. reflexivity.
Qed.

Lemma simplify_vars cs xs : vars_in cs xs -> vars_in (simplify cs) xs.
Proof.
  unfold simplify. induction cs as [|c cs IH]; cbn [map fold_right]; intros V e He; [destruct He|].
  destruct (insert_incl _ _ e He) as [<-|He'].
  - apply (incl_tran (unit_scale_vars c)), V. left. reflexivity.
  - apply IH; [|exact He']. intros c' Hc'. apply V. right. exact Hc'.
Qed.

Lemma elim_sound x v cs : csat_all v cs -> csat_all v (elim x cs).
Proof. intro H. unfold elim. apply simplify_sat. apply elim_raw_sound. exact H. Qed.

Lemma elim_complete x v cs : csat_all v (elim x cs) -> csat_all (upd_val v x (pick x v cs)) cs.
Proof. intro H. apply elim_raw_complete. apply (proj1 (simplify_sat v _)). exact H. Qed.

Lemma elim_vars x xs cs : vars_in cs (x :: xs) -> vars_in (elim x cs) xs.
Proof. intro V. unfold elim. apply simplify_vars. apply elim_raw_vars. exact V. Qed.

Lemma vars_in_nil_ground cs c : vars_in cs [] -> In c cs -> is_ground c = true.
Proof.
  intros V Hc. specialize (V c Hc). unfold is_ground. destruct (l_terms (c_lin c)) as [|[y d] r]; [reflexivity|].
  exfalso. exact (V y (or_introl eq_refl)).
Qed.

Lemma no_absurd v cs : csat_all v cs -> existsb absurd cs = false.
Proof.
  intro S. destruct (existsb absurd cs) eqn:A; [|reflexivity].
  apply existsb_exists in A. destruct A as [c [Hc A]]. destruct (absurd_not_csat v c A (S c Hc)).
Qed.

Lemma fm_none xs : forall cs, vars_in cs xs -> fm xs cs = None -> forall v, ~ csat_all v cs.
Proof.
  induction xs as [|x xs IH]; intros cs V F v S; cbn [fm] in F; rewrite (no_absurd v cs S) in F.
  - (* no variable left: a satisfied constraint is trivial *)
    assert (T : forallb trivial cs = true).
    { apply forallb_forall. intros c Hc. pose proof (vars_in_nil_ground cs c V Hc) as G. unfold trivial. rewrite G.
      apply (ground_csat v c G). exact (S c Hc). }
    rewrite T in F. discriminate.
  - destruct (fm xs (elim x cs)) as [v0|] eqn:E; [discriminate|].
    exact (IH (elim x cs) (elim_vars x xs cs V) E v (elim_sound x v cs S)).
Qed.

Lemma fm_some xs : forall cs v, vars_in cs xs -> fm xs cs = Some v -> csat_all v cs.
Proof.
  induction xs as [|x xs IH]; intros cs v V F; cbn [fm] in F.
  - destruct (existsb absurd cs); [discriminate|]. destruct (forallb trivial cs) eqn:T; [|discriminate].
    intros c Hc. apply trivial_csat. rewrite forallb_forall in T. exact (T c Hc).
  - destruct (existsb absurd cs); [discriminate|]. destruct (fm xs (elim x cs)) as [v0|] eqn:E; [|discriminate].
    injection F as F. subst v. apply elim_complete. exact (IH (elim x cs) v0 (elim_vars x xs cs V) E).
Qed.

Lemma cs_vars_in cs : vars_in cs (cs_vars cs).
Proof.
  intros c Hc y Hy. unfold cs_vars. apply nodup_In. apply in_flat_map. exists c. auto.
Qed.

Lemma csat_all_map_cnorm v cs : csat_all v (map cnorm cs) <-> csat_all v cs.
Proof.
  split; intros H c Hc.
  - apply (proj1 (csat_cnorm v c)), H, in_map, Hc.
  - apply in_map_iff in Hc. destruct Hc as [c0 [<- Hc]]. apply (proj2 (csat_cnorm v c0)), H, Hc.
Qed.

Theorem fm_solve_none cs : fm_solve cs = None -> forall v, ~ csat_all v cs.
Proof.
  unfold fm_solve. intros F v S. apply (fm_none _ _ (cs_vars_in (simplify (map cnorm cs))) F v).
  apply simplify_sat. apply csat_all_map_cnorm. exact S.
Qed.

Theorem fm_solve_some cs v : fm_solve cs = Some v -> csat_all v cs.
Proof.
  unfold fm_solve. intro F. apply csat_all_map_cnorm. apply (proj1 (simplify_sat v _)).
  exact (fm_some _ _ v (cs_vars_in (simplify (map cnorm cs))) F).
Qed.

(* form is a nested type (lists of formulas): the induction principle with Forall is written by hand *)
Section FormInd.
  Variable P : form -> Prop.
  Hypothesis HT : P FTrue.
  Hypothesis HF : P FFalse.
  Hypothesis HB : forall b, P (FBool b).
  Hypothesis HC : forall c e, P (FCmp c e).
  Hypothesis HN : forall f, P f -> P (FNot f).
  Hypothesis HA : forall fs, Forall P fs -> P (FAnd fs).
  Hypothesis HO : forall fs, Forall P fs -> P (FOr fs).
  Hypothesis HX : forall fs, Forall P fs -> P (FXor fs).
  Hypothesis HI : forall f g, P f -> P g -> P (FImp f g).
  Hypothesis HQ : forall f g, P f -> P g -> P (FIff f g).
  Fixpoint form_ind' (f : form) : P f :=
    let go := fix go (l : list form) : Forall P l :=
                match l with [] => Forall_nil P | x :: r => Forall_cons x (form_ind' x) (go r) end in
    match f with
    | FTrue => HT | FFalse => HF | FBool b => HB b | FCmp c e => HC c e
    | FNot g => HN g (form_ind' g)
    | FAnd fs => HA fs (go fs)
    | FOr fs => HO fs (go fs)
    | FXor fs => HX fs (go fs)
    | FImp g h => HI g h (form_ind' g) (form_ind' h)
    | FIff g h => HQ g h (form_ind' g) (form_ind' h)
    end.
End FormInd.

Definition key_value (es : list lin) (m : model) (k : key) : bool :=
  match k with
  | KB b => m_bool m b
  | KLe e => Qle_bool (eval_lin (m_real m) (expr_of es e)) 0
  | KGe e => Qle_bool 0 (eval_lin (m_real m) (expr_of es e))
  end.

Definition sound3 (x : option bool) (X : bool) : Prop := forall c, x = Some c -> X = c.
Definition agrees (a : asg) (t : key -> bool) : Prop := forall k, sound3 (a k) (t k).

Lemma sound3_some b : sound3 (Some b) b.
Proof. intros c E. injection E as E. exact E. Qed.
Lemma sound3_not x X : sound3 x X -> sound3 (not3 x) (negb X).
Proof. intros H c E. destruct x as [b|]; [|discriminate]. cbn in E. injection E as E. rewrite (H b eq_refl). exact E. Qed.
Lemma sound3_and x y X Y : sound3 x X -> sound3 y Y -> sound3 (and3 x y) (X && Y).
Proof.
  intros H1 H2 c E. destruct x as [[|]|], y as [[|]|]; cbn in E; try discriminate; injection E as E; subst c;
    try rewrite (H1 _ eq_refl); try rewrite (H2 _ eq_refl); cbn; auto using andb_false_r.
Qed.
Lemma sound3_or x y X Y : sound3 x X -> sound3 y Y -> sound3 (or3 x y) (X || Y).
Proof.
  intros H1 H2. unfold or3. replace (X || Y) with (negb (negb X && negb Y)) by (destruct X, Y; reflexivity).
  apply sound3_not. apply sound3_and; apply sound3_not; assumption.
Qed.
Lemma sound3_eqb x y X Y : sound3 x X -> sound3 y Y -> sound3 (eqb3 x y) (Bool.eqb X Y).
Proof.
  intros H1 H2 c E. destruct x as [a|], y as [b|]; cbn in E; try discriminate. injection E as E.
  rewrite (H1 _ eq_refl), (H2 _ eq_refl). exact E.
Qed.

(* the true values seen so far are true, and only the undefined ones can be true besides *)
Lemma counts_sound {A} (g : A -> option bool) (h : A -> bool) fs :
  Forall (fun f => sound3 (g f) (h f)) fs ->
  (count_some true (map g fs) <= count_true (map h fs) <= count_some true (map g fs) + count_none (map g fs))%nat.
Proof.
  unfold count_some, count_none, count_true. induction 1 as [|f fs Hf _ IH]; cbn [map filter]; [cbn; lia|].
  destruct (g f) as [[|]|]; [rewrite (Hf true eq_refl)|rewrite (Hf false eq_refl)|destruct (h f)]; cbn [Bool.eqb length] in *; lia.
Qed.

Lemma sound3_xor {A} (g : A -> option bool) (h : A -> bool) fs :
  Forall (fun f => sound3 (g f) (h f)) fs -> sound3 (xor3 (map g fs)) (Nat.eqb (count_true (map h fs)) 1).
Proof.
  intros H c E. pose proof (counts_sound g h fs H) as C. unfold xor3 in E.
  destruct (Nat.leb 2 (count_some true (map g fs))) eqn:L2.
  - injection E as <-. apply Nat.leb_le in L2. apply Nat.eqb_neq. lia.
  - destruct (Nat.eqb (count_none (map g fs)) 0) eqn:N0; [|discriminate]. injection E as <-.
    apply Nat.eqb_eq in N0. f_equal. lia.
Qed.

Theorem eval3_sound es m a : agrees a (key_value es m) -> forall f, sound3 (eval3 a f) (holdsb es m f).
Proof.
  intro A. induction f using form_ind'; cbn [eval3 holdsb].
  - apply sound3_some.
  - apply sound3_some.
  - exact (A (KB b)).
  - pose proof (A (KLe e)) as SL. pose proof (A (KGe e)) as SG. cbn [key_value] in SL, SG.
    destruct c; cbn [cmp3 cmp_holds]; auto using sound3_not, sound3_and.
  - apply sound3_not. exact IHf.
  - induction H; cbn [map fold_right forallb]; [apply sound3_some|apply sound3_and; assumption].
  - induction H; cbn [map fold_right existsb]; [apply sound3_some|apply sound3_or; assumption].
  - apply sound3_xor. exact H.
  - rewrite implb_orb. apply sound3_or; [apply sound3_not|]; assumption.
  - apply sound3_eqb; assumption.
Qed.

(* eval3_all a body is eval3 a (FAnd body) *)
Lemma eval3_all_sound es m a body : agrees a (key_value es m) -> sound3 (eval3_all a body) (forallb (holdsb es m) body).
Proof. intro A. exact (eval3_sound es m a A (FAnd body)). Qed.

Definition def3 (x : option bool) : Prop := x <> None.
Lemma def3_not x : def3 x -> def3 (not3 x).
Proof. destruct x; cbn; unfold def3; congruence. Qed.
Lemma def3_and x y : def3 x -> def3 y -> def3 (and3 x y).
Proof. destruct x as [[|]|], y as [[|]|]; cbn; unfold def3; congruence. Qed.
Lemma def3_or x y : def3 x -> def3 y -> def3 (or3 x y).
Proof. intros. unfold or3. auto using def3_not, def3_and. Qed.
Lemma def3_eqb x y : def3 x -> def3 y -> def3 (eqb3 x y).
Proof. destruct x, y; cbn; unfold def3; congruence. Qed.
Lemma def3_fold f b l : (forall x y, def3 x -> def3 y -> def3 (f x y)) -> Forall def3 l -> def3 (fold_right f (Some b) l).
Proof. intro Hf. induction 1; cbn [fold_right]; [discriminate|apply Hf; assumption]. Qed.
Lemma def3_xor l : Forall def3 l -> def3 (xor3 l).
Proof.
  intro H. assert (N : count_none l = 0%nat).
  { unfold count_none. induction H as [|x l Hx Hl IH]; cbn [filter length]; [reflexivity|]. destruct x; [exact IH|]. exfalso. apply Hx. reflexivity. }
  unfold xor3. rewrite N. destruct (Nat.leb 2 (count_some true l)); cbn; unfold def3; congruence.
Qed.

Definition assigned (a : asg) (ks : list key) : Prop := forall k, In k ks -> a k <> None.

Lemma defined_list a fs :
  Forall (fun f => assigned a (keys_of f) -> def3 (eval3 a f)) fs -> assigned a (flat_map keys_of fs) ->
  Forall def3 (map (eval3 a) fs).
Proof.
  intros H K. apply Forall_map, Forall_forall. rewrite Forall_forall in H. intros f Hf. apply (H f Hf).
  intros k Hk. apply K, in_flat_map. exists f. auto.
Qed.

Theorem eval3_defined a : forall f, assigned a (keys_of f) -> def3 (eval3 a f).
Proof.
  induction f using form_ind'; cbn [eval3 keys_of]; intro K.
  - discriminate.
  - discriminate.
  - apply K. left. reflexivity.
  - destruct c; cbn [cmp3 cmp_keys] in *; repeat first [apply def3_not | apply def3_and]; apply K; cbn; auto.
  - apply def3_not. auto.
  - apply def3_fold; [exact def3_and|]. apply defined_list; assumption.
  - apply def3_fold; [exact def3_or|]. apply defined_list; assumption.
  - apply def3_xor, defined_list; assumption.
  - apply def3_or; [apply def3_not|]; [apply IHf1|apply IHf2]; intros k Hk; apply K; apply in_or_app; auto.
  - apply def3_eqb; [apply IHf1|apply IHf2]; intros k Hk; apply K; apply in_or_app; auto.
Qed.

Lemma eval3_all_defined a body : assigned a (flat_map keys_of body) -> def3 (eval3_all a body).
Proof. exact (eval3_defined a (FAnd body)). Qed.

Lemma Qle_bool_rel p q b : Qle_bool p q = b <-> rel (negb b) (if b then p - q else q - p).
Proof.
  destruct b; cbn [negb rel].
  - rewrite Qle_bool_iff. split; intro H; lra.
  - rewrite Qle_bool_false. split; intro H; lra.
Qed.

Lemma constr_of_spec es m k b : is_arith k = true -> (csat_all (m_real m) (constr_of es k b) <-> key_value es m k = b).
Proof.
  assert (One : forall c, csat_all (m_real m) [c] <-> csat (m_real m) c).
  { intro c. rewrite csat_all_cons. split; [intros [H _]; exact H|intro H; split; [exact H|intros e []]]. }
  (* KLe / KGe with b = true / false: the same computation, on e or -e, non-strict or strict *)
  destruct k as [x|e|e]; [discriminate| |]; intros _; cbn [constr_of key_value]; rewrite Qle_bool_rel;
    destruct b; rewrite One, csat_rel; cbn [c_lin c_strict negb]; apply rel_proper; rewrite ?eval_lin_neg; ring.
Qed.

Lemma constr_of_key_value es m k : csat_all (m_real m) (constr_of es k (key_value es m k)).
Proof.
  destruct (is_arith k) eqn:Ar; [apply constr_of_spec; [exact Ar|reflexivity]|].
  destruct k; [intros c []|discriminate|discriminate].
Qed.

Lemma key_eqb_eq k k' : key_eqb k k' = true <-> k = k'.
Proof.
  destruct k, k'; cbn; try (split; [discriminate|congruence]); rewrite Nat.eqb_eq; split; congruence.
Qed.

Lemma upd_same a k b : upd a k b k = Some b.
Proof. unfold upd. rewrite (proj2 (key_eqb_eq k k) eq_refl). reflexivity. Qed.
Lemma upd_other a k b k' : k <> k' -> upd a k b k' = a k'.
Proof. intro N. unfold upd. destruct (key_eqb k k') eqn:E; [|reflexivity]. apply key_eqb_eq in E. contradiction. Qed.
Lemma upd_cases a k b k' c : upd a k b k' = Some c -> (k = k' /\ c = b) \/ a k' = Some c.
Proof. unfold upd. destruct (key_eqb k k') eqn:E; intro H; [left; apply key_eqb_eq in E; split; congruence|right; exact H]. Qed.

Lemma branch_cases es body k a cs rec b :
  branch es body k a cs rec b = rec (upd a k b) (constr_of es k b ++ cs) \/
  branch es body k a cs rec b = None /\
    (eval3_all (upd a k b) body = Some false \/ fm_solve (constr_of es k b ++ cs) = None).
Proof.
  unfold branch. destruct (eval3_all (upd a k b) body) as [[|]|]; auto;
    (destruct (is_arith k); [|auto]); destruct (fm_solve (constr_of es k b ++ cs)); auto.
Qed.

Definition inv (es : list lin) (a : asg) (cs : list constr) : Prop :=
  forall k b, a k = Some b -> incl (constr_of es k b) cs.

Lemma inv_upd es a cs k b : inv es a cs -> inv es (upd a k b) (constr_of es k b ++ cs).
Proof.
  intros I k' c E. destruct (upd_cases a k b k' c E) as [[E1 E2]|E1].
  - subst k' c. apply incl_appl. apply incl_refl.
  - apply incl_appr. exact (I k' c E1).
Qed.

Lemma search_sound es body ks : forall a cs a' v, search es body ks a cs = Some (a', v) -> inv es a cs ->
  eval3_all a' body = Some true /\ forall k b, a' k = Some b -> csat_all v (constr_of es k b).
Proof.
  induction ks as [|k ks IH]; intros a cs a' v S I; cbn [search] in S.
  - destruct (eval3_all a body) as [[|]|] eqn:E; try discriminate.
    destruct (fm_solve cs) as [v0|] eqn:F; [|discriminate]. injection S as <- <-. split; [exact E|].
    intros k b A c Hc. exact (fm_solve_some cs v0 F c (I k b A c Hc)).
  - destruct (a k) as [b0|] eqn:A; [exact (IH a cs a' v S I)|].
    assert (B : exists b, branch es body k a cs (search es body ks) b = Some (a', v)).
    { destruct (branch es body k a cs (search es body ks) true) eqn:B1; [exists true; congruence|exists false; exact S]. }
    destruct B as [b B]. destruct (branch_cases es body k a cs (search es body ks) b) as [E|[E _]]; rewrite E in B; [|discriminate].
    exact (IH _ _ a' v B (inv_upd es a cs k b I)).
Qed.

Lemma agrees_model_of es a v :
  (forall k b, a k = Some b -> csat_all v (constr_of es k b)) -> agrees a (key_value es (model_of a v)).
Proof.
  intros G k b A. destruct (is_arith k) eqn:Ar.
  - apply constr_of_spec; [exact Ar|]. cbn [model_of m_real]. exact (G k b A).
  - destruct k as [x|e|e]; try discriminate. cbn [key_value model_of m_bool]. rewrite A. destruct b; reflexivity.
Qed.

Theorem ref_solve_sat p m : ref_solve p = Sat m -> models m p.
Proof.
  unfold ref_solve. destruct (search (p_exprs p) (p_body p) (flat_map keys_of (p_body p)) empty_asg []) as [[a v]|] eqn:S; [|discriminate].
  intro E. injection E as E. subst m.
  assert (I : inv (p_exprs p) empty_asg []) by (intros k b A; discriminate).
  destruct (search_sound _ _ _ _ _ _ _ S I) as [G1 G2].
  unfold models. exact (eval3_all_sound (p_exprs p) (model_of a v) a (p_body p) (agrees_model_of _ a v G2) true G1).
Qed.

Lemma agrees_upd es m a k : agrees a (key_value es m) -> agrees (upd a k (key_value es m k)) (key_value es m).
Proof.
  intros A k' c E. destruct (upd_cases a k _ k' c E) as [[E1 E2]|E1]; [subst; reflexivity|exact (A _ _ E1)].
Qed.

Lemma csat_all_app v a b : csat_all v a -> csat_all v b -> csat_all v (a ++ b).
Proof. intros H1 H2 c Hc. apply in_app_or in Hc. destruct Hc; auto. Qed.

(* along the values the model gives to the keys, the search is never pruned and cannot end with None *)
Lemma search_complete es body m : forallb (holdsb es m) body = true ->
  forall ks a cs, search es body ks a cs = None -> agrees a (key_value es m) -> csat_all (m_real m) cs ->
    (forall k, In k (flat_map keys_of body) -> a k <> None \/ In k ks) -> False.
Proof.
  intro M. induction ks as [|k ks IH]; intros a cs S A C V; cbn [search] in S.
  - assert (D : def3 (eval3_all a body)).
    { apply eval3_all_defined. intros k Hk. destruct (V k Hk) as [H|[]]. exact H. }
    pose proof (eval3_all_sound es m a body A) as S3.
    destruct (eval3_all a body) as [[|]|] eqn:E.
    + destruct (fm_solve cs) eqn:F; [discriminate|]. exact (fm_solve_none _ F (m_real m) C).
    + specialize (S3 false eq_refl). congruence.
    + apply D. reflexivity.
  - destruct (a k) as [b0|] eqn:Ak.
    + apply (IH a cs S A C). intros k' Hk'. destruct (V k' Hk') as [H|[H|H]]; [left; exact H| |right; exact H].
      subst k'. left. congruence.
    + set (t := key_value es m k).
      assert (B : branch es body k a cs (search es body ks) t = None).
      { destruct (branch es body k a cs (search es body ks) true) eqn:B1; [discriminate|]. destruct t; assumption. }
      pose proof (agrees_upd es m a k A) as A'.
      pose proof (csat_all_app _ _ _ (constr_of_key_value es m k) C) as C'.
      destruct (branch_cases es body k a cs (search es body ks) t) as [E|[_ [E|F]]].
      * rewrite E in B. apply (IH _ _ B A' C'). intros k' Hk'. destruct (V k' Hk') as [H|[H|H]]; [left|left|right; exact H].
        -- unfold upd. destruct (key_eqb k k'); [discriminate|exact H].
        -- subst k'. rewrite upd_same. discriminate.
      * pose proof (eval3_all_sound es m _ body A' false E). congruence.
      * exact (fm_solve_none _ F (m_real m) C').
Qed.

Theorem ref_solve_unsat p : ref_solve p = Unsat -> forall m, ~ models m p.
Proof.
  unfold ref_solve. destruct (search (p_exprs p) (p_body p) (flat_map keys_of (p_body p)) empty_asg []) as [[a v]|] eqn:S; [discriminate|].
  intros _ m M. apply (search_complete (p_exprs p) (p_body p) m M _ _ _ S).
  - intros k b E. discriminate.
  - intros c [].
  - intros k Hk. right. exact Hk.
Qed.

Theorem ref_solve_decides p : (exists m, ref_solve p = Sat m /\ models m p) \/ (ref_solve p = Unsat /\ forall m, ~ models m p).
Proof.
  destruct (ref_solve p) as [m|] eqn:E.
  - left. exists m. split; [reflexivity|apply ref_solve_sat; exact E].
  - right. split; [reflexivity|apply ref_solve_unsat; exact E].
Qed.

Lemma cmp_holds_spec c q :
  cmp_holds c q = true <->
  match c with CLt => q < 0 | CLe => q <= 0 | CEq => q == 0 | CNe => ~ q == 0 | CGe => 0 <= q | CGt => 0 < q end.
Proof.
  destruct c; cbn [cmp_holds].
  - rewrite negb_true_iff. apply Qle_bool_false.
  - apply Qle_bool_iff.
  - apply Qle_bool_antisym.
  - rewrite negb_true_iff, <- not_true_iff_false, Qle_bool_antisym. reflexivity.
  - apply Qle_bool_iff.
  - rewrite negb_true_iff. apply Qle_bool_false.
Qed.

(* non-vacuity: the procedure answers both ways on concrete problems *)
(* real x0, x1;  x0 < x1;  x0 > 10;  x0 + x1 < 20   (examples/core/example_02.rddl): infeasible *)
Definition ex_unsat : problem :=
  mkProblem [mkLin [(0%nat, 1); (1%nat, -(1))] 0; mkLin [(0%nat, 1)] (-(10)); mkLin [(0%nat, 1); (1%nat, 1)] (-(20))]
            [FCmp CLt 0%nat; FCmp CGt 1%nat; FCmp CLt 2%nat].
Example ex_unsat_is_unsat : ref_solve ex_unsat = Unsat.
Proof. vm_compute. reflexivity. Qed.

(* the same with  x0 + x1 < 30 : feasible; and a strict / non-strict boundary:  x <= 3 & !(x < 3)  has the model x = 3 *)
Definition ex_sat : problem :=
  mkProblem [mkLin [(0%nat, 1); (1%nat, -(1))] 0; mkLin [(0%nat, 1)] (-(10)); mkLin [(0%nat, 1); (1%nat, 1)] (-(30))]
            [FCmp CLt 0%nat; FCmp CGt 1%nat; FCmp CLt 2%nat].
Example ex_sat_is_sat : exists m, ref_solve ex_sat = Sat m.
Proof. vm_compute. eexists. reflexivity. Qed.

Definition ex_boundary : problem :=
  mkProblem [mkLin [(0%nat, 1)] (-(3))] [FCmp CLe 0%nat; FNot (FCmp CLt 0%nat); FOr [FBool 0%nat; FNot (FBool 0%nat)]; FXor [FBool 1%nat; FCmp CGt 0%nat]].
Example ex_boundary_is_sat : exists m, ref_solve ex_boundary = Sat m /\ m_real m 0%nat == 3 /\ m_bool m 1%nat = true.
Proof. vm_compute. eexists. split; [reflexivity|]. split; reflexivity. Qed.

Definition ex_strict : problem := mkProblem [mkLin [(0%nat, 1)] (-(3))] [FCmp CLt 0%nat; FCmp CGe 0%nat].
Example ex_strict_is_unsat : ref_solve ex_strict = Unsat.
Proof. vm_compute. reflexivity. Qed.
