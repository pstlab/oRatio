(* The public operations of the sat_core model: new_clause, propagate, assume, next, check, simplify_db, histories.
   The invariant Inv, what an answer means (PF, AF, answer_sound) and any further joint invariant are carried through
   propagate() and through every operation by ONE walk over the model (propagate_rule, step_rule, run_rule): a client
   says what its invariant is (J between the rounds of main_loop, K where a conflict is handed to analyze) and shows that
   it survives each of the listed state changes (records jprop / joint).  SatCoreDb (the database implies the axioms),
   SatCoreWlRun (two watched literals) and SatCoreUndo (quiet propagation) are such clients. *)
From Coq Require Import List Arith Bool ZArith Lia Permutation Sorted.
From ORatio Require Import smt.SatCoreBase smt.SatCoreSpec smt.SatCore proofs.SatCoreBase_Proofs proofs.SatCoreInv_Proofs
  proofs.SatCorePrim_Proofs proofs.SatCoreStep_Proofs proofs.SatCoreAnalyze_Proofs proofs.SatCoreUb_Proofs.
Import ListNotations.

Lemma index_lit_of_index : forall i, index (lit_of_index i) = i.
Proof.
  intros i. unfold index, lit_of_index. cbn [fst snd]. pose proof (Nat.div2_odd i) as H.
  destruct (Nat.odd i); simpl in H; lia.
Qed.

Lemma skipn_in : forall A n (l : list A) x, In x (skipn n l) -> In x l.
Proof.
  induction n as [|n IH]; intros l x H; auto. destruct l as [|y t]; simpl in *; auto.
Qed.

(* a literal assumed by check() counts among the decisions or among the literals still to be assumed *)
Lemma units_shift : forall (F : list clause) p ds t, incl (F ++ units (p :: ds)) (F ++ units ds ++ units (p :: t)).
Proof. intros F p ds t x. simpl. rewrite !in_app_iff. simpl. tauto. Qed.
Lemma units_shift_app : forall (F : list clause) p ds t, incl (F ++ units (p :: ds) ++ units t) (F ++ units ds ++ units (p :: t)).
Proof. intros F p ds t x. simpl. rewrite !in_app_iff. simpl. rewrite ?in_app_iff. tauto. Qed.

Section Run.
  Context {TS : Type}.
  Variable T : asg -> Prop.
  Variable sort : (lit -> lit -> bool) -> list lit -> list lit.
  Hypothesis sort_perm : forall f l, Permutation (sort f l) l.
  Hypothesis sort_var_sorted : forall l, StronglySorted (fun a b => fst a <= fst b) (sort var_lt l).
  Notation state := (@state TS).

  Lemma pstep_lvl : forall (s s2 : state) p, pstep s s2 -> In p (trail s) -> lvl s p = decision_level s -> lvl s2 p = decision_level s2.
  Proof.
    intros s s2 p (_ & B2 & _ & _ & _ & _ & _ & _ & _ & B10 & _) Hp Hl. unfold lvl, decision_level in *. rewrite (proj1 (B10 p Hp)), B2. exact Hl.
  Qed.
  Lemma root_decisions : forall (s : state), Inv0 T s -> root_level s = true -> trail_lim s = [] /\ decisions s = [].
  Proof.
    intros s I H. unfold root_level in H. destruct (trail_lim s) eqn:E; try discriminate. split; auto.
    pose proof (i_decs_len T s I) as Hd. rewrite E in Hd. destruct (decisions s); auto; discriminate.
  Qed.
  Lemma root_level_false : forall (s : state), root_level s = false -> 0 < decision_level s /\ trail_lim s <> [].
  Proof. intros s H. unfold root_level, decision_level in *. destruct (trail_lim s); try discriminate. simpl. split. lia. discriminate. Qed.
  Lemma conflict_unsat : forall (s : state) cl, Inv0 T s -> entails T (axioms (log s)) cl ->
    (forall l, In l cl -> value_lit s l = LF) -> unsat T (axioms (log s) ++ units (decisions s)).
  Proof.
    intros s cl I He Hf a Ta M. assert (Ma : models a (axioms (log s))) by (apply models_app in M; tauto).
    destruct (He a Ta Ma) as [l [Hl Hs]].
    pose proof (false_entailed T s l I (value_lit_false T s l I (Hf l Hl)) a Ta M) as Hn.
    apply sat_clause_single in Hn. apply sat_lit_neg in Hn. contradiction.
  Qed.

  Definition ncinv (p : option lit) (l acc : list lit) : Prop :=
    NoDup (map fst acc) /\ (forall y x, In y acc -> In x l -> fst y <= fst x) /\
    (forall y x, In y acc -> In x l -> fst y = fst x -> p = Some y) /\
    (forall q, p = Some q -> In q acc).

  Lemma opt_lit_eqb_true : forall a b, opt_lit_eqb a b = true <-> b = Some a.
  Proof.
    intros a [q|]; simpl. rewrite lit_eqb_eq. split; intros; congruence. split; intros; discriminate.
  Qed.

  Lemma nc_filter_spec : forall (s : state) l p acc res, nc_filter s p l acc = Some res ->
    StronglySorted (fun a b => fst a <= fst b) l -> ncinv p l acc ->
    NoDup (map fst res) /\ (forall y, In y res -> In y acc \/ (In y l /\ value_lit s y = LU)) /\
    (forall x, In x l -> value_lit s x = LF \/ In x res) /\ (forall y, In y acc -> In y res).
  Proof.
    intros s. induction l as [|x t IH]; intros p acc res E Hs (N1 & N2 & N3 & N4); simpl in E.
    - inversion E; subst. split. rewrite map_rev. apply NoDup_rev. exact N1.
      split. intros y Hy. left. now apply in_rev. split. intros x []. intros y Hy. now apply in_rev in Hy.
    - apply StronglySorted_inv in Hs. destruct Hs as [Hs Hx]. rewrite Forall_forall in Hx.
      destruct (is_true s x || opt_lit_eqb x (option_map lneg p)) eqn:E1; try discriminate.
      apply orb_false_iff in E1. destruct E1 as [Et Ec].
      destruct (negb (is_false s x) && negb (opt_lit_eqb x p)) eqn:E2.
      + apply andb_true_iff in E2. destruct E2 as [Ef Ep]. apply negb_true_iff in Ef, Ep.
        assert (Hxp : forall y, In y acc -> fst y <> fst x).
        { intros y Hy Eq. pose proof (N3 y x Hy (or_introl eq_refl) Eq) as Hp. subst p. simpl in Ec, Ep.
          destruct (same_var y x Eq) as [H|H]; subst x. rewrite lit_eqb_refl in Ep. discriminate.
          rewrite lit_eqb_refl in Ec. discriminate. }
        assert (Hinv : ncinv (Some x) t (x :: acc)).
        { split; [|split; [|split]].
          - simpl. constructor; auto. intros Hin. apply in_map_iff in Hin. destruct Hin as [y [Ey Hy]]. apply (Hxp y Hy Ey).
          - intros y z [<-|Hy] Hz. apply Hx; auto. apply N2; simpl; auto.
          - intros y z [<-|Hy] Hz Eq; auto. exfalso.
            pose proof (N2 y x Hy (or_introl eq_refl)). pose proof (Hx z Hz). apply (Hxp y Hy). lia.
          - intros q Hq. inversion Hq; subst. simpl; auto. }
        destruct (IH _ _ _ E Hs Hinv) as (R1 & R2 & R3 & R4).
        assert (Hu : value_lit s x = LU).
        { unfold is_true, is_false in *. destruct (value_lit s x); simpl in *; auto; discriminate. }
        split; auto. split; [|split].
        * intros y Hy. destruct (R2 y Hy) as [[<-|H]|[H1 H2]]; auto. right. split; simpl; auto. right. split; simpl; auto.
        * intros z [<-|Hz]. right. apply R4. simpl; auto. apply R3; auto.
        * intros y Hy. apply R4. simpl; auto.
      + assert (Hinv : ncinv p t acc).
        { split; [|split; [|split]]; auto. intros y z Hy Hz. apply N2; simpl; auto.
          intros y z Hy Hz. apply N3; simpl; auto. }
        destruct (IH _ _ _ E Hs Hinv) as (R1 & R2 & R3 & R4).
        split; auto. split; [|split]; auto.
        * intros y Hy. destruct (R2 y Hy) as [H|[H1 H2]]; auto. right. split; simpl; auto.
        * intros z [<-|Hz]; auto. apply andb_false_iff in E2. destruct E2 as [E2|E2]; apply negb_false_iff in E2.
          left. now apply is_false_iff. right. apply opt_lit_eqb_true in E2. apply R4. apply N4. exact E2.
  Qed.

  Lemma new_clause_inv : forall (s : state) lits s' b, Inv T s -> root_level s = true ->
    (forall l, In l lits -> fst l < length (assigns s)) -> new_clause sort s lits = (s', b) ->
    Inv T s' /\ (b = false -> unsat T (axioms (log s'))) /\ log s' = (4, lits) :: log s /\
    trail_lim s' = trail_lim s /\ decisions s' = decisions s /\ length (assigns s') = length (assigns s) /\ thst s' = thst s /\
    ub s' = ub s.
  Proof.
    intros s lits s' b I Hroot Hr E. unfold new_clause in E.
    assert (Hk : entry_ok T (log s) 4 lits) by (split; [discriminate|intros [H|H]; discriminate]).
    pose proof (hook_inv T s 4 lits Hk I) as Ih. set (sh := hook s 4 lits) in *.
    destruct (root_decisions sh (proj1 Ih) Hroot) as [Hlim Hdec].
    assert (Hax : In lits (axioms (log sh))) by (apply (axioms_cons_ax 4 lits (log s)); auto).
    destruct (nc_filter sh None (sort var_lt lits) []) as [ls|] eqn:En.
    2: { inversion E; subst. split; auto. split. discriminate. repeat split; auto. }
    destruct (nc_filter_spec sh _ None [] ls En (sort_var_sorted lits)) as (R1 & R2 & R3 & _).
    { split; [constructor|split; [|split]]; try (intros; discriminate); intros y x []. }
    assert (Hent : forall a, T a -> models a (axioms (log sh)) -> sat_clause a ls).
    { intros a Ta M. destruct (M lits Hax) as [x [Hx Hs]].
      assert (HxL : In x (sort var_lt lits)) by (eapply Permutation_in; [apply Permutation_sym, sort_perm|exact Hx]).
      destruct (R3 x HxL) as [Hf|Hin]; [|exists x; auto]. exfalso.
      pose proof (false_entailed T sh x (proj1 Ih) (value_lit_false T sh x (proj1 Ih) Hf) a Ta) as Hn.
      rewrite Hdec in Hn. simpl in Hn. rewrite app_nil_r in Hn. specialize (Hn M).
      apply sat_clause_single in Hn. apply sat_lit_neg in Hn. contradiction. }
    assert (Hok : lits_ok T sh ls).
    { split; [|split].
      - intros l Hl. destruct (R2 l Hl) as [[]|[H _]]. apply Hr. eapply Permutation_in; [apply sort_perm|exact H].
      - intros l Hl. apply nodup_fst_taut; auto.
      - exact Hent. }
    destruct ls as [|l0 [|l1 r]].
    - inversion E; subst. split; auto. split; [|repeat split; auto].
      intros _ a Ta M. apply (sat_clause_nil a). apply Hent; auto.
    - pose proof (enqueue_frame _ _ _ _ _ E) as (B1 & B2 & B3 & B4 & B5 & _).
      split. eapply enqueue_inv; [exact Ih|exact E| | |].
      + apply Hok. simpl; auto.
      + simpl. left. exact Hlim.
      + eapply entails_mono; [|apply Hok]. apply incl_appl, incl_refl.
      + split. intros ->. destruct (enqueue_false _ _ _ _ E) as [-> Hv]. exfalso.
        destruct (R2 l0 (or_introl eq_refl)) as [[]|[_ Hu]]. congruence.
        repeat split; auto. exact (enqueue_ubs _ _ _ _ _ E).
    - destruct (clause_new sh (l0 :: l1 :: r)) as [s1 id] eqn:Ec. inversion E; subst.
      destruct (clause_new_inv T sh _ s1 id Ih Hok Ec) as (I1 & _ & _ & _ & A1 & A2 & A3 & A4 & A5 & A6 & A7 & _).
      split. now apply set_constrs_inv. split. discriminate. simpl. rewrite A1. repeat split; auto.
      unfold clause_new in Ec. inversion Ec. reflexivity.
  Qed.
  (* the attached theory: what the proofs need to know about it *)
  Variable th_propagate : TS -> list lbool -> nat -> lit -> TS * list (list lit) * option (list lit).
  Variable th_check : TS -> list lbool -> nat -> TS * list (list lit) * option (list lit).
  Variable th_push th_pop : TS -> TS.
  Variable FUEL : nat.

  Definition same_but_wr (s s' : state) : Prop :=
    constrs s' = constrs s /\ cls s' = cls s /\ assigns s' = assigns s /\ prop_q s' = prop_q s /\ trail s' = trail s /\
    trail_lim s' = trail_lim s /\ decisions s' = decisions s /\ level s' = level s /\ thst s' = thst s /\ log s' = log s /\
    (forall i x, In x (nth i (watches s') []) -> In x (nth i (watches s) [])) /\
    length (reason s') = length (reason s) /\
    (forall v, nth v (reason s') None = nth v (reason s) None \/ nth v (reason s') None = None).
  Lemma same_but_wr_refl : forall s, same_but_wr s s.
  Proof. intros. unfold same_but_wr. repeat split; auto. Qed.
  Lemma same_but_wr_ub : forall s, same_but_wr s (set_ub s).
  Proof. intros. unfold same_but_wr. simpl. repeat split; auto. Qed.
  Lemma same_but_wr_trans : forall s1 s2 s3, same_but_wr s1 s2 -> same_but_wr s2 s3 -> same_but_wr s1 s3.
  Proof.
    intros s1 s2 s3 (A1 & A2 & A3 & A4 & A5 & A6 & A7 & A8 & A9 & A10 & A11 & A12 & A13)
                    (B1 & B2 & B3 & B4 & B5 & B6 & B7 & B8 & B9 & B10 & B11 & B12 & B13).
    unfold same_but_wr. repeat split; try congruence; auto.
    intros v. destruct (B13 v) as [H|H]; auto. rewrite H. apply A13.
  Qed.
  Lemma watch_erase_same : forall (s : state) p c, same_but_wr s (watch_erase s p c).
  Proof.
    intros. unfold watch_erase. destruct (erase1 c (nth (index p) (watches s) [])) as [l|] eqn:E.
    - unfold same_but_wr. simpl. repeat split; auto. intros i x. rewrite nth_upd.
      destruct (Nat.eqb_spec (index p) i) as [<-|]; auto. destruct (Nat.ltb (index p) (length (watches s))); auto.
      destruct (erase1_spec _ _ _ E) as [a [b [H1 [H2 _]]]]. rewrite H1, H2. intros H. apply in_app_or in H.
      apply in_or_app. simpl. tauto.
    - apply same_but_wr_ub.
  Qed.
  Lemma unreason_same : forall (s : state) c l, same_but_wr s (unreason c s l).
  Proof.
    intros. unfold unreason. destruct (nth (fst l) (reason s) None) as [c'|] eqn:E; [|apply same_but_wr_refl].
    destruct (Nat.eqb c c'); [|apply same_but_wr_refl].
    unfold same_but_wr. simpl. repeat split; auto. apply upd_length.
    intros v. rewrite nth_upd. destruct (Nat.eqb (fst l) v); auto. destruct (Nat.ltb (fst l) (length (reason s))); auto.
  Qed.
  Lemma unreason_fold_same : forall ls c (s : state), same_but_wr s (fold_left (unreason c) ls s).
  Proof.
    induction ls as [|l t IH]; intros c s; simpl. apply same_but_wr_refl.
    eapply same_but_wr_trans. apply unreason_same. apply IH.
  Qed.
  Lemma clause_remove_same : forall (s : state) c, same_but_wr s (clause_remove s c).
  Proof.
    intros. unfold clause_remove. destruct (lits_of s c) as [|l0 [|l1 r]]; try apply same_but_wr_ub.
    eapply same_but_wr_trans. eapply same_but_wr_trans; apply watch_erase_same. apply unreason_fold_same.
  Qed.

  Lemma wr_root_inv : forall (s s' : state), Inv T s -> root_level s = true -> same_but_wr s s' -> Inv T s'.
  Proof.
    intros s s' [I L] Hroot (A1 & A2 & A3 & A4 & A5 & A6 & A7 & A8 & A9 & A10 & A11 & A12 & A13).
    destruct (root_decisions s I Hroot) as [Hl Hd].
    assert (Hlits : forall c, lits_of s' c = lits_of s c) by (intros; unfold lits_of; now rewrite A2).
    split; [constructor|]; rewrite ?A3, ?A4, ?A5, ?A6, ?A7, ?A8, ?A10; try apply I.
    - rewrite A12. apply I.
    - intros v Hv. destruct (i_free T s I v Hv) as [H1 H2]. split; auto. destruct (A13 v) as [H|H]; congruence.
    - eapply trail_ok_impl; [|apply (i_trail T s I)]. intros pre q suf E [H1 [H2 H3]].
      unfold elem_st. rewrite A6, A8. split; auto. split.
      + intros c Hc. rewrite Hlits. apply H2. destruct (A13 (fst q)) as [H|H]; congruence.
      + intros _ Hp. rewrite Hl in Hp. unfold lvl_at in Hp. simpl in Hp. lia.
    - intros c l. rewrite Hlits. apply (i_cls_range T s I).
    - intros c l. rewrite Hlits. apply (i_cls_taut T s I).
    - intros i c Hc. rewrite A2, Hlits. apply (i_watch T s I). apply A11. exact Hc.
    - unfold decision_level. rewrite A6. apply (i_queue_lvl T s I).
    - intros c. rewrite A2, Hlits. apply (i_cls_sound T s I).
    - eapply elem_sem_frame; [| | |apply (i_trail_sem T s I)]; auto. rewrite A10. apply incl_refl.
    - unfold LimOK in *. now rewrite A5, A6.
  Qed.

  Lemma simp_go_spec : forall (s : state) orig rest kept_rev sat ls, simp_go s orig rest kept_rev = (sat, ls) ->
    (forall l, In l kept_rev -> In l orig) -> (forall l, In l rest -> In l orig) ->
    (forall l, In l ls -> In l orig) /\
    (sat = false -> (forall x, In x rest -> value_lit s x = LF \/ In x ls) /\ (forall x, In x kept_rev -> In x ls) /\
                    (forall x, In x rest -> value_lit s x <> LT)) /\
    (sat = true -> exists x, In x rest /\ value_lit s x = LT).
  Proof.
    intros s orig. induction rest as [|x t IH]; intros kept_rev sat ls E Hk Hr; simpl in E.
    - inversion E; subst. split. intros l Hl. apply Hk. now apply in_rev. split; [|discriminate].
      intros _. split. intros x []. split. intros x Hx. now apply in_rev in Hx. intros x [].
    - destruct (value_lit s x) eqn:V.
      + destruct (IH kept_rev sat ls E Hk) as (H1 & H2 & H3). intros; apply Hr; simpl; auto.
        split; auto. split.
        * intros Es. destruct (H2 Es) as (G1 & G2 & G3). split; [|split; auto].
          intros y [<-|Hy]; auto. intros y [<-|Hy]; auto. congruence.
        * intros Es. destruct (H3 Es) as [y [Hy Hv]]. exists y. split; simpl; auto.
      + inversion E; subst. split.
        * intros l Hl. apply in_app_or in Hl. destruct Hl as [Hl|Hl]. apply Hk. now apply in_rev.
          eapply skipn_in; eauto.
        * split. discriminate. intros _. exists x. split; simpl; auto.
      + destruct (IH (x :: kept_rev) sat ls E) as (H1 & H2 & H3).
        intros l [<-|Hl]; auto. apply Hr; simpl; auto. intros; apply Hr; simpl; auto.
        split; auto. split.
        * intros Es. destruct (H2 Es) as (G1 & G2 & G3). split; [|split].
          intros y [<-|Hy]; auto. right. apply G2. simpl; auto.
          intros y Hy. apply G2. simpl; auto.
          intros y [<-|Hy]; auto. congruence.
        * intros Es. destruct (H3 Es) as [y [Hy Hv]]. exists y. split; simpl; auto.
  Qed.

  Lemma skipn_app_in : forall A n (a b : list A) y, n <= length a -> In y b -> In y (skipn n (a ++ b)).
  Proof.
    induction n as [|n IH]; intros a b y Hn Hy; simpl. apply in_or_app; auto.
    destruct a as [|x t]; simpl in *. lia. apply IH; auto. lia.
  Qed.
  Lemma simp_go_true_keeps : forall (s : state) rest done kept_rev ls,
    simp_go s (done ++ rest) rest kept_rev = (true, ls) -> length kept_rev <= length done ->
    (forall y, In y done -> value_lit s y = LF \/ In y kept_rev) ->
    forall y, In y (done ++ rest) -> value_lit s y = LF \/ In y ls.
  Proof.
    intros s. induction rest as [|x t IH]; intros done kept_rev ls E Hlen Hd y Hy; simpl in E. discriminate.
    destruct (value_lit s x) eqn:V.
    - apply (IH (done ++ [x]) kept_rev ls); auto.
      + rewrite <- app_assoc. exact E.
      + rewrite app_length. simpl. lia.
      + intros z Hz. apply in_app_or in Hz. destruct Hz as [Hz|[<-|[]]]; auto.
      + rewrite <- app_assoc. exact Hy.
    - inversion E; subst. apply in_app_or in Hy. destruct Hy as [Hy|Hy].
      + destruct (Hd y Hy) as [H|H]; auto. right. apply in_or_app. left. now apply in_rev in H.
      + right. apply in_or_app. right. apply skipn_app_in; auto.
    - apply (IH (done ++ [x]) (x :: kept_rev) ls); auto.
      + rewrite <- app_assoc. exact E.
      + rewrite app_length. simpl. lia.
      + intros z Hz. apply in_app_or in Hz. destruct Hz as [Hz|[<-|[]]]. destruct (Hd z Hz); auto. right; simpl; auto.
        right; simpl; auto.
      + rewrite <- app_assoc. exact Hy.
  Qed.

  Lemma root_false_entailed : forall (s : state) x, Inv T s -> root_level s = true -> value_lit s x = LF ->
    entails T (axioms (log s)) [lneg x].
  Proof.
    intros s x I Hroot Hv. destruct (root_decisions s (proj1 I) Hroot) as [_ Hd].
    pose proof (false_entailed T s x (proj1 I) (value_lit_false T s x (proj1 I) Hv)) as H.
    rewrite Hd in H. simpl in H. now rewrite app_nil_r in H.
  Qed.

  Lemma simplify_shrink_inv : forall (s : state) c ls, Inv T s -> root_level s = true ->
    simp_go s (lits_of s c) (lits_of s c) [] = (false, ls) -> shrink_ok s c (lits_of s c) ls = true ->
    Inv T (set_cls s (upd (cls s) c ls)).
  Proof.
    intros s c ls I Hroot E Hok. unfold shrink_ok in Hok. apply andb_true_iff in Hok. destruct Hok as [Hw Hlen].
    apply Nat.leb_le in Hlen. rewrite forallb_forall in Hw.
    destruct (simp_go_spec s _ _ [] false ls E) as (S1 & S2 & _); auto. intros l [].
    destruct (S2 eq_refl) as (G1 & _ & G3).
    assert (Hc : c < length (cls s)).
    { destruct (Nat.lt_ge_cases c (length (cls s))); auto. exfalso. destruct ls as [|l0 r]. simpl in Hlen; lia.
      pose proof (S1 l0 (or_introl eq_refl)) as Hin. rewrite lits_of_overflow in Hin by auto. destruct Hin. }
    apply relits_inv; auto.
    - intros i Hi. destruct (i_watch T s (proj1 I) i c Hi) as [_ Hm]. destruct (G1 _ Hm) as [Hf|Hin]; auto. exfalso.
      specialize (Hw _ Hm). apply orb_true_iff in Hw. destruct Hw as [Hw|Hw]; apply negb_true_iff in Hw.
      + apply is_false_iff in Hf. congruence.
      + unfold watched_through in Hw. rewrite lneg_invol, index_lit_of_index in Hw. apply memv_false in Hw. contradiction.
    - intros a Ta M. destruct (i_cls_sound T s (proj1 I) c Hc a Ta M) as [x [Hx Hs]].
      destruct (G1 x Hx) as [Hf|Hin]; [|exists x; auto]. exfalso.
      pose proof (root_false_entailed s x I Hroot Hf a Ta M) as Hn. apply sat_clause_single in Hn. apply sat_lit_neg in Hn. contradiction.
    - intros q suf [pre Et] Hr. exfalso.
      destruct (trail_ok_in _ _ _ _ _ (i_trail T s (proj1 I)) Et) as [_ [H2 _]]. destruct (H2 c Hr) as [rest [Hl _]].
      apply (G3 q). rewrite Hl. simpl; auto. apply (value_lit_in_trail T s q (proj1 I)). rewrite Et. apply in_or_app. simpl; auto.
  Qed.

  Lemma simplify_remove_inv : forall (s : state) c ls, Inv T s -> root_level s = true ->
    simp_go s (lits_of s c) (lits_of s c) [] = (true, ls) ->
    still_watched (clause_remove (set_cls s (upd (cls s) c ls)) c) c = false ->
    Inv T (clause_remove (set_cls s (upd (cls s) c ls)) c).
  Proof.
    intros s c ls I Hroot E Hsw.
    set (s1 := set_cls s (upd (cls s) c ls)) in *. set (s2 := clause_remove s1 c) in *.
    destruct (simp_go_spec s _ _ [] true ls E) as (S1 & _ & S3); auto. intros l [].
    destruct (S3 eq_refl) as [xt [Hxt Hvt]].
    assert (Hc : c < length (cls s)).
    { destruct (Nat.lt_ge_cases c (length (cls s))); auto. rewrite lits_of_overflow in Hxt by auto. destruct Hxt. }
    pose proof (clause_remove_same s1 c) as W. fold s2 in W.
    destruct W as (A1 & A2 & A3 & A4 & A5 & A6 & A7 & A8 & A9 & A10 & A11 & A12 & A13).
    (* the same state, built in another order: watches and reasons first (root-level frame), the literals last *)
    set (sB := mkst (constrs s) (cls s) (watches s2) (assigns s) (prop_q s) (trail s) (trail_lim s) (decisions s)
                    (reason s2) (level s) (thst s) (log s) (ub s)).
    assert (IB : Inv T sB).
    { apply (wr_root_inv s sB I Hroot). unfold same_but_wr, sB. simpl. repeat split; auto. }
    assert (IC : Inv T (set_cls sB (upd (cls sB) c ls))).
    { apply relits_inv; auto.
      - intros i Hi. exfalso. unfold still_watched in Hsw.
        assert (Hex : existsb (memv c) (watches s2) = true).
        { apply existsb_exists. exists (nth i (watches s2) []). split. 2: now apply memv_In.
          apply nth_In. destruct (Nat.lt_ge_cases i (length (watches s2))); auto. simpl in Hi. rewrite nth_overflow in Hi by auto. destruct Hi. }
        congruence.
      - intros a Ta M. destruct (i_cls_sound T s (proj1 I) c Hc a Ta M) as [x [Hx Hs]].
        destruct (simp_go_true_keeps s (lits_of s c) [] [] ls E (le_n 0) (fun y (H : In y []) => match H with end) x Hx) as [Hf|Hin].
        + exfalso. pose proof (root_false_entailed s x I Hroot Hf a Ta M) as Hn. apply sat_clause_single in Hn.
          apply sat_lit_neg in Hn. contradiction.
        + exists x. auto.
      - intros q suf [pre Et] Hr. simpl in Hr.
        assert (Hr' : nth (fst q) (reason s) None = Some c).
        { destruct (A13 (fst q)) as [H|H]; simpl in H; congruence. }
        simpl in Et.
        destruct (trail_ok_in _ _ _ _ _ (i_trail T s (proj1 I)) Et) as [_ [H2 _]]. destruct (H2 c Hr') as [rest [Hl Hf]].
        assert (Hq : value_lit s q = LT).
        { apply (value_lit_in_trail T s q (proj1 I)). rewrite Et. apply in_or_app. simpl; auto. }
        rewrite Hl in E. simpl in E. rewrite Hq in E. inversion E; subst. exists rest. split; auto. }
    apply (inv_ext T (set_cls sB (upd (cls sB) c ls)) s2); auto.
  Qed.

  (* simplify_db touches neither the search state nor the log *)
  Definition core_same (s s' : state) : Prop :=
    log s' = log s /\ assigns s' = assigns s /\ trail s' = trail s /\ trail_lim s' = trail_lim s /\
    decisions s' = decisions s /\ prop_q s' = prop_q s /\ thst s' = thst s /\ level s' = level s /\
    length (cls s') = length (cls s).
  Lemma simplify_loop_same : forall cs (s : state) kept, core_same s (simplify_loop s cs kept).
  Proof.
    induction cs as [|c t IH]; intros s kept; simpl. { unfold core_same. simpl. repeat split; auto. }
    destruct (simp_go s (lits_of s c) (lits_of s c) []) as [sat ls].
    assert (H : forall s1 : state, core_same s s1 -> core_same s (simplify_loop s1 t (if sat then kept else c :: kept))).
    { intros s1 (A1&A2&A3&A4&A5&A6&A7&A8&A9). destruct (IH s1 (if sat then kept else c :: kept)) as (B1&B2&B3&B4&B5&B6&B7&B8&B9).
      unfold core_same. repeat split; congruence. }
    destruct sat.
    - apply H. pose proof (clause_remove_same (set_cls s (upd (cls s) c ls)) c) as (A1 & A2 & A3 & A4 & A5 & A6 & A7 & A8 & A9 & A10 & _).
      destruct (still_watched _ c); unfold core_same; simpl; rewrite A2, A3, A4, A5, A6, A7, A8, A9, A10; simpl; rewrite upd_length; repeat split; auto.
    - apply H. destruct (shrink_ok s c (lits_of s c) ls); unfold core_same; simpl; rewrite upd_length; repeat split; auto.
  Qed.

  Lemma simplify_loop_inv : forall cs (s : state) kept, Inv T s -> root_level s = true ->
    ub (simplify_loop s cs kept) = false -> Inv T (simplify_loop s cs kept).
  Proof.
    induction cs as [|c t IH]; intros s kept I Hroot Hub; simpl in *.
    - now apply set_constrs_inv.
    - destruct (simp_go s (lits_of s c) (lits_of s c) []) as [sat ls] eqn:E. destruct sat.
      + set (s1 := set_cls s (upd (cls s) c ls)) in *. set (s2 := clause_remove s1 c) in *.
        pose proof (clause_remove_same s1 c) as W. fold s2 in W.
        destruct W as (_ & _ & _ & _ & _ & A6 & _).
        destruct (still_watched s2 c) eqn:Esw.
        * exfalso. pose proof (simplify_loop_ub th_propagate th_check th_push th_pop t (set_ub s2) kept eq_refl). congruence.
        * pose proof (simplify_remove_inv s c ls I Hroot E Esw) as I2. fold s1 s2 in I2.
          apply (IH s2 kept I2); auto. unfold root_level in *. rewrite A6. exact Hroot.
      + destruct (shrink_ok s c (lits_of s c) ls) eqn:Eok.
        * apply (IH _ (c :: kept) (simplify_shrink_inv s c ls I Hroot E Eok) Hroot Hub).
        * exfalso. pose proof (simplify_loop_ub th_propagate th_check th_push th_pop t (set_ub (set_cls s (upd (cls s) c ls))) (c :: kept) eq_refl). congruence.
  Qed.

  Definition lemma_ok (s : state) (lem : list lit) : Prop :=
    entails T [] lem /\ (forall l, In l lem -> fst l < length (assigns s)) /\ (forall l, In l lem -> ~ In (lneg l) lem) /\
    (forall r, In r (tl lem) -> value_lit s r = LF) /\ (length lem = 1 -> trail_lim s = []) /\ lem <> [].
  Definition cnfl_ok (s : state) (cnfl : list lit) : Prop :=
    entails T [] cnfl /\ (forall r, In r cnfl -> value_lit s r = LF) /\
    (trail_lim s <> [] -> exists r, In r cnfl /\ lvl s (lneg r) = decision_level s).
  Definition th_result_ok (s : state) (r : TS * list (list lit) * option (list lit)) : Prop :=
    Forall (lemma_ok s) (snd (fst r)) /\ (forall cnfl, snd r = Some cnfl -> cnfl_ok s cnfl).
  (* CONTRACT of the theory (discharged trivially when no theory is attached; by the LRA / DL / OV models otherwise):
     lemmas and conflicts are T-valid, range over existing variables, mention - apart from the propagated first
     literal of a lemma - only literals that are currently false, a conflict involves the current decision level,
     one-literal lemmas are only recorded at root level, no lemma is empty, and check() records no lemma. *)
  Hypothesis th_propagate_ok : forall (s : state) p, Inv T s -> In p (trail s) -> lvl s p = decision_level s ->
    th_result_ok s (th_propagate (thst s) (assigns s) (decision_level s) p).
  Hypothesis th_check_ok : forall (s : state), Inv T s ->
    th_result_ok s (th_check (thst s) (assigns s) (decision_level s)) /\
    snd (fst (th_check (thst s) (assigns s) (decision_level s))) = [].

  Definition tstep (s s' : state) : Prop :=
    trail_lim s' = trail_lim s /\ decisions s' = decisions s /\ length (assigns s') = length (assigns s) /\
    axioms (log s') = axioms (log s) /\ (forall r, value_lit s r <> LU -> value_lit s' r = value_lit s r) /\
    (forall q, In q (trail s) -> In q (trail s') /\ lvl s' q = lvl s q).
  Lemma tstep_refl : forall s, tstep s s.
  Proof. intros. unfold tstep. repeat split; auto. Qed.
  Lemma tstep_trans : forall s1 s2 s3, tstep s1 s2 -> tstep s2 s3 -> tstep s1 s3.
  Proof.
    intros s1 s2 s3 (A1 & A2 & A3 & A4 & A5 & A6) (B1 & B2 & B3 & B4 & B5 & B6).
    unfold tstep. repeat split; try congruence.
    - intros r Hr. rewrite B5. apply A5; auto. rewrite A5; auto.
    - apply B6, A6; auto.
    - destruct (A6 q H) as [H1 H2]. destruct (B6 q H1) as [H3 H4]. congruence.
  Qed.

  Lemma enqueue_value_mono : forall (s : state) p c s' b, enqueue s p c = (s', b) ->
    forall r, value_lit s r <> LU -> value_lit s' r = value_lit s r.
  Proof.
    intros s p c s' b E r Hr. unfold enqueue in E. destruct (value_lit s p) eqn:V; inversion E; subst; auto.
    unfold value_lit, value_var in *. simpl. destruct (Nat.eq_dec (fst p) (fst r)) as [Eq|Ne].
    - exfalso. rewrite <- Eq in Hr. destruct (nth (fst p) (assigns s) LU); try discriminate.
      destruct (snd p); discriminate. destruct (snd p); discriminate. apply Hr. reflexivity.
    - rewrite nth_upd_neq; auto.
  Qed.

  (* what sat_core::record leaves alone, whatever the kind: the values that were defined, the trail with its levels *)
  Lemma record_keeps : forall (s : state) k lem, Inv T s ->
    (forall r, value_lit s r <> LU -> value_lit (record sort s k lem) r = value_lit s r) /\
    (forall q, In q (trail s) -> In q (trail (record sort s k lem)) /\ lvl (record sort s k lem) q = lvl s q).
  Proof.
    intros s k lem I. unfold record. set (sh := hook s k lem).
    destruct lem as [|l0 [|l1 t]].
    - simpl. split; auto.
    - destruct (enqueue sh l0 None) as [s1 b] eqn:E. simpl fst. split.
      + intros r Hr. apply (enqueue_value_mono sh l0 None s1 b E r Hr).
      + intros q Hq. destruct (enqueue_frame _ _ _ _ _ E) as (_ & _ & _ & _ & _ & [e He] & _). split.
        rewrite He. apply in_or_app. auto. apply (enqueue_level T s (proj1 I) sh l0 None s1 b eq_refl eq_refl E q Hq).
    - destruct (clause_new sh (l0 :: sort (level_gt sh) (l1 :: t))) as [s1 id] eqn:E1.
      destruct (enqueue s1 l0 (Some id)) as [s2 b] eqn:E2.
      destruct (clause_new_frame _ _ _ _ E1) as (A1 & A2 & A3 & A4 & A5 & A6 & A7 & A8 & A9 & A10).
      simpl. split.
      + intros r Hr. change (value_lit s2 r = value_lit s r). rewrite (enqueue_value_mono s1 l0 (Some id) s2 b E2 r).
        apply value_lit_assigns. exact A1. rewrite (value_lit_assigns sh s1 r A1). exact Hr.
      + intros q Hq. destruct (enqueue_frame _ _ _ _ _ E2) as (_ & _ & _ & _ & _ & [e He] & _). split.
        change (In q (trail s2)). rewrite He, A3. apply in_or_app. auto. unfold lvl.
        change (nth (fst q) (level s2) 0 = nth (fst q) (level s) 0).
        rewrite (proj1 (enqueue_level T s (proj1 I) s1 l0 (Some id) s2 b A1 A3 E2 q ltac:(rewrite A3; exact Hq))). now rewrite A9.
  Qed.
  Lemma record_tstep : forall (s : state) lem, Inv T s -> tstep s (record sort s 2 lem).
  Proof.
    intros s lem I. destruct (record_frame sort s 2 lem) as (F1 & F2 & F3 & F4 & F5 & _).
    unfold tstep. split; auto. split; auto. split; auto. split; [|exact (record_keeps s 2 lem I)].
    rewrite F3. apply axioms_cons_other; discriminate.
  Qed.
  (* ... what it stores: nothing for at most one literal, otherwise one clause, a permutation of the literals, made live *)
  Lemma record_store : forall (s : state) k lits,
    (length lits < 2 /\ cls (record sort s k lits) = cls s /\ constrs (record sort s k lits) = constrs s) \/
    (exists ls, Permutation ls lits /\ cls (record sort s k lits) = cls s ++ [ls] /\
                constrs (record sort s k lits) = constrs s ++ [length (cls s)]).
  Proof.
    intros s k lits. unfold record. set (sh := hook s k lits). destruct lits as [|l0 [|l1 t]].
    - left. simpl. auto.
    - left. destruct (enqueue sh l0 None) as [s1 b] eqn:E. destruct (enqueue_frame _ _ _ _ _ E) as (_ & _ & _ & _ & _ & _ & B7 & B8 & _).
      simpl. rewrite B7, B8. auto.
    - right. exists (l0 :: sort (level_gt sh) (l1 :: t)). split. apply perm_skip, sort_perm.
      destruct (clause_new sh (l0 :: sort (level_gt sh) (l1 :: t))) as [s1 id] eqn:E1.
      destruct (enqueue s1 l0 (Some id)) as [s2 b] eqn:E2.
      destruct (clause_new_frame _ _ _ _ E1) as (_ & _ & _ & _ & _ & _ & _ & A8 & _).
      destruct (enqueue_frame _ _ _ _ _ E2) as (_ & _ & _ & _ & _ & _ & B7 & B8 & _).
      assert (Hc : cls s1 = cls s ++ [l0 :: sort (level_gt sh) (l1 :: t)] /\ id = length (cls s)).
      { unfold clause_new in E1. destruct (sort (level_gt sh) (l1 :: t)); inversion E1; subst; simpl; auto. }
      simpl. rewrite B7, B8, A8. destruct Hc as [-> ->]. auto.
  Qed.
  (* ... and what it assigns: the first literal, when it was unassigned, at the current level *)
  Lemma record_head : forall (s : state) k l0 tail, value_lit s l0 = LU -> fst l0 < length (level s) ->
    In l0 (trail (record sort s k (l0 :: tail))) /\ lvl (record sort s k (l0 :: tail)) l0 = decision_level s.
  Proof.
    intros s k l0 tail Hu Hr. unfold record. set (sh := hook s k (l0 :: tail)).
    assert (He : forall (s1 : state) c, assigns s1 = assigns s -> level s1 = level s -> trail_lim s1 = trail_lim s ->
              In l0 (trail (fst (enqueue s1 l0 c))) /\ lvl (fst (enqueue s1 l0 c)) l0 = decision_level s).
    { intros s1 c Ha Hl Ht. unfold enqueue. rewrite (value_lit_assigns s s1 l0 Ha), Hu. unfold lvl, decision_level. simpl.
      rewrite Hl, Ht, nth_upd_eq; auto. }
    destruct tail as [|l1 t]. exact (He sh None eq_refl eq_refl eq_refl).
    destruct (clause_new sh (l0 :: sort (level_gt sh) (l1 :: t))) as [s1 id] eqn:E1.
    destruct (clause_new_frame _ _ _ _ E1) as (A1 & _ & _ & A4 & _ & _ & _ & _ & A9 & _).
    pose proof (He s1 (Some id) A1 A9 A4) as H. destruct (enqueue s1 l0 (Some id)) as [s2 b]. exact H.
  Qed.

  Lemma nodupb_NoDup : forall l, nodupb l = true -> NoDup l.
  Proof.
    induction l as [|x t IH]; simpl; intros H. constructor. apply andb_true_iff in H. destruct H as [H1 H2].
    constructor; auto. apply negb_true_iff in H1. now apply memv_false in H1.
  Qed.
  Lemma next_ok_all : forall (s : state) lim lims, trail_lim s = lim :: lims -> next_ok s = true ->
    exists d ds, decisions s = d :: ds /\ (forall x, In x (d :: ds) -> value_lit s x = LT) /\
      (forall x, In x ds -> lvl s x < decision_level s) /\
      (forall d2 ds', ds = d2 :: ds' -> S (lvl s d2) = decision_level s) /\
      NoDup (map fst (d :: ds)) /\ lim < length (trail s) /\ nth (length (trail s) - 1 - lim) (trail s) FALSE_lit = d.
  Proof.
    intros s lim lims El H. unfold next_ok in H. rewrite El in H. destruct (decisions s) as [|d ds] eqn:Ed; try discriminate.
    apply andb_true_iff in H. destruct H as [H H6]. apply andb_true_iff in H. destruct H as [H H5].
    apply andb_true_iff in H. destruct H as [H H4]. apply andb_true_iff in H. destruct H as [H H3].
    apply andb_true_iff in H. destruct H as [H1 H2]. exists d, ds. split; auto. split; [|split; [|split; [|split; [|split]]]].
    - intros x Hx. rewrite forallb_forall in H1. apply is_true_iff. apply H1. exact Hx.
    - intros x Hx. rewrite forallb_forall in H2. apply Nat.ltb_lt. apply (H2 x Hx).
    - intros d2 ds' E. subst ds. apply Nat.eqb_eq in H3. exact H3.
    - apply nodupb_NoDup. exact H4.
    - apply Nat.ltb_lt. exact H5.
    - apply lit_eqb_eq. exact H6.
  Qed.

  (* The no-good of next(), seen from the state after the pop: its head is the negated last decision, which opened the popped
     level and is unassigned again; the other decisions are still true, over other variables, and the previous one stands at
     what is now the current level. *)
  Lemma nogood_facts : forall (s : state), Inv T s -> prop_q s = [] -> next_ok s = true -> root_level s = false ->
    exists d ds, decisions s = d :: ds /\ value_lit (pop th_pop s) (lneg d) = LU /\
      (forall x, In x (d :: ds) -> fst x < length (assigns (pop th_pop s))) /\ NoDup (map fst (d :: ds)) /\
      (forall x, In x ds -> value_lit (pop th_pop s) (lneg x) = LF) /\ (ds = [] -> trail_lim (pop th_pop s) = []) /\
      (forall d2 ds', ds = d2 :: ds' -> lvl (pop th_pop s) d2 = decision_level (pop th_pop s)).
  Proof.
    intros s I Hq Hok Er. destruct (root_level_false s Er) as [Hdl Hne].
    destruct (trail_lim s) as [|lim lims] eqn:El; [contradiction|].
    destruct (next_ok_all s lim lims El Hok) as [d [ds [Ed [Htrue [Hlow [Hprev [Hnd [H3 H4]]]]]]]].
    destruct (pop_inv T th_pop s I Hq) as (I1 & B & E1 & _ & Hlen). specialize (Hlen lim lims El).
    destruct B as (_ & _ & B3 & _ & _ & _ & [pre' B7] & _). set (s1 := pop th_pop s) in *.
    assert (Hd1 : decision_level s1 = decision_level s - 1). { unfold decision_level. rewrite E1, El. simpl. lia. }
    assert (Hdecs : length ds = length lims). { pose proof (i_decs_len T s (proj1 I)) as Hl. rewrite Ed, El in Hl. simpl in Hl. lia. }
    exists d, ds. split; auto. split; [|split; [|split; [exact Hnd|split; [|split]]]].
    - (* the last decision opened its level *)
      destruct (nth_split (trail s) FALSE_lit (n := length (trail s) - 1 - lim) ltac:(lia)) as [pre [suf [Et Hp]]].
      rewrite H4 in Et. assert (Hsuf : length suf = lim).
      { apply (f_equal (@length _)) in Et. rewrite app_length in Et. simpl in Et. lia. }
      assert (Hs1 : trail s1 = suf).
      { rewrite Et in B7. replace (pre ++ d :: suf) with ((pre ++ [d]) ++ suf) in B7 by (rewrite <- app_assoc; reflexivity).
        symmetry. eapply app_suffix_len; [exact B7|]. congruence. }
      pose proof (i_nodup T s (proj1 I)) as ND. rewrite Et, map_app in ND. simpl in ND. apply NoDup_remove_2 in ND.
      pose proof (i_range T s (proj1 I) d ltac:(rewrite Et; apply in_or_app; simpl; auto)) as Hr.
      rewrite value_lit_neg. unfold value_lit, value_var. rewrite (i_assigns T _ (proj1 I1)) by lia.
      rewrite Hs1, tr_val_notin. destruct (snd d); reflexivity. intros Hin. apply ND. apply in_or_app. auto.
    - intros x Hx. rewrite B3. destruct (value_lit_true T s x (proj1 I) (Htrue x Hx)) as [H| ->]. apply (i_range T s (proj1 I) x H).
      simpl. pose proof (i_a0 T s (proj1 I)). destruct (assigns s); simpl in *. discriminate. lia.
    - intros x Hx. rewrite value_lit_neg.
      destruct (value_lit_true T s x (proj1 I) (Htrue x (or_intror Hx))) as [H| ->].
      + destruct (pop_keeps T th_pop s x I Hq H (Hlow x Hx)) as [K1 _]. fold s1 in K1.
        rewrite (value_lit_in_trail T s1 x (proj1 I1) K1). reflexivity.
      + unfold value_lit. simpl. fold (value_var s1 0). rewrite (value_var_0 T s1 (proj1 I1)). reflexivity.
    - intros ->. rewrite E1, El. simpl. destruct lims; auto. discriminate.
    - intros d2 ds' ->. pose proof (Hprev d2 ds' eq_refl) as Hp.
      assert (Hd2 : In d2 (trail s)).
      { destruct (value_lit_true T s d2 (proj1 I) (Htrue d2 (or_intror (or_introl eq_refl)))) as [H| ->]; auto.
        (* TRUE_lit has level 0, so it would be a second decision in a stack of one level *)
        exfalso. unfold lvl in Hp. simpl in Hp. rewrite (lvl_var0 T s (proj1 I)) in Hp.
        unfold decision_level in Hp. rewrite El in Hp. simpl in Hp, Hdecs. destruct lims; simpl in *; lia. }
      destruct (pop_keeps T th_pop s d2 I Hq Hd2 (Hlow d2 (or_introl eq_refl))) as [_ K2]. fold s1 in K2. rewrite K2. lia.
  Qed.

  Lemma next_mid_inv : forall (s : state), Inv T s -> prop_q s = [] -> next_ok s = true -> root_level s = false ->
    Inv T (record sort (pop th_pop s) 1 (map lneg (decisions s))).
  Proof.
    intros s I Hq Hok Er. destruct (nogood_facts s I Hq Hok Er) as (d & ds & Ed & _ & Hrange & Hnd & Hfalse & Hroot & _).
    destruct (pop_inv T th_pop s I Hq) as (I1 & _). rewrite Ed. apply record_inv; auto.
    - split; [discriminate|intros [H|H]; discriminate].
    - apply entails_in. apply (axioms_cons_ax 1 _ (log (pop th_pop s))). auto.
    - intros l Hl. apply in_map_iff in Hl. destruct Hl as [x [<- Hx]]. exact (Hrange x Hx).
    - intros l. apply nodup_fst_taut. rewrite map_map. exact Hnd.
    - intros r Hr. apply (value_lit_false T _ r (proj1 I1)). simpl in Hr. apply in_map_iff in Hr. destruct Hr as [x [<- Hx]]. exact (Hfalse x Hx).
    - intros H. apply Hroot. destruct ds; [reflexivity|discriminate].
  Qed.

  Lemma unsat_mono : forall F G, incl F G -> unsat T F -> unsat T G.
  Proof. intros F G H HF a Ta M. apply (HF a Ta). eapply models_incl; eauto. Qed.
  Lemma skipn_full : forall A k (l : list A), length l <= length (skipn k l) -> skipn k l = l.
  Proof.
    induction k as [|k IH]; intros l H; auto. destruct l as [|x t]; auto. simpl in *.
    pose proof (skipn_length k t). lia.
  Qed.
  Lemma dl_decisions : forall (s : state), Inv T s -> decision_level s = length (decisions s).
  Proof. intros s I. unfold decision_level. symmetry. apply (i_decs_len T s (proj1 I)). Qed.
  Lemma qempty_true : forall (s : state), qempty s = true -> prop_q s = [].
  Proof. intros s H. unfold qempty in H. destruct (prop_q s); auto. discriminate. Qed.
  Lemma lits_in_range_true : forall (s : state) l, lits_in_range s l = true -> forall x, In x l -> fst x < length (assigns s).
  Proof. intros s l H x Hx. unfold lits_in_range in H. rewrite forallb_forall in H. apply Nat.ltb_lt. apply (H x Hx). Qed.

  (* the meaning of an answer *)
  Definition answer_sound (s : state) (o : op) (s' : state) (r : outcome) : Prop :=
    match o with
    | OCheck l => r = RFalse -> unsat T (axioms (log s') ++ units (decisions s) ++ units l)
    | ONext => r = RFalse -> root_level s = false -> unsat T (axioms (log s'))
    | _ => r = RFalse -> root_level s' = true /\ unsat T (axioms (log s'))
    end.

  Lemma lemma_ok_tstep : forall s s' lem, tstep s s' -> lemma_ok s lem -> lemma_ok s' lem.
  Proof.
    intros s s' lem (A1 & A2 & A3 & A4 & A5 & A6) (B1 & B2 & B3 & B4 & B5 & B6).
    unfold lemma_ok. rewrite A1, A3. repeat split; auto. intros r Hr. pose proof (B4 r Hr) as Hv. rewrite A5. exact Hv. rewrite Hv. discriminate.
  Qed.

  Lemma record_lemma_inv : forall (s : state) lem, Inv T s -> lemma_ok s lem -> Inv T (record sort s 2 lem).
  Proof.
    intros s lem I (B1 & B2 & B3 & B4 & B5 & B6). apply record_inv; auto.
    - split. discriminate. intros _. exact B1.
    - eapply entails_mono; [|exact B1]. intros x [].
    - intros r Hr. apply (value_lit_false T s r (proj1 I)). auto.
  Qed.

  Lemma lemmas_inv : forall lemmas (s : state), Inv T s -> Forall (lemma_ok s) lemmas ->
    let s' := fold_left (fun s l => record sort s 2 l) lemmas s in Inv T s' /\ tstep s s' /\ ub s' = ub s.
  Proof.
    induction lemmas as [|lem t IH]; intros s I Hl; simpl. split; auto. split; auto. apply tstep_refl.
    inversion Hl; subst. pose proof (record_lemma_inv s lem I H1) as I1. pose proof (record_tstep s lem I) as T1.
    destruct (IH (record sort s 2 lem) I1) as (I2 & T2 & U2).
    { eapply Forall_impl; [|exact H2]. intros a Ha. eapply lemma_ok_tstep; eauto. }
    split; auto. split. eapply tstep_trans; eauto. rewrite U2. apply (record_ubs sort sort_perm). apply H1.
  Qed.

  Lemma apply_theory_inv : forall (s : state) r s' cf, Inv T s -> th_result_ok s r -> apply_theory sort s r = (s', cf) ->
    Inv T s' /\ tstep s s' /\ ub s' = ub s /\ cf = snd r /\ (snd (fst r) = [] -> s' = set_thst s (fst (fst r))).
  Proof.
    intros s [[ts lemmas] cf0] s' cf I [H1 H2] E. unfold apply_theory in E. inversion E; subst. simpl in *.
    destruct (lemmas_inv lemmas (set_thst s ts) (set_thst_inv T s ts I) H1) as (I2 & T2 & U2).
    split; auto. split. exact T2. split. exact U2. split; auto. intros ->. reflexivity.
  Qed.

  (* a theory conflict is still false, and still involves the current level, after the lemmas of the same call *)
  Lemma cnfl_ok_transfer : forall (s s' : state) cnfl, Inv T s -> tstep s s' -> cnfl_ok s cnfl ->
    (forall r, In r cnfl -> value_lit s' r = LF) /\
    (trail_lim s' <> [] -> exists r, In r cnfl /\ In (lneg r) (trail s') /\ lvl s' (lneg r) = decision_level s').
  Proof.
    intros s s' cnfl I (A1 & A2 & A3 & A4 & A5 & A6) (B1 & B2 & B3). split.
    - intros r Hr. pose proof (B2 r Hr) as Hv. rewrite A5. exact Hv. rewrite Hv. discriminate.
    - rewrite A1. intros Hn. destruct (B3 Hn) as [r [Hr Hl]]. exists r. split; auto.
      destruct (value_lit_false T s r (proj1 I) (B2 r Hr)) as [Hin| ->].
      + destruct (A6 _ Hin) as [G1 G2]. split; auto. unfold decision_level in *. rewrite G2, A1. exact Hl.
      + exfalso. unfold lvl in Hl. simpl in Hl. rewrite (lvl_var0 T s (proj1 I)) in Hl.
        unfold decision_level in Hl. destruct (trail_lim s); auto. discriminate.
  Qed.

  (* what a call of propagate() establishes *)
  Definition PF (s s' : state) (r : outcome) : Prop :=
    axioms (log s') = axioms (log s) /\ length (assigns s') = length (assigns s) /\
    (exists k, decisions s' = skipn k (decisions s)) /\
    (decisions s' = decisions s \/ unsat T (axioms (log s) ++ units (decisions s))) /\
    (r = RFalse -> root_level s' = true /\ unsat T (axioms (log s)) /\ prop_q s' = []) /\
    (r = RTrue -> prop_q s' = []) /\ ub s' = ub s.

  Lemma PF_keep : forall (s s' : state) r, axioms (log s') = axioms (log s) -> length (assigns s') = length (assigns s) ->
    decisions s' = decisions s -> ub s' = ub s -> r <> RFalse -> (r = RTrue -> prop_q s' = []) -> PF s s' r.
  Proof.
    intros s s' r H1 H2 H3 Hu H4 H5. unfold PF. split; auto. split; auto. split. exists 0. simpl. exact H3.
    split. left. exact H3. split; [intros E; contradiction|]. split; assumption.
  Qed.
  Lemma PF_false : forall (s s' : state), axioms (log s') = axioms (log s) -> length (assigns s') = length (assigns s) ->
    decisions s' = decisions s -> ub s' = ub s -> root_level s' = true -> unsat T (axioms (log s)) -> prop_q s' = [] -> PF s s' RFalse.
  Proof.
    intros s s' H1 H2 H3 Hu H4 H5 H6. unfold PF. split; auto. split; auto. split. exists 0. simpl. exact H3.
    split. left. exact H3. split; [intros _; auto|]. split; [intros E; discriminate|exact Hu].
  Qed.
  (* the same call seen from an earlier state that differs by a frame step *)
  Lemma PF_frame : forall (s s1 s' : state) r, axioms (log s1) = axioms (log s) -> length (assigns s1) = length (assigns s) ->
    decisions s1 = decisions s -> ub s1 = ub s -> PF s1 s' r -> PF s s' r.
  Proof. intros s s1 s' r H1 H2 H3 H4 P. unfold PF in *. rewrite H1, H2, H3, H4 in P. exact P. Qed.

  (* the states main_loop goes through *)
  Definition detached (s : state) (p : lit) (q : list lit) : state :=
    set_watches (set_prop_q s q) (upd (watches s) (index p) []).
  Definition reattached (s : state) (p : lit) (rest : list nat) : state :=
    set_prop_q (set_watches s (upd (watches s) (index p) (nth (index p) (watches s) [] ++ rest))) [].

  (* dequeue p, detach its watch list, visit the watchers *)
  Lemma bcp_spec : forall (s : state) p q s2 res, Inv T s -> prop_q s = p :: q ->
    visit (detached s p q) p (nth (index p) (watches s) []) = (s2, res) ->
    In p (trail s) /\ lvl s p = decision_level s /\ Inv T (detached s p q) /\
    (forall c, In c (nth (index p) (watches s) []) -> c < length (cls s) /\ In (lneg p) (lits_of s c)) /\
    Inv T s2 /\ pstep (detached s p q) s2 /\ In p (trail s2) /\ lvl s2 p = decision_level s2 /\
    match res with
    | None => True
    | Some (c, rest) => Inv T (reattached s2 p rest) /\ c < length (cls s2) /\ In (lneg p) (lits_of s2 c) /\
                        forall l, In l (lits_of s2 c) -> value_lit s2 l = LF
    end.
  Proof.
    intros s p q s2 res I Eq Ev.
    assert (Hp : In p (trail s)). { apply (i_queue T s (proj1 I)). rewrite Eq. simpl; auto. }
    assert (Hpl : lvl s p = decision_level s). { apply (i_queue_lvl T s (proj1 I)). rewrite Eq. simpl; auto. }
    assert (I1 : Inv T (detached s p q)).
    { apply (watch_clear_inv T (set_prop_q s q)). apply set_prop_q_inv; auto. rewrite Eq. intros x Hx. simpl; auto. }
    assert (Htmp : forall c, In c (nth (index p) (watches s) []) -> c < length (cls s) /\ In (lneg p) (lits_of s c)).
    { intros c Hc. destruct (i_watch T s (proj1 I) (index p) c Hc) as [H1 H2]. rewrite lit_of_index_index in H2. auto. }
    destruct (visit_inv T _ (detached s p q) p s2 res I1 Hp Htmp Ev) as (I2 & P2 & Hres).
    repeat (split; [assumption|]). split. eapply pstep_in_trail; eauto. split. apply (pstep_lvl _ _ p P2 Hp Hpl).
    destruct res as [[c rest]|]; [|exact Logic.I]. destruct Hres as (Hc & Hmem & Hfalse & Hrest).
    split; [|auto]. apply set_prop_q_inv. intros x []. apply watch_restore_inv; auto.
  Qed.

  (* a falsified, entailed clause met with the queue flushed: at root level the axioms are unsatisfiable, above it
     analyze takes over *)
  Lemma conflict_spec : forall (s : state) cl, Inv T s -> prop_q s = [] -> entails T (axioms (log s)) cl ->
    (forall l, In l cl -> value_lit s l = LF) ->
    (trail_lim s <> [] -> exists r, In r cl /\ In (lneg r) (trail s) /\ lvl s (lneg r) = decision_level s) ->
    if root_level s then unsat T (axioms (log s)) else conflicting T s cl.
  Proof.
    intros s cl I Hq He Hf Hex. destruct (root_level s) eqn:Er.
    - destruct (root_decisions s (proj1 I) Er) as [_ Hd]. pose proof (conflict_unsat s cl (proj1 I) He Hf) as U.
      rewrite Hd in U. simpl in U. now rewrite app_nil_r in U.
    - destruct (root_level_false s Er) as [Hdl Hne]. split; auto. split; auto. split; auto.
      intros r Hr. apply (value_lit_false T s r (proj1 I)). auto.
  Qed.

  (* assume: a new level is opened, the decision enqueued, then propagate() *)
  Lemma assume_unfold : forall (s : state) p, assume sort th_propagate th_check th_push th_pop FUEL s p =
    let '(s2, ok) := enqueue (push_level s p (th_push (thst s))) p None in
    if ok then propagate sort th_propagate th_check th_pop FUEL s2 else (s2, RFalse).
  Proof. reflexivity. Qed.
  Lemma decide_inv : forall (s s2 : state) p ok, Inv T s -> prop_q s = [] -> fst p < length (assigns s) ->
    enqueue (push_level s p (th_push (thst s))) p None = (s2, ok) -> Inv T s2.
  Proof.
    intros s s2 p ok I Hq Hr Ee. eapply enqueue_inv; [exact (push_level_inv T s p (th_push (thst s)) I Hq)|exact Ee|exact Hr| |].
    - simpl. right. left. reflexivity.
    - apply entails_in. apply in_or_app. right. simpl. auto.
  Qed.

  (* A joint invariant along the operations.  [J] is a property of the states at which main_loop of propagate() starts a
     round (in particular of the states between operations), [K] of the states in which a conflict is handed to analyze
     or answered with `false`.  Whatever survives the state changes listed below - each stated with the invariant and with
     what the model does at that point - survives propagate() [jprop], every operation and every history [joint]. *)
  Record jprop (J K : state -> Prop) : Prop := {
    (* main_loop with the queue empty: check() *)
    jp_check : forall (s : state) ts, Inv T s -> J s -> prop_q s = [] ->
      th_check (thst s) (assigns s) (decision_level s) = (ts, [], None) -> J (set_thst s ts);
    kp_check : forall (s : state) ts cnfl, Inv T s -> J s -> prop_q s = [] ->
      th_check (thst s) (assigns s) (decision_level s) = (ts, [], Some cnfl) -> K (hook (set_thst s ts) 3 cnfl);
    (* a literal is dequeued and its watchers are visited *)
    jp_visit : forall (s : state) p q s2, Inv T s -> J s -> prop_q s = p :: q ->
      visit (detached s p q) p (nth (index p) (watches s) []) = (s2, None) -> J s2;
    kp_visit : forall (s : state) p q s2 c rest, Inv T s -> J s -> prop_q s = p :: q ->
      visit (detached s p q) p (nth (index p) (watches s) []) = (s2, Some (c, rest)) -> K (reattached s2 p rest);
    (* theory::propagate(p) and its lemmas *)
    jp_theory : forall (s : state) p s3, Inv T s -> J s -> In p (trail s) -> lvl s p = decision_level s ->
      apply_theory sort s (th_propagate (thst s) (assigns s) (decision_level s) p) = (s3, None) -> J s3;
    kp_theory : forall (s : state) p s3 cnfl, Inv T s -> J s -> In p (trail s) -> lvl s p = decision_level s ->
      apply_theory sort s (th_propagate (thst s) (assigns s) (decision_level s) p) = (s3, Some cnfl) ->
      K (hook (set_prop_q s3 []) 3 cnfl);
    (* analyze, backjump, record *)
    jp_abr : forall (s : state) cl, Inv T s -> K s -> conflicting T s cl -> J (analyze_backjump_record sort th_pop s cl)
  }.
  (* ... and the state changes of the operations outside propagate() *)
  Record joint (J K : state -> Prop) : Prop := {
    j_prop : jprop J K;
    j_push : forall (s : state) p ts, Inv T s -> J s -> prop_q s = [] -> J (push_level s p ts);
    j_enqueue : forall (s : state) p c s' b, Inv T s -> J s -> enqueue s p c = (s', b) -> J s';
    j_pop : forall (s : state), Inv T s -> J s -> prop_q s = [] -> root_level s = false -> J (pop th_pop s);
    j_nogood : forall (s : state), Inv T s -> J s -> prop_q s = [] -> next_ok s = true -> root_level s = false ->
      J (record sort (pop th_pop s) 1 (map lneg (decisions s)));
    j_new_var : forall (s : state), Inv T s -> J s -> J (fst (new_var s));
    j_new_clause : forall (s : state) l s', Inv T s -> J s -> root_level s = true ->
      (forall x, In x l -> fst x < length (assigns s)) -> new_clause sort s l = (s', true) -> J s';
    (* check() goes on after a `false` of propagate() unless the network is dead *)
    j_of_k : forall (s : state), Inv T s -> K s -> root_level s = true -> root_dead s = false -> J s
  }.

  Section PropagateRule.
    Variables J K : state -> Prop.
    Hypothesis HP : jprop J K.

    Definition JK (s' : state) (r : outcome) : Prop := match r with RFalse => K s' | _ => J s' end.

    Theorem propagate_rule : forall fuel (s s' : state) r, Inv T s -> J s ->
      propagate_f sort th_propagate th_check th_pop fuel s = (s', r) -> Inv T s' /\ PF s s' r /\ JK s' r.
    Proof.
      induction fuel as [|f IH]; intros s s' r I Hj E; cbn [propagate_f] in E.
      { inversion E; subst. split; auto. split; auto. apply PF_keep; auto; discriminate. }
      (* the three conflict branches end alike: `false` at root level, analyze + backjump + record and another round above it *)
      assert (Tail : forall sc cl, Inv T sc -> K sc -> axioms (log sc) = axioms (log s) -> decisions sc = decisions s ->
                length (assigns sc) = length (assigns s) -> ub sc = ub s -> prop_q sc = [] ->
                entails T (axioms (log sc)) cl -> (forall l, In l cl -> value_lit sc l = LF) ->
                (trail_lim sc <> [] -> exists r0, In r0 cl /\ In (lneg r0) (trail sc) /\ lvl sc (lneg r0) = decision_level sc) ->
                (if root_level sc then (sc, RFalse)
                 else propagate_f sort th_propagate th_check th_pop f (analyze_backjump_record sort th_pop sc cl)) = (s', r) ->
                Inv T s' /\ PF s s' r /\ JK s' r).
      { intros sc cl Ic Kc Hax Hd Hn Hu Hq He Hf Hex Et. pose proof (conflict_spec sc cl Ic Hq He Hf Hex) as Hc.
        destruct (root_level sc) eqn:Er.
        - inversion Et; subst. split; [exact Ic|]. split; [|exact Kc]. apply PF_false; auto. rewrite <- Hax. exact Hc.
        - destruct (abr_inv T sort sort_perm th_pop sc cl Ic Hc) as (I5 & [lits Hlog] & [k Hdec] & Hnv & Hub).
          destruct (IH _ _ _ I5 (jp_abr J K HP sc cl Ic Kc Hc) Et) as (I6 & (P1 & P2 & [k2 P3] & P4 & P5 & P6 & P7) & J6).
          split; auto. split; auto. rewrite Hlog, axioms_cons_other, Hax in P1, P5 by discriminate.
          unfold PF. rewrite P1, P2, P7, Hnv, Hub, Hn, Hu. repeat split; auto.
          + exists (k2 + k). rewrite P3, Hdec, Hd. apply skipn_skipn'.
          + right. rewrite <- Hax, <- Hd. apply (conflict_unsat sc cl (proj1 Ic) He Hf).
          + apply P5; auto. + apply P5; auto. + apply P5; auto. }
      destruct (prop_q s) as [|p q] eqn:Eq.
      - (* the queue is empty: check() *)
        destruct (th_check_ok s I) as [Hok Hnil].
        destruct (apply_theory sort s (th_check (thst s) (assigns s) (decision_level s))) as [s3 cf] eqn:Ea.
        destruct (apply_theory_inv s _ s3 cf I Hok Ea) as (I3 & T3 & U3 & Ecf & Es3). specialize (Es3 Hnil).
        destruct (th_check (thst s) (assigns s) (decision_level s)) as [[ts lem] cf0] eqn:Ec. simpl in Hnil, Ecf, Es3. subst lem cf0 s3.
        destruct cf as [cnfl|].
        + destruct Hok as [_ Hc]. specialize (Hc cnfl eq_refl).
          destruct (cnfl_ok_transfer s _ cnfl I T3 Hc) as [Hv Hex]. destruct T3 as (A1 & A2 & A3 & A4 & A5 & A6).
          assert (I4 : Inv T (hook (set_thst s ts) 3 cnfl)).
          { apply hook_inv; auto. split. discriminate. intros _. apply Hc. }
          apply (Tail _ cnfl I4 (kp_check J K HP s ts cnfl I Hj Eq Ec)); auto.
          eapply entails_mono; [|apply Hc]. intros x [].
        + inversion E; subst. split; auto. split. apply PF_keep; auto; discriminate. exact (jp_check J K HP s ts I Hj Eq Ec).
      - (* propagate p: its watchers, then the theory *)
        change (visit (set_watches (set_prop_q s q) (upd (watches (set_prop_q s q)) (index p) [])) p (nth (index p) (watches (set_prop_q s q)) []))
          with (visit (detached s p q) p (nth (index p) (watches s) [])) in E.
        destruct (visit (detached s p q) p (nth (index p) (watches s) [])) as [s2 res] eqn:Ev.
        destruct (bcp_spec s p q s2 res I Eq Ev) as (Hp & Hpl & I1 & Htmp & I2 & P2 & Hp2 & Hpl2 & Hres).
        destruct P2 as (B1 & B2 & B3 & B4 & B5 & [ext B6] & B7 & B8 & B9 & B10 & B11).
        destruct res as [[c rest]|].
        + destruct Hres as (I3 & Hc & Hmem & Hfalse).
          apply (Tail _ (lits_of s2 c) I3 (kp_visit J K HP s p q s2 c rest I Hj Eq Ev)); auto.
          * simpl. now rewrite B1.
          * apply (i_cls_sound T _ (proj1 I3) c). exact Hc.
          * intros _. exists (lneg p). rewrite lneg_invol. auto.
        + pose proof (jp_visit J K HP s p q s2 I Hj Eq Ev) as Hj2. pose proof (th_propagate_ok s2 p I2 Hp2 Hpl2) as Hok.
          destruct (apply_theory sort s2 (th_propagate (thst s2) (assigns s2) (decision_level s2) p)) as [s3 cf] eqn:Ea.
          destruct (apply_theory_inv s2 _ s3 cf I2 Hok Ea) as (I3 & T3 & U3 & Ecf & _).
          assert (Hax3 : axioms (log s3) = axioms (log s)). { destruct T3 as (_ & _ & _ & A4 & _). now rewrite A4, B1. }
          assert (Hd3 : decisions s3 = decisions s). { destruct T3 as (_ & A2 & _). now rewrite A2, B3. }
          assert (Hn3 : length (assigns s3) = length (assigns s)). { destruct T3 as (_ & _ & A3 & _). now rewrite A3, B5. }
          assert (Hu3 : ub s3 = ub s) by (rewrite U3; exact B11).
          destruct cf as [cnfl|].
          * assert (Hc : cnfl_ok s2 cnfl). { apply Hok. symmetry. exact Ecf. }
            destruct (cnfl_ok_transfer s2 s3 cnfl I2 T3 Hc) as [Hv Hex].
            assert (I4 : Inv T (hook (set_prop_q s3 []) 3 cnfl)).
            { apply hook_inv. split. discriminate. intros _. apply Hc. apply set_prop_q_inv; auto. intros x []. }
            apply (Tail _ cnfl I4 (kp_theory J K HP s2 p s3 cnfl I2 Hj2 Hp2 Hpl2 Ea)); auto.
            eapply entails_mono; [|apply Hc]. intros x [].
          * destruct (IH _ _ _ I3 (jp_theory J K HP s2 p s3 I2 Hj2 Hp2 Hpl2 Ea) E) as (I6 & P6 & J6). split; auto. split; auto.
            exact (PF_frame s s3 s' r Hax3 Hn3 Hd3 Hu3 P6).
    Qed.

  End PropagateRule.

  Section Rule.
    Variables J K : state -> Prop.
    Hypothesis HJ : joint J K.
    Notation propagate := (propagate sort th_propagate th_check th_pop FUEL).
    Notation assume := (assume sort th_propagate th_check th_push th_pop FUEL).
    Notation next := (next sort th_propagate th_check th_pop FUEL).
    Notation check_loop := (check_loop sort th_propagate th_check th_push th_pop FUEL).
    Notation pop := (pop th_pop).
    Notation step := (step sort th_propagate th_check th_push th_pop FUEL).
    Notation run := (run sort th_propagate th_check th_push th_pop FUEL).
    Notation run_ok := (run_ok sort th_propagate th_check th_push th_pop FUEL).
    Notation JK := (JK J K).
    Notation propagate_rule := (propagate_rule J K (j_prop J K HJ)).

    (* an operation that ends in propagate() answers `false` either without having propagated, or from a root-level conflict *)
    Definition JF (s' : state) (r : outcome) : Prop :=
      match r with RFalse => J s' \/ (root_level s' = true /\ K s') | _ => J s' end.
    Lemma JK_JF : forall s s' r, PF s s' r -> JK s' r -> JF s' r.
    Proof. intros s s' r P H. destruct r; auto. right. split; auto. apply P. reflexivity. Qed.

    Definition AF (s : state) (p : lit) (s' : state) (r : outcome) : Prop :=
      axioms (log s') = axioms (log s) /\ length (assigns s') = length (assigns s) /\
      (exists k, decisions s' = skipn k (p :: decisions s)) /\
      (decisions s' = p :: decisions s \/ unsat T (axioms (log s) ++ units (p :: decisions s))) /\
      (r = RFalse -> prop_q s' = [] /\ (value_lit s p = LF /\ decisions s' = p :: decisions s \/ root_level s' = true /\ unsat T (axioms (log s)))) /\
      (r = RTrue -> prop_q s' = []) /\ ub s' = ub s.

    Lemma assume_rule : forall (s s' : state) p r, Inv T s -> J s -> prop_q s = [] -> fst p < length (assigns s) ->
      assume s p = (s', r) -> Inv T s' /\ AF s p s' r /\ JF s' r.
    Proof.
      intros s s' p r I Hj Hq Hr E. rewrite assume_unfold in E.
      pose proof (push_level_inv T s p (th_push (thst s)) I Hq) as I1.
      destruct (enqueue (push_level s p (th_push (thst s))) p None) as [s2 ok] eqn:Ee.
      pose proof (decide_inv s s2 p ok I Hq Hr Ee) as I2.
      pose proof (j_enqueue J K HJ _ p None s2 ok I1 (j_push J K HJ s p _ I Hj Hq) Ee) as Hj2.
      destruct (enqueue_frame _ _ _ _ _ Ee) as (B1 & B2 & B3 & B4 & B5 & B6 & B7 & B8 & B9).
      pose proof (enqueue_ubs _ _ _ _ _ Ee) as B10.
      destruct ok.
      - destruct (propagate_rule FUEL s2 s' r I2 Hj2 E) as (I3 & P & Hjk). split; [exact I3|]. split; [|exact (JK_JF _ _ _ P Hjk)].
        destruct P as (P1 & P2 & [k P3] & P4 & P5 & P6 & P7).
        rewrite B3 in P1, P4, P5. rewrite B2 in P3, P4. rewrite B5 in P2. rewrite B10 in P7. simpl in *.
        split; [exact P1|]. split; [exact P2|]. split; [exists k; exact P3|]. split; [exact P4|].
        split; [|split; [exact P6|exact P7]]. intros Er. destruct (P5 Er) as [G1 [G2 G3]]. split; [exact G3|]. right. split; assumption.
      - inversion E; subst. destruct (enqueue_false _ _ _ _ Ee) as [-> Hv].
        split; [exact I1|]. split; [|left; exact Hj2]. split; [reflexivity|]. split; [reflexivity|]. split; [exists 0; reflexivity|].
        split; [left; reflexivity|]. split; [|split; [discriminate|reflexivity]]. intros _. split. exact Hq. left. split; [exact Hv|reflexivity].
    Qed.

    Lemma pop_until_rule : forall fuel bt (s : state), Inv T s -> J s -> prop_q s = [] -> J (pop_until_f th_pop fuel bt s).
    Proof.
      intros fuel bt s I Hj Hq. apply (pop_until_ind T th_pop J bt); auto.
      intros s1 I1 Hq1 Hlt Hj1. apply (j_pop J K HJ); auto.
      unfold decision_level, root_level in *. destruct (trail_lim s1); auto. simpl in Hlt. lia.
    Qed.

    Lemma next_rule : forall (s s' : state) r, Inv T s -> J s -> prop_q s = [] -> next_ok s = true -> next s = (s', r) ->
      Inv T s' /\ length (assigns s') = length (assigns s) /\ (r = RTrue -> prop_q s' = []) /\
      (r = RFalse -> root_level s = false -> root_level s' = true /\ unsat T (axioms (log s'))) /\
      ub s' = ub s /\ JF s' r.
    Proof.
      intros s s' r I Hj Hq Hok E. unfold SatCore.next in E. destruct (root_level s) eqn:Er.
      - inversion E; subst. split; auto. split; auto. split. discriminate. split. intros _ H. congruence. split; auto. left. exact Hj.
      - pose proof (next_mid_inv s I Hq Hok Er) as I2.
        destruct (propagate_rule FUEL _ s' r I2 (j_nogood J K HJ s I Hj Hq Hok Er) E) as (I3 & P & Hjk).
        split; auto. pose proof (JK_JF _ _ _ P Hjk) as Hjf. destruct P as (P1 & P2 & _ & _ & P5 & P6 & P7).
        destruct (record_frame sort (pop s) 1 (map lneg (decisions s))) as (_ & _ & _ & _ & F5 & _).
        destruct (pop_inv T th_pop s I Hq) as (_ & (_ & _ & B3 & _) & _). destruct (root_level_false s Er) as [_ Hne].
        split. congruence. split; auto. split. intros Ef _. destruct (P5 Ef) as [G1 [G2 _]]. split; auto. now rewrite P1.
        split; auto. rewrite P7, (record_ubs sort sort_perm). apply (pop_ubs th_pop s Hne).
        destruct (decisions s) eqn:Ed; [|discriminate]. exfalso. pose proof (i_decs_len T s (proj1 I)) as Hl. rewrite Ed in Hl.
        destruct (trail_lim s); [contradiction|discriminate].
    Qed.

    Lemma check_loop_rule : forall lits (s : state) c_rl s' r, Inv T s -> J s -> prop_q s = [] ->
      (forall l, In l lits -> fst l < length (assigns s)) -> check_loop s c_rl lits = (s', r) ->
      Inv T s' /\ axioms (log s') = axioms (log s) /\ length (assigns s') = length (assigns s) /\
      (r = RFalse -> unsat T (axioms (log s) ++ units (decisions s) ++ units lits)) /\
      (r <> ROutOfFuel -> prop_q s' = []) /\ ub s' = ub s /\ JF s' r.
    Proof.
      (* leaving the loop: pop_until c_rl, which does nothing at root level *)
      assert (Out : forall (s1 : state) c_rl r, Inv T s1 -> prop_q s1 = [] -> J s1 \/ (root_level s1 = true /\ K s1) ->
                Inv T (pop_until th_pop c_rl s1) /\ log (pop_until th_pop c_rl s1) = log s1 /\
                length (assigns (pop_until th_pop c_rl s1)) = length (assigns s1) /\ prop_q (pop_until th_pop c_rl s1) = [] /\
                ub (pop_until th_pop c_rl s1) = ub s1 /\ (J s1 -> J (pop_until th_pop c_rl s1)) /\
                (r = RFalse -> JF (pop_until th_pop c_rl s1) r)).
      { intros s1 c_rl r I1 Hq1 Hjk. unfold pop_until.
        destruct (pop_until_inv T th_pop (decision_level s1) c_rl s1 I1 Hq1) as (I2 & B & _).
        destruct B as (B1 & B2 & B3 & B4 & B5 & B6 & B7 & B8).
        split; auto. split; auto. split; auto. split. congruence. split. apply pop_until_ubs.
        split. intros Hj1. apply pop_until_rule; auto.
        intros ->. destruct Hjk as [Hj1|[Hr1 Hk1]]. left. apply pop_until_rule; auto.
        right. assert (Ez : pop_until_f th_pop (decision_level s1) c_rl s1 = s1).
        { unfold decision_level, root_level in *. destruct (trail_lim s1); [reflexivity|discriminate]. }
        rewrite Ez. auto. }
      induction lits as [|p t IH]; intros s c_rl s' r I Hj Hq Hr E; simpl in E.
      - inversion E; subst. destruct (Out s c_rl RTrue I Hq (or_introl Hj)) as (I1 & A1 & A2 & A3 & A4 & A5 & _).
        split; auto. split. now rewrite A1. split; auto. split. discriminate. split; auto. split; auto. apply A5. exact Hj.
      - destruct (assume s p) as [s1 r1] eqn:Ea.
        destruct (assume_rule s s1 p r1 I Hj Hq (Hr p (or_introl eq_refl)) Ea) as (I1 & (X1 & X2 & [k1 X3] & X4 & X5 & X6 & X7) & Hj1).
        assert (Hw1 : incl (axioms (log s) ++ units (p :: decisions s)) (axioms (log s) ++ units (decisions s) ++ units (p :: t))).
        { apply units_shift. }
        assert (Hw0 : incl (axioms (log s)) (axioms (log s) ++ units (decisions s) ++ units (p :: t))) by (apply incl_appl, incl_refl).
        destruct r1.
        + (* assume succeeded: propagate once more *)
          specialize (X6 eq_refl). simpl in Hj1.
          destruct (propagate s1) as [s2 r2] eqn:Ep.
          destruct (propagate_rule FUEL s1 s2 r2 I1 Hj1 Ep) as (I2 & P & Hj2). pose proof (JK_JF _ _ _ P Hj2) as Hjf2.
          destruct P as (P1 & P2 & [k2 P3] & P4 & P5 & P6 & P7).
          destruct r2.
          * specialize (P6 eq_refl). simpl in Hj2.
            assert (Hbj : decisions s2 = p :: decisions s \/ unsat T (axioms (log s) ++ units (decisions s) ++ units (p :: t))).
            { destruct X4 as [X4|X4]; [|right; exact (unsat_mono _ _ Hw1 X4)].
              destruct P4 as [P4|P4]. left. now rewrite P4. right. rewrite X1, X4 in P4. exact (unsat_mono _ _ Hw1 P4). }
            destruct (Nat.leb_spec (decision_level s2) (decision_level s)) as [Hle|Hgt].
            -- inversion E; subst. destruct (Out s2 c_rl RFalse I2 P6 (or_introl Hj2)) as (I3 & A1 & A2 & A3 & A4 & A5 & A6).
               split; auto. split. rewrite A1, P1, X1. reflexivity. split. rewrite A2, P2, X2. reflexivity.
               split; [|split; [auto|split; [congruence|auto]]]. intros _. destruct Hbj as [Hbj|Hbj]; auto. exfalso.
               rewrite (dl_decisions s2 I2), (dl_decisions s I), Hbj in Hle. simpl in Hle. lia.
            -- assert (Hd2 : decisions s2 = p :: decisions s).
               { assert (Hl2 : length (p :: decisions s) <= length (decisions s2)).
                 { rewrite (dl_decisions s2 I2), (dl_decisions s I) in Hgt. simpl. exact Hgt. }
                 rewrite P3, X3, skipn_skipn' in Hl2 |- *. apply skipn_full. exact Hl2. }
               destruct (IH s2 c_rl s' r I2 Hj2 P6) as (I3 & A1 & A2 & A3 & A4 & A5 & A6); auto.
               { intros l Hl. rewrite P2, X2. apply Hr. simpl; auto. }
               split; auto. split. rewrite A1, P1, X1. reflexivity. split. rewrite A2, P2, X2. reflexivity.
               split; [|split; [auto|split; [congruence|auto]]]. intros Er. specialize (A3 Er). rewrite P1, X1, Hd2 in A3.
               eapply unsat_mono; [|exact A3]. apply units_shift_app.
          * destruct (P5 eq_refl) as [G1 [G2 G3]]. inversion E; subst.
            destruct (Out s2 c_rl RFalse I2 G3 Hjf2) as (I3 & A1 & A2 & A3 & A4 & A5 & A6).
            split; auto. split. rewrite A1, P1, X1. reflexivity. split. rewrite A2, P2, X2. reflexivity.
            split; [|split; [auto|split; [congruence|auto]]]. intros _. rewrite X1 in G2. exact (unsat_mono _ _ Hw0 G2).
          * inversion E; subst. split; auto. split. rewrite P1, X1. reflexivity. split. rewrite P2, X2. reflexivity.
            split. discriminate. split. intros H. contradiction. split. congruence. exact Hj2.
        + destruct (X5 eq_refl) as [G1 G2]. inversion E; subst.
          destruct (Out s1 c_rl RFalse I1 G1 Hj1) as (I3 & A1 & A2 & A3 & A4 & A5 & A6).
          split; auto. split. rewrite A1, X1. reflexivity. split. rewrite A2, X2. reflexivity.
          split; [|split; [auto|split; [congruence|auto]]]. intros _. destruct G2 as [[Hv Hd]|[_ Hu]].
          * intros a Ta M. pose proof (false_entailed T s p (proj1 I) (value_lit_false T s p (proj1 I) Hv) a Ta) as Hn.
            apply models_app in M. destruct M as [M1 M2]. apply models_app in M2. destruct M2 as [M2 M3].
            assert (M12 : models a (axioms (log s) ++ units (decisions s))) by (apply models_app; auto).
            specialize (Hn M12). apply sat_clause_single in Hn. apply sat_lit_neg in Hn. apply Hn.
            apply sat_clause_single. apply M3. simpl. auto.
          * exact (unsat_mono _ _ Hw0 Hu).
        + inversion E; subst. split; auto. split; auto. split; auto. split. discriminate. split. intros H. contradiction. split; auto.
    Qed.

    Definition keeps_simplify : Prop := forall (s : state), Inv T s -> J s -> root_level s = true -> prop_q s = [] ->
      J (simplify_loop s (constrs s) []).
    Definition simplify_keeps_ub : Prop := forall (s : state), Inv T s -> J s -> root_level s = true -> prop_q s = [] ->
      ub (simplify_loop s (constrs s) []) = ub s.

    Theorem step_rule : forall (s : state) o s' r, Inv T s -> J s -> pre s o = true -> step s o = (s', r) ->
      (o = OSimplify -> keeps_simplify) ->
      (ub s' = false -> Inv T s') /\ answer_sound s o s' r /\ length (assigns s) <= length (assigns s') /\
      ((o = OSimplify -> r = RTrue -> simplify_keeps_ub) -> ub s' = ub s) /\ (dead_after o s' r = false -> J s').
    Proof.
      intros s o s' r I Hj Hpre E Hsimp. destruct o; simpl in E, Hpre.
      - inversion E; subst. split. intros _. now apply new_var_inv. split. simpl. discriminate.
        split. simpl. rewrite app_length. lia. split; auto. intros _. exact (j_new_var J K HJ s I Hj).
      - apply andb_true_iff in Hpre. destruct Hpre as [Hroot Hr].
        destruct (new_clause sort s l) as [s1 b] eqn:En. inversion E; subst.
        destruct (new_clause_inv s l s' b I Hroot (lits_in_range_true s l Hr) En) as (I1 & H1 & H2 & H3 & H4 & H5 & H6 & H7).
        assert (Hr' : root_level s' = true) by (unfold root_level in *; now rewrite H3).
        split; auto. split; [|split; [lia|split; [auto|]]].
        + simpl. intros Hb. destruct b; try discriminate. split; auto.
        + simpl. rewrite Hr'. destruct b; [intros _|discriminate]. exact (j_new_clause J K HJ s l s' I Hj Hroot (lits_in_range_true s l Hr) En).
      - apply andb_true_iff in Hpre. destruct Hpre as [Hpre Hu]. apply andb_true_iff in Hpre. destruct Hpre as [Hq Hr].
        destruct (assume_rule s s' p r I Hj (qempty_true s Hq) (proj1 (Nat.ltb_lt _ _) Hr) E) as (I1 & (X1 & X2 & X3 & X4 & X5 & X6 & X7) & Hjf).
        assert (Hf : r = RFalse -> root_level s' = true /\ unsat T (axioms (log s))).
        { intros Er. destruct (X5 Er) as [_ [[Hv _]|G]]; auto. unfold lbool_eqb in Hu. rewrite Hv in Hu. discriminate. }
        split; auto. split; [|split; [lia|split; [auto|]]].
        + simpl. intros Er. destruct (Hf Er). split; auto. now rewrite X1.
        + simpl. destruct r; auto. rewrite (proj1 (Hf eq_refl)). discriminate.
      - destruct (propagate_rule FUEL s s' r I Hj E) as (I1 & (P1 & P2 & P3 & P4 & P5 & P6 & P7) & Hjk).
        split; auto. split; [|split; [lia|split; [auto|]]].
        + simpl. intros Er. destruct (P5 Er) as [G1 [G2 _]]. split; auto. now rewrite P1.
        + simpl. destruct r; auto. rewrite (proj1 (P5 eq_refl)). discriminate.
      - apply andb_true_iff in Hpre. destruct Hpre as [Hnr Hq]. inversion E; subst. apply negb_true_iff in Hnr.
        destruct (pop_inv T th_pop s I (qempty_true s Hq)) as (I1 & B & _). split; auto. split. simpl. discriminate.
        split. destruct B as (_ & _ & B3 & _). lia. split. intros _. apply pop_ubs. apply (root_level_false s Hnr).
        intros _. apply (j_pop J K HJ); auto. now apply qempty_true.
      - apply andb_true_iff in Hpre. destruct Hpre as [Hq Hok].
        destruct (next_rule s s' r I Hj (qempty_true s Hq) Hok E) as (I1 & N1 & N2 & N3 & N4 & Hjf).
        split; auto. split; [|split; [lia|split; [auto|]]].
        + simpl. intros Er Hnr. apply (N3 Er Hnr).
        + simpl. destruct r; auto. destruct Hjf as [H|[H _]]; auto. rewrite H. discriminate.
      - apply andb_true_iff in Hpre. destruct Hpre as [Hq Hr]. unfold check in E.
        destruct (check_loop_rule l s (decision_level s) s' r I Hj (qempty_true s Hq) (lits_in_range_true s l Hr) E) as (I1 & C1 & C2 & C3 & C4 & C5 & Hjf).
        split; auto. split; [|split; [lia|split; [auto|]]].
        + unfold answer_sound. intros Er. rewrite C1. apply C3. exact Er.
        + simpl. destruct r; auto. destruct Hjf as [H|[H1 H2]]; [auto|]. intros Hd. apply (j_of_k J K HJ); auto.
      - unfold simplify_db in E. destruct (SatCore.propagate sort th_propagate th_check th_pop FUEL s) as [s1 r1] eqn:Ep.
        destruct (propagate_rule FUEL s s1 r1 I Hj Ep) as (I1 & (P1 & P2 & [k P3] & P4 & P5 & P6 & P7) & Hjk).
        destruct r1; inversion E; subst.
        + assert (Hr1 : root_level s1 = true).
          { destruct (root_decisions s (proj1 I) Hpre) as [_ Hd]. rewrite Hd in P3. rewrite skipn_nil in P3.
            unfold root_level. pose proof (i_decs_len T s1 (proj1 I1)) as Hl. rewrite P3 in Hl. destruct (trail_lim s1); auto. discriminate. }
          split. intros Hub. apply (simplify_loop_inv (constrs s1) s1 [] I1 Hr1 Hub).
          split. simpl. discriminate.
          split. destruct (simplify_loop_same (constrs s1) s1 []) as (_ & C2 & _). rewrite C2. lia.
          split. intros Hk. rewrite (Hk eq_refl eq_refl s1 I1 Hjk Hr1 (P6 eq_refl)). exact P7.
          intros _. apply (Hsimp eq_refl); auto.
        + split; auto. split; [|split; [lia|split; [auto|]]]. simpl. intros _. destruct (P5 eq_refl) as [G1 [G2 _]]. split; auto. now rewrite P1.
          simpl. rewrite (proj1 (P5 eq_refl)). discriminate.
        + split; auto. split; [|split; [lia|split; [auto|]]]. simpl. discriminate. simpl. auto.
    Qed.

    (* histories whose last state is known not to have raised [ub]; `run_ok (ops ++ [o])` for some further operation o says
       that no operation of ops left the network dead, i.e. that the history can be continued *)
    Theorem run_rule : forall ops o (s : state), Inv T s -> J s -> run_ok (ops ++ [o]) s = true -> ub (run ops s) = false ->
      (In OSimplify ops -> keeps_simplify) -> Inv T (run ops s) /\ J (run ops s).
    Proof.
      induction ops as [|x t IH]; intros o s I Hj Hok Hub Hsimp; simpl in *. auto.
      apply andb_true_iff in Hok. destruct Hok as [Hpre Hok].
      destruct (step s x) as [s1 r] eqn:E. simpl in *.
      assert (Hub1 : ub s1 = false).
      { destruct (ub s1) eqn:U; auto. pose proof (run_ub sort th_propagate th_check th_push th_pop FUEL t s1 U). congruence. }
      destruct (step_rule s x s1 r I Hj Hpre E) as (I1 & _ & _ & _ & Hj1). intros ->. auto.
      destruct (dead_after x s1 r) eqn:Ed.
      - destruct t; simpl in Hok; discriminate.
      - apply (IH o s1 (I1 Hub1) (Hj1 eq_refl) Hok Hub). auto.
    Qed.

    (* ... or along which simplify_db does not raise it *)
    Theorem run_rule_no_ub : forall ops (s : state), Inv T s -> J s -> ub s = false -> run_ok ops s = true ->
      (In OSimplify ops -> keeps_simplify /\ simplify_keeps_ub) -> ub (run ops s) = false.
    Proof.
      induction ops as [|x t IH]; intros s I Hj Hub Hok Hsimp; simpl in *. auto.
      apply andb_true_iff in Hok. destruct Hok as [Hpre Hok].
      destruct (step s x) as [s1 r] eqn:E. simpl in *.
      destruct (step_rule s x s1 r I Hj Hpre E) as (I1 & _ & _ & U1 & Hj1). { intros ->. apply Hsimp. auto. }
      assert (Hub1 : ub s1 = false). { rewrite U1; auto. intros -> _. apply Hsimp. auto. }
      destruct (dead_after x s1 r) eqn:Ed.
      - destruct t; [exact Hub1|discriminate].
      - apply (IH s1 (I1 Hub1) (Hj1 eq_refl) Hub1 Hok). auto.
    Qed.
  End Rule.

  Notation propagate := (propagate sort th_propagate th_check th_pop FUEL).
  Notation assume := (assume sort th_propagate th_check th_push th_pop FUEL).
  Notation step := (step sort th_propagate th_check th_push th_pop FUEL).
  Notation run := (run sort th_propagate th_check th_push th_pop FUEL).
  Notation run_ok := (run_ok sort th_propagate th_check th_push th_pop FUEL).

  (* the invariant alone *)
  Lemma joint_true : joint (fun _ => True) (fun _ => True).
  Proof. repeat constructor. Qed.
  Lemma joint_conj : forall J1 K1 J2 K2, joint J1 K1 -> joint J2 K2 ->
    joint (fun s => J1 s /\ J2 s) (fun s => K1 s /\ K2 s).
  Proof.
    intros J1 K1 J2 K2 [[A1 A2 A3 A4 A5 A6 A7] A8 A9 A10 A11 A12 A13 A14] [[B1 B2 B3 B4 B5 B6 B7] B8 B9 B10 B11 B12 B13 B14].
    constructor; [constructor|..].
    - intros s ts I [H1 H2] Hq E. split; [exact (A1 s ts I H1 Hq E)|exact (B1 s ts I H2 Hq E)].
    - intros s ts cnfl I [H1 H2] Hq E. split; [exact (A2 s ts cnfl I H1 Hq E)|exact (B2 s ts cnfl I H2 Hq E)].
    - intros s p q s2 I [H1 H2] Hq E. split; [exact (A3 s p q s2 I H1 Hq E)|exact (B3 s p q s2 I H2 Hq E)].
    - intros s p q s2 c rest I [H1 H2] Hq E. split; [exact (A4 s p q s2 c rest I H1 Hq E)|exact (B4 s p q s2 c rest I H2 Hq E)].
    - intros s p s3 I [H1 H2] Hp Hl E. split; [exact (A5 s p s3 I H1 Hp Hl E)|exact (B5 s p s3 I H2 Hp Hl E)].
    - intros s p s3 cnfl I [H1 H2] Hp Hl E. split; [exact (A6 s p s3 cnfl I H1 Hp Hl E)|exact (B6 s p s3 cnfl I H2 Hp Hl E)].
    - intros s cl I [H1 H2] Hc. split; [exact (A7 s cl I H1 Hc)|exact (B7 s cl I H2 Hc)].
    - intros s p ts I [H1 H2] Hq. split; [exact (A8 s p ts I H1 Hq)|exact (B8 s p ts I H2 Hq)].
    - intros s p c s' b I [H1 H2] E. split; [exact (A9 s p c s' b I H1 E)|exact (B9 s p c s' b I H2 E)].
    - intros s I [H1 H2] Hq Hr. split; [exact (A10 s I H1 Hq Hr)|exact (B10 s I H2 Hq Hr)].
    - intros s I [H1 H2] Hq Hn Hr. split; [exact (A11 s I H1 Hq Hn Hr)|exact (B11 s I H2 Hq Hn Hr)].
    - intros s I [H1 H2]. split; [exact (A12 s I H1)|exact (B12 s I H2)].
    - intros s l s' I [H1 H2] Hr Hl E. split; [exact (A13 s l s' I H1 Hr Hl E)|exact (B13 s l s' I H2 Hr Hl E)].
    - intros s I [H1 H2] Hr Hd. split; [exact (A14 s I H1 Hr Hd)|exact (B14 s I H2 Hr Hd)].
  Qed.
  Lemma assume_inv : forall (s s' : state) p r, Inv T s -> prop_q s = [] -> fst p < length (assigns s) ->
    assume s p = (s', r) -> Inv T s' /\ AF s p s' r.
  Proof. intros s s' p r I Hq Hr E. destruct (assume_rule _ _ joint_true s s' p r I Logic.I Hq Hr E) as (I' & A & _). auto. Qed.
  Lemma step_inv : forall (s : state) o s' r, Inv T s -> pre s o = true -> step s o = (s', r) -> ub s' = false ->
    Inv T s' /\ answer_sound s o s' r /\ length (assigns s) <= length (assigns s').
  Proof.
    intros s o s' r I Hpre E Hub.
    destruct (step_rule _ _ joint_true s o s' r I Logic.I Hpre E) as (I' & A & N & _); auto. intros _ ? _ _ _ _. exact Logic.I.
  Qed.
  Lemma run_inv : forall ops (s : state), Inv T s -> run_ok ops s = true -> ub (run ops s) = false -> Inv T (run ops s).
  Proof.
    induction ops as [|o t IH]; intros s I Hok Hub; simpl in *. exact I.
    apply andb_true_iff in Hok. destruct Hok as [Hpre Hok].
    destruct (step s o) as [s1 r] eqn:E. simpl in *.
    assert (Hub1 : ub s1 = false).
    { destruct (ub s1) eqn:U; auto. pose proof (run_ub sort th_propagate th_check th_push th_pop FUEL t s1 U). congruence. }
    destruct (step_inv s o s1 r I Hpre E Hub1) as (I1 & _).
    destruct (dead_after o s1 r).
    - destruct t; try discriminate. simpl. exact I1.
    - apply IH; auto.
  Qed.

  Lemma init_inv : forall ts : TS, Inv T (init ts).
  Proof.
    intros ts. unfold init. split; [constructor|]; simpl; auto.
    - constructor.
    - intros q [].
    - intros v Hv. destruct v; [lia|]. unfold tr_val. simpl. destruct v; reflexivity.
    - intros v _. destruct v as [|[|v]]; auto.
    - constructor.
    - intros c l H. unfold lits_of in H. simpl in H. destruct c; destruct H.
    - intros c l H. unfold lits_of in H. simpl in H. destruct c; destruct H.
    - intros i c H. destruct i as [|[|i]]; simpl in H; try destruct H. destruct i; destruct H.
    - intros p [].
    - intros c Hc. lia.
    - constructor.
  Qed.

  Lemma run_ok_app : forall ops o (s : state), run_ok (ops ++ [o]) s = true -> run_ok ops s = true /\ pre (run ops s) o = true.
  Proof.
    induction ops as [|x t IH]; intros o s H; simpl in *.
    - apply andb_true_iff in H. destruct H as [H _]. auto.
    - apply andb_true_iff in H. destruct H as [Hpre H]. rewrite Hpre. simpl.
      destruct (step s x) as [s1 r] eqn:E. simpl. destruct (dead_after x s1 r).
      + destruct t; simpl in H; discriminate.
      + apply IH. exact H.
  Qed.
End Run.
