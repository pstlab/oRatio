(* The invariant of the sat_core model (smt/SatCore.v), facts on the specification vocabulary it is stated in, and what it
   says about values.  Its preservation starts in SatCorePrim_Proofs.  Everything is parametric in the attached theory. *)
From Coq Require Import List Arith Bool Lia Sorted.
From ORatio Require Import smt.SatCoreBase smt.SatCoreSpec smt.SatCore proofs.SatCoreBase_Proofs.
Import ListNotations.

Lemma trail_ok_impl : forall (P Q : lit -> list lit -> Prop) tr,
  (forall pre q suf, tr = pre ++ q :: suf -> P q suf -> Q q suf) -> trail_ok P tr -> trail_ok Q tr.
Proof.
  induction tr as [|q suf IH]; simpl; intros H Hok; auto. destruct Hok as [Hq Hs]. split.
  - apply (H [] q suf); auto.
  - apply IH; auto. intros pre q' suf' E. apply (H (q :: pre)). simpl. now f_equal.
Qed.
Lemma trail_ok_in : forall P tr pre q suf, trail_ok P tr -> tr = pre ++ q :: suf -> P q suf.
Proof.
  induction tr as [|x t IH]; intros pre q suf H E. destruct pre; discriminate.
  destruct pre as [|y pre]; simpl in E; inversion E; subst. apply H. simpl in H. eapply IH; eauto. apply H.
Qed.
Lemma trail_ok_suffix : forall P pre suf, trail_ok P (pre ++ suf) -> trail_ok P suf.
Proof. induction pre; simpl; intros; auto. apply IHpre. apply H. Qed.

Lemma lvl_at_le : forall lims pos, lvl_at lims pos <= length lims.
Proof.
  intros. unfold lvl_at. induction lims as [|l t IH]; simpl; auto. destruct (Nat.leb l pos); simpl; lia.
Qed.
Lemma lvl_at_cons : forall lim lims pos, lvl_at (lim :: lims) pos = (if Nat.leb lim pos then 1 else 0) + lvl_at lims pos.
Proof. intros. unfold lvl_at. simpl. destruct (Nat.leb lim pos); auto. Qed.
Lemma lvl_at_mono : forall lims p1 p2, p1 <= p2 -> lvl_at lims p1 <= lvl_at lims p2.
Proof.
  induction lims as [|l t IH]; intros p1 p2 H. auto. rewrite !lvl_at_cons. specialize (IH p1 p2 H).
  destruct (Nat.leb_spec l p1), (Nat.leb_spec l p2); lia.
Qed.
Lemma lvl_at_full : forall lims pos, Forall (fun lim => lim <= pos) lims -> lvl_at lims pos = length lims.
Proof.
  induction lims as [|l t IH]; intros pos H. auto. inversion H; subst. rewrite lvl_at_cons, IH; auto.
  destruct (Nat.leb_spec l pos); simpl; lia.
Qed.
Lemma lvl_at_full_inv : forall lims pos, lvl_at lims pos = length lims -> Forall (fun lim => lim <= pos) lims.
Proof.
  induction lims as [|l t IH]; intros pos H. constructor. rewrite lvl_at_cons in H. simpl length in H.
  pose proof (lvl_at_le t pos) as Hle. destruct (Nat.leb_spec l pos) as [Hl|Hl].
  - constructor. exact Hl. apply IH. lia.
  - exfalso. lia.
Qed.
Lemma lvl_at_zero : forall lims pos, lvl_at lims pos = 0 -> forall lim, In lim lims -> pos < lim.
Proof.
  induction lims as [|l t IH]; intros pos H lim Hin. destruct Hin.
  rewrite lvl_at_cons in H. destruct (Nat.leb_spec l pos) as [Hl|Hl]. exfalso; lia.
  destruct Hin as [<-|Hin]. exact Hl. apply IH; auto.
Qed.
Lemma decs_at_zero : forall lims decs pos, lvl_at lims pos = 0 -> decs_at lims decs pos = [].
Proof.
  induction lims as [|l t IH]; intros [|d ds] pos H; simpl; auto. rewrite lvl_at_cons in H.
  destruct (Nat.leb_spec l pos); try lia. simpl. apply IH. lia.
Qed.
Lemma decs_at_incl : forall lims decs pos, incl (decs_at lims decs pos) decs.
Proof.
  induction lims as [|l t IH]; intros [|d ds] pos; simpl; try (intros x []).
  destruct (Nat.leb l pos); simpl. apply incl_cons. simpl; auto. apply incl_tl, IH. apply incl_tl, IH.
Qed.
Lemma decs_at_mono : forall lims decs p1 p2, p1 <= p2 -> incl (decs_at lims decs p1) (decs_at lims decs p2).
Proof.
  induction lims as [|l t IH]; intros [|d ds] p1 p2 H; simpl; try (intros x []).
  specialize (IH ds p1 p2 H).
  destruct (Nat.leb_spec l p1), (Nat.leb_spec l p2); try lia; simpl.
  - apply incl_cons. simpl; auto. apply incl_tl; auto.
  - apply incl_tl; auto.
  - auto.
Qed.

Lemma tr_val_cons : forall q tr v, tr_val (q :: tr) v = if Nat.eqb (fst q) v then lbool_of_bool (snd q) else tr_val tr v.
Proof. intros. unfold tr_val. simpl. destruct (Nat.eqb (fst q) v); auto. Qed.
Lemma tr_val_notin : forall tr v, ~ In v (map fst tr) -> tr_val tr v = LU.
Proof.
  induction tr as [|q t IH]; intros v H. auto. rewrite tr_val_cons. simpl in H.
  destruct (Nat.eqb_spec (fst q) v). exfalso; auto. apply IH. auto.
Qed.
Lemma tr_val_in : forall tr q, NoDup (map fst tr) -> In q tr -> tr_val tr (fst q) = lbool_of_bool (snd q).
Proof.
  induction tr as [|x t IH]; intros q ND Hin. destruct Hin.
  rewrite tr_val_cons. destruct Hin as [->|Hin].
  - now rewrite Nat.eqb_refl.
  - inversion ND; subst. destruct (Nat.eqb_spec (fst x) (fst q)) as [E|E].
    + exfalso. apply H1. rewrite E. now apply in_map.
    + apply IH; auto.
Qed.
Lemma tr_val_LU : forall tr v, tr_val tr v = LU -> ~ In v (map fst tr).
Proof.
  induction tr as [|x t IH]; intros v H. auto. rewrite tr_val_cons in H. simpl.
  destruct (Nat.eqb_spec (fst x) v). destruct (snd x); discriminate. intros [E|E]; auto. eapply IH; eauto.
Qed.
Lemma tr_val_def : forall tr v b, tr_val tr v = lbool_of_bool b -> In (v, b) tr.
Proof.
  induction tr as [|x t IH]; intros v b H. unfold tr_val in H; simpl in H; destruct b; discriminate.
  rewrite tr_val_cons in H. destruct (Nat.eqb_spec (fst x) v).
  - left. destruct x as [w c]. simpl in *. subst. f_equal. destruct c, b; auto; discriminate.
  - right. auto.
Qed.

Lemma false_in_cons : forall q suf r, false_in suf r -> false_in (q :: suf) r.
Proof. intros q suf r [H|H]; [left; simpl; auto | right; auto]. Qed.
Lemma false_in_app : forall pre suf r, false_in suf r -> false_in (pre ++ suf) r.
Proof. induction pre; simpl; auto. intros. apply false_in_cons. auto. Qed.

Lemma axioms_incl_cons : forall e l, incl (axioms l) (axioms (e :: l)).
Proof.
  intros e l. unfold axioms, log_clauses. cbn [filter]. destruct (kind_in [4; 1] e); cbn [map].
  - intros x [<-|H]. left; auto. right; right; auto.
  - apply incl_refl.
Qed.
Lemma axioms_cons_other : forall k c l, k <> 4 -> k <> 1 -> axioms ((k, c) :: l) = axioms l.
Proof.
  intros. unfold axioms, log_clauses. cbn [filter]. unfold kind_in at 1. cbn [existsb fst].
  destruct (Nat.eqb_spec k 4); try contradiction. destruct (Nat.eqb_spec k 1); try contradiction. auto.
Qed.
Lemma axioms_cons_ax : forall k c l, k = 4 \/ k = 1 -> incl (axioms ((k, c) :: l)) (c :: axioms l) /\ In c (axioms ((k, c) :: l)).
Proof.
  intros k c l H. unfold axioms, log_clauses. cbn [filter].
  assert (E : kind_in [4; 1] (k, c) = true) by (destruct H; subst; auto).
  rewrite E. cbn [map snd]. split. intros x [<-|[<-|Hx]]; simpl; auto. simpl; auto.
Qed.
Lemma units_incl : forall a b, incl a b -> incl (units a) (units b).
Proof.
  intros a b H x Hx. unfold units in *. apply in_map_iff in Hx. destruct Hx as [y [<- Hy]]. apply in_map_iff. exists y. auto.
Qed.
Lemma axioms_true : forall l, In [TRUE_lit] (axioms l).
Proof. intros. unfold axioms. simpl. auto. Qed.

Section Inv.
  Context {TS : Type}.
  Variable T : asg -> Prop.
  Notation state := (@state TS).

  (* per trail element: structure *)
  Definition elem_st (s : state) (q : lit) (suf : list lit) : Prop :=
    nth (fst q) (level s) 0 = lvl_at (trail_lim s) (length suf)
    /\ (forall c, nth (fst q) (reason s) None = Some c ->
          exists rest, lits_of s c = q :: rest /\ forall r, In r rest -> false_in suf r)
    /\ (nth (fst q) (reason s) None = None -> 0 < lvl_at (trail_lim s) (length suf) -> In (length suf) (trail_lim s)).
  (* per trail element: meaning *)
  Definition elem_sem (s : state) (q : lit) (suf : list lit) : Prop :=
    entails T (axioms (log s) ++ units (decs_at (trail_lim s) (decisions s) (length suf))) [q].

  Record Inv0 (s : state) : Prop := {
    i_len_level : length (level s) = length (assigns s);
    i_len_reason : length (reason s) = length (assigns s);
    i_a0 : nth 0 (assigns s) LU = LF;
    i_nodup : NoDup (map fst (trail s));
    i_range : forall q, In q (trail s) -> 0 < fst q < length (assigns s);
    i_assigns : forall v, 0 < v -> nth v (assigns s) LU = tr_val (trail s) v;
    i_free : forall v, ~ In v (map fst (trail s)) -> nth v (level s) 0 = 0 /\ nth v (reason s) None = None;
    i_lims_sorted : StronglySorted ge (trail_lim s);
    i_decs_len : length (decisions s) = length (trail_lim s);
    i_trail : trail_ok (elem_st s) (trail s);
    i_cls_range : forall c l, In l (lits_of s c) -> fst l < length (assigns s);
    i_cls_taut : forall c l, In l (lits_of s c) -> ~ In (lneg l) (lits_of s c);
    i_watch : forall i c, In c (nth i (watches s) []) -> c < length (cls s) /\ In (lneg (lit_of_index i)) (lits_of s c);
    i_queue : forall p, In p (prop_q s) -> In p (trail s);
    i_queue_lvl : forall p, In p (prop_q s) -> nth (fst p) (level s) 0 = decision_level s;
    i_cls_sound : forall c, c < length (cls s) -> entails T (axioms (log s)) (lits_of s c);
    i_trail_sem : trail_ok (elem_sem s) (trail s);
    i_log : log_sound T (log s)
  }.
  (* every level boundary lies within the trail (temporarily false inside analyze's caller, never inside analyze) *)
  Definition LimOK (s : state) : Prop := Forall (fun lim => lim <= length (trail s)) (trail_lim s).
  Definition Inv (s : state) : Prop := Inv0 s /\ LimOK s.

  Lemma value_var_0 : forall s, Inv0 s -> value_var s 0 = LF.
  Proof. intros s I. unfold value_var. apply I. Qed.

  Lemma value_lit_true : forall s p, Inv0 s -> value_lit s p = LT -> In p (trail s) \/ p = TRUE_lit.
  Proof.
    intros s [v b] I H. unfold value_lit, value_var in H. simpl in H.
    destruct v as [|v].
    - rewrite (i_a0 s I) in H. destruct b; try discriminate. right. reflexivity.
    - rewrite (i_assigns s I (S v)) in H by lia. left.
      destruct (tr_val (trail s) (S v)) eqn:E; destruct b; try discriminate.
      + apply (tr_val_def _ _ false). auto.
      + apply (tr_val_def _ _ true). auto.
  Qed.
  Lemma value_lit_false : forall s p, Inv0 s -> value_lit s p = LF -> false_in (trail s) p.
  Proof.
    intros s [v b] I H. unfold value_lit, value_var in H. simpl in H.
    destruct v as [|v].
    - rewrite (i_a0 s I) in H. destruct b; try discriminate. right. reflexivity.
    - rewrite (i_assigns s I (S v)) in H by lia. left. unfold lneg. simpl.
      destruct (tr_val (trail s) (S v)) eqn:E; destruct b; try discriminate; simpl.
      + apply (tr_val_def _ _ false). auto.
      + apply (tr_val_def _ _ true). auto.
  Qed.
  Lemma value_lit_undef : forall s p, Inv0 s -> value_lit s p = LU -> fst p <> 0 /\ ~ In (fst p) (map fst (trail s)).
  Proof.
    intros s [v b] I H. unfold value_lit, value_var in H. simpl in *.
    destruct v as [|v].
    - rewrite (i_a0 s I) in H. destruct b; discriminate.
    - split. lia. rewrite (i_assigns s I (S v)) in H by lia. apply tr_val_LU.
      destruct (tr_val (trail s) (S v)); destruct b; try discriminate; auto.
  Qed.
  Lemma value_lit_in_trail : forall s p, Inv0 s -> In p (trail s) -> value_lit s p = LT.
  Proof.
    intros s p I H. unfold value_lit, value_var. destruct (i_range s I p H) as [H0 _].
    rewrite (i_assigns s I) by auto. rewrite (tr_val_in _ p); auto. destruct (snd p); auto. apply I.
  Qed.
  Lemma value_lit_neg : forall (s : state) p, value_lit s (lneg p) =
    match value_lit s p with LT => LF | LF => LT | LU => LU end.
  Proof. intros s [v b]. unfold value_lit, lneg. simpl. destruct (value_var s v), b; auto. Qed.
  Lemma false_in_value : forall s p, Inv0 s -> false_in (trail s) p -> value_lit s p = LF.
  Proof.
    intros s p I [H|H].
    - apply (value_lit_in_trail s _ I) in H. rewrite value_lit_neg in H. destruct (value_lit s p); auto; discriminate.
    - subst. unfold value_lit. simpl. fold (value_var s 0). rewrite value_var_0; auto.
  Qed.
  Lemma is_false_iff : forall (s : state) p, is_false s p = true <-> value_lit s p = LF.
  Proof. intros. unfold is_false. destruct (value_lit s p); simpl; split; congruence. Qed.
  Lemma is_true_iff : forall (s : state) p, is_true s p = true <-> value_lit s p = LT.
  Proof. intros. unfold is_true. destruct (value_lit s p); simpl; split; congruence. Qed.

  (* the trail literals are consequences of axioms + all standing decisions; root-level ones of the axioms alone *)
  Lemma trail_entailed : forall s p, Inv0 s -> In p (trail s) ->
    entails T (axioms (log s) ++ units (decisions s)) [p].
  Proof.
    intros s p I H. apply in_split in H. destruct H as [pre [suf E]].
    pose proof (trail_ok_in _ _ _ _ _ (i_trail_sem s I) E) as Hs. unfold elem_sem in Hs.
    eapply entails_mono; [|exact Hs]. apply incl_app. apply incl_appl, incl_refl.
    apply incl_appr. apply units_incl. apply decs_at_incl.
  Qed.
  Lemma false_entailed : forall s p, Inv0 s -> false_in (trail s) p ->
    entails T (axioms (log s) ++ units (decisions s)) [lneg p].
  Proof.
    intros s p I [H|H]. now apply trail_entailed.
    subst. apply entails_mono with (F := axioms (log s)). apply incl_appl, incl_refl.
    apply entails_in. apply axioms_true.
  Qed.
  Lemma level0_entailed : forall s pre q suf, Inv0 s -> trail s = pre ++ q :: suf -> nth (fst q) (level s) 0 = 0 ->
    entails T (axioms (log s)) [q].
  Proof.
    intros s pre q suf I E H0.
    pose proof (trail_ok_in _ _ _ _ _ (i_trail_sem s I) E) as Hs. unfold elem_sem in Hs.
    destruct (trail_ok_in _ _ _ _ _ (i_trail s I) E) as [Hl _]. rewrite H0 in Hl.
    rewrite decs_at_zero in Hs by auto. simpl in Hs. now rewrite app_nil_r in Hs.
  Qed.
End Inv.
