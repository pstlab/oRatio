(* Totally ordered abelian groups (the distances of difference logic: Z for IDL, Q x Q ordered lexicographically for RDL)
   and a small reflexive decision procedure `og` for the linear goals that the shortest-path proofs produce:
   from hypotheses a < b, a <= b, a = b over sums and opposites, derive a contradiction by adding up a subset of them. *)
From Coq Require Import List Arith Bool Permutation.
Import ListNotations.

Record ogroup := mkog {
  G :> Type;
  g0 : G;
  gadd : G -> G -> G;
  gopp : G -> G;
  glt : G -> G -> Prop;
  gltb : G -> G -> bool;
  g_assoc : forall a b c, gadd a (gadd b c) = gadd (gadd a b) c;
  g_comm : forall a b, gadd a b = gadd b a;
  g_0l : forall a, gadd g0 a = a;
  g_oppr : forall a, gadd a (gopp a) = g0;
  g_irrefl : forall a, ~ glt a a;
  g_trans : forall a b c, glt a b -> glt b c -> glt a c;
  g_total : forall a b, glt a b \/ a = b \/ glt b a;
  g_compat : forall a b c, glt a b -> glt (gadd a c) (gadd b c);
  g_ltb_spec : forall a b, gltb a b = true <-> glt a b
}.
Arguments g0 {o}. Arguments gadd {o}. Arguments gopp {o}. Arguments glt {o}. Arguments gltb {o}. Arguments g_ltb_spec {o}.
Arguments g_assoc {o}. Arguments g_comm {o}. Arguments g_0l {o}. Arguments g_oppr {o}. Arguments g_irrefl {o}.
Arguments g_trans {o}. Arguments g_total {o}. Arguments g_compat {o}.

Definition gle {O : ogroup} (a b : O) : Prop := glt a b \/ a = b.
Definition gsub {O : ogroup} (a b : O) : O := gadd a (gopp b).

Declare Scope og_scope.
Delimit Scope og_scope with og.
Infix "+" := gadd : og_scope.
Infix "-" := gsub : og_scope.
Notation "- x" := (gopp x) : og_scope.
Infix "<" := glt : og_scope.
Infix "<=" := gle : og_scope.
Notation "0" := g0 : og_scope.

Section OG.
Variable O : ogroup.
Local Open Scope og_scope.
Implicit Types a b c d : O.

Lemma g_0r a : a + 0 = a. Proof. rewrite g_comm. apply g_0l. Qed.
Lemma g_oppl a : - a + a = 0. Proof. rewrite g_comm. apply g_oppr. Qed.
Lemma g_cancel_r a b c : a + c = b + c -> a = b.
Proof.
  intro H. assert (E : (a + c) + - c = (b + c) + - c) by (rewrite H; reflexivity).
  rewrite <- !g_assoc, !g_oppr, !g_0r in E. exact E.
Qed.
Lemma gle_refl a : a <= a. Proof. right; reflexivity. Qed.
Lemma glt_le a b : a < b -> a <= b. Proof. left; assumption. Qed.
Lemma gle_lt_trans a b c : a <= b -> b < c -> a < c.
Proof. intros [H | ->] H2; [eapply g_trans; eauto | exact H2]. Qed.
Lemma glt_le_trans a b c : a < b -> b <= c -> a < c.
Proof. intros H [H2 | <-]; [eapply g_trans; eauto | exact H]. Qed.
Lemma gle_trans a b c : a <= b -> b <= c -> a <= c.
Proof. intros [H | ->] H2; [left; eapply glt_le_trans; eauto | exact H2]. Qed.
Lemma gle_antisym a b : a <= b -> b <= a -> a = b.
Proof.
  intros [H | ->] [H2 | H2]; auto. exfalso. apply (g_irrefl a). eapply g_trans; eauto.
Qed.
Lemma g_not_lt a b : ~ a < b -> b <= a.
Proof. intro H. destruct (g_total a b) as [? | [-> | ?]]; [contradiction | right; reflexivity | left; assumption]. Qed.
Lemma g_not_le a b : ~ a <= b -> b < a.
Proof. intro H. destruct (g_total a b) as [? | [-> | ?]]; [exfalso; apply H; left; assumption | exfalso; apply H; right; reflexivity | assumption]. Qed.
Lemma g_lt_not_le a b : a < b -> ~ b <= a.
Proof. intros H [H2 | ->]; [apply (g_irrefl a); eapply g_trans; eauto | exact (g_irrefl _ H)]. Qed.
Lemma g_le_not_lt a b : a <= b -> ~ b < a.
Proof. intros H H2. exact (g_lt_not_le _ _ H2 H). Qed.
Lemma g_lt_le_dec a b : a < b \/ b <= a.
Proof. destruct (g_total a b) as [? | [-> | ?]]; [left; assumption | right; right; reflexivity | right; left; assumption]. Qed.
Lemma g_compat_l a b c : a < b -> c + a < c + b.
Proof. intro H. rewrite (g_comm c a), (g_comm c b). apply g_compat; assumption. Qed.
Lemma g_add_lt_lt a b c d : a < b -> c < d -> a + c < b + d.
Proof. intros H1 H2. eapply g_trans; [apply g_compat; eassumption | apply g_compat_l; assumption]. Qed.
Lemma g_add_le_lt a b c d : a <= b -> c < d -> a + c < b + d.
Proof. intros [H1 | ->] H2; [apply g_add_lt_lt; assumption | apply g_compat_l; assumption]. Qed.
Lemma g_add_lt_le a b c d : a < b -> c <= d -> a + c < b + d.
Proof. intros H1 [H2 | ->]; [apply g_add_lt_lt; assumption | apply g_compat; assumption]. Qed.
Lemma g_add_le_le a b c d : a <= b -> c <= d -> a + c <= b + d.
Proof. intros [H1 | ->] H2; [left; apply g_add_lt_le; assumption | destruct H2 as [H2 | ->]; [left; apply g_compat_l; assumption | right; reflexivity]]. Qed.

Inductive gexp := GVar (n : nat) | GZero | GAdd (a b : gexp) | GOpp (a : gexp).

Fixpoint gden (env : list O) (e : gexp) : O :=
  match e with
  | GVar n => nth n env 0
  | GZero => 0
  | GAdd a b => gden env a + gden env b
  | GOpp a => - gden env a
  end.

(* positive and negative occurrences *)
Fixpoint gpos (e : gexp) : list nat :=
  match e with GVar n => [n] | GZero => [] | GAdd a b => gpos a ++ gpos b | GOpp a => gneg a end
with gneg (e : gexp) : list nat :=
  match e with GVar n => [] | GZero => [] | GAdd a b => gneg a ++ gneg b | GOpp a => gpos a end.

Fixpoint gsum (env : list O) (l : list nat) : O :=
  match l with [] => 0 | n :: t => nth n env 0 + gsum env t end.

Lemma gsum_app env l1 l2 : gsum env (l1 ++ l2) = gsum env l1 + gsum env l2.
Proof. induction l1 as [| x l1 IH]; cbn [app gsum]; [rewrite g_0l; reflexivity | rewrite IH, g_assoc; reflexivity]. Qed.

Lemma gsum_perm env l1 l2 : Permutation l1 l2 -> gsum env l1 = gsum env l2.
Proof.
  induction 1; cbn [gsum]; auto.
  - rewrite IHPermutation; reflexivity.
  - rewrite !g_assoc, (g_comm (nth y env 0)); reflexivity.
  - congruence.
Qed.

Lemma g_swap4 a b c d : (a + b) + (c + d) = (a + c) + (b + d).
Proof.
  rewrite <- (g_assoc a b (c + d)). rewrite (g_assoc b c d). rewrite (g_comm b c).
  rewrite <- (g_assoc c b d). rewrite (g_assoc a c (b + d)). reflexivity.
Qed.

Lemma gden_split env e : gden env e + gsum env (gneg e) = gsum env (gpos e).
Proof.
  induction e as [n | | a IHa b IHb | a IHa]; cbn [gden gpos gneg gsum].
  - reflexivity.
  - apply g_0l.
  - rewrite !gsum_app, <- IHa, <- IHb. apply g_swap4.
  - rewrite <- IHa. rewrite (g_assoc (- gden env a)). rewrite g_oppl. apply g_0l.
Qed.

(* an atom  lhs R rhs  is kept as two multisets:  sum L  R  sum Rr *)
Inductive gkind := KLt | KLe.
Record gatom := mkatom { ak : gkind; al : list nat; ar : list nat }.
Definition atom_of (k : gkind) (a b : gexp) : gatom := mkatom k (gpos a ++ gneg b) (gpos b ++ gneg a).
Definition aholds (env : list O) (a : gatom) : Prop :=
  match ak a with KLt => gsum env (al a) < gsum env (ar a) | KLe => gsum env (al a) <= gsum env (ar a) end.

Lemma atom_lt env (ea eb : gexp) : gden env ea < gden env eb -> aholds env (atom_of KLt ea eb).
Proof.
  unfold aholds, atom_of; cbn [ak al ar]. rewrite !gsum_app. intro H.
  rewrite <- (gden_split env ea), <- (gden_split env eb).
  rewrite <- !g_assoc. rewrite (g_comm (gsum env (gneg eb))). apply g_compat. exact H.
Qed.
Lemma atom_le env (ea eb : gexp) : gden env ea <= gden env eb -> aholds env (atom_of KLe ea eb).
Proof.
  intros [H | H].
  - left. apply (atom_lt env ea eb H).
  - unfold aholds, atom_of; cbn [ak al ar]. right. rewrite !gsum_app.
    rewrite <- (gden_split env ea), <- (gden_split env eb).
    rewrite <- !g_assoc. rewrite (g_comm (gsum env (gneg eb))). rewrite H. reflexivity.
Qed.

(* sum of a selection of atoms *)
Fixpoint sum_sel (hs : list gatom) (sel : list bool) : bool * list nat * list nat :=   (* (some strict, L, R) *)
  match hs, sel with
  | h :: hs', true :: sel' =>
      let '(s, l, r) := sum_sel hs' sel' in
      ((match ak h with KLt => true | KLe => s end), al h ++ l, ar h ++ r)
  | _ :: hs', false :: sel' => sum_sel hs' sel'
  | _, _ => (false, [], [])
  end.

Lemma sum_sel_sound env hs : Forall (aholds env) hs -> forall sel,
  let '(s, l, r) := sum_sel hs sel in
  if s then gsum env l < gsum env r else gsum env l <= gsum env r.
Proof.
  induction 1 as [| h hs Hh Hhs IH]; intro sel.
  - destruct sel; cbn; apply gle_refl.
  - destruct sel as [| [|] sel]; cbn [sum_sel]; [apply gle_refl | | apply IH].
    specialize (IH sel). destruct (sum_sel hs sel) as [[s l] r].
    rewrite !gsum_app. unfold aholds in Hh. destruct (ak h), s; auto using g_add_lt_lt, g_add_lt_le, g_add_le_lt, g_add_le_le.
Qed.

Definition same_multiset (l r : list nat) : bool :=
  forallb (fun v => Nat.eqb (count_occ Nat.eq_dec l v) (count_occ Nat.eq_dec r v)) (l ++ r).

Lemma same_multiset_perm l r : same_multiset l r = true -> Permutation l r.
Proof.
  unfold same_multiset. rewrite forallb_forall. intro H.
  apply (Permutation_count_occ Nat.eq_dec). intro v.
  destruct (in_dec Nat.eq_dec v (l ++ r)) as [Hin | Hn].
  - apply Nat.eqb_eq. apply H. exact Hin.
  - assert (~ In v l /\ ~ In v r) as [Hl Hr] by (split; intro; apply Hn; apply in_or_app; auto).
    rewrite (proj1 (count_occ_not_In Nat.eq_dec l v) Hl), (proj1 (count_occ_not_In Nat.eq_dec r v) Hr). reflexivity.
Qed.

Definition refutes (hs : list gatom) (sel : list bool) : bool :=
  let '(s, l, r) := sum_sel hs sel in s && same_multiset l r.

(* all selections: plain enumeration, enough for the sizes met here (at most a dozen hypotheses) *)
Fixpoint all_sels (n : nat) : list (list bool) :=
  match n with
  | 0%nat => [[]]
  | S k => map (cons false) (all_sels k) ++ map (cons true) (all_sels k)
  end.
Definition og_search (hs : list gatom) : bool := existsb (refutes hs) (all_sels (length hs)).

Theorem og_sound env hs : Forall (aholds env) hs -> og_search hs = true -> False.
Proof.
  intros Hh Hs. unfold og_search in Hs. apply existsb_exists in Hs. destruct Hs as [sel [_ Hr]].
  unfold refutes in Hr. pose proof (sum_sel_sound env hs Hh sel) as S.
  destruct (sum_sel hs sel) as [[s l] r]. apply andb_true_iff in Hr. destruct Hr as [-> Hp].
  apply same_multiset_perm in Hp. rewrite (gsum_perm env _ _ Hp) in S. exact (g_irrefl _ S).
Qed.

End OG.

Ltac og_index x env :=
  lazymatch env with
  | x :: _ => constr:(0%nat)
  | _ :: ?t => let n := og_index x t in constr:(S n)
  end.
Ltac og_add_env x env :=
  lazymatch env with
  | context [x :: _] => env
  | _ => lazymatch env with
         | @nil ?T => constr:(@cons T x (@nil T))
         | ?h :: ?t => let t' := og_add_env x t in constr:(h :: t')
         end
  end.
Ltac og_collect OG e env :=
  lazymatch e with
  | @gadd _ ?a ?b => let env1 := og_collect OG a env in og_collect OG b env1
  | @gsub _ ?a ?b => let env1 := og_collect OG a env in og_collect OG b env1
  | @gopp _ ?a => og_collect OG a env
  | @g0 _ => env
  | _ => og_add_env e env
  end.
Ltac og_reify OG e env :=
  lazymatch e with
  | @gadd _ ?a ?b => let ra := og_reify OG a env in let rb := og_reify OG b env in constr:(GAdd ra rb)
  | @gsub _ ?a ?b => let ra := og_reify OG a env in let rb := og_reify OG b env in constr:(GAdd ra (GOpp rb))
  | @gopp _ ?a => let ra := og_reify OG a env in constr:(GOpp ra)
  | @g0 _ => constr:(GZero)
  | _ => let n := og_index e env in constr:(GVar n)
  end.

Lemma og_eq_le1 (O : ogroup) (a b : O) : a = b -> gle a b. Proof. intros ->; right; reflexivity. Qed.
Lemma og_eq_le2 (O : ogroup) (a b : O) : a = b -> gle b a. Proof. intros ->; right; reflexivity. Qed.

Ltac og_env_of OG T env :=
  lazymatch T with
  | @glt _ ?a ?b -> ?R => let e1 := og_collect OG a env in let e2 := og_collect OG b e1 in og_env_of OG R e2
  | @gle _ ?a ?b -> ?R => let e1 := og_collect OG a env in let e2 := og_collect OG b e1 in og_env_of OG R e2
  | False => env
  end.

Ltac og_atoms_of OG T env :=
  lazymatch T with
  | @glt _ ?a ?b -> ?R => let ra := og_reify OG a env in let rb := og_reify OG b env in
                          let t := og_atoms_of OG R env in constr:(atom_of KLt ra rb :: t)
  | @gle _ ?a ?b -> ?R => let ra := og_reify OG a env in let rb := og_reify OG b env in
                          let t := og_atoms_of OG R env in constr:(atom_of KLe ra rb :: t)
  | False => constr:(@nil gatom)
  end.

(* goal False. The hypotheses are normalised (an equality becomes two inequalities, a negation is turned around), all
   inequalities of the context are reverted, and a subset of them that adds up to g < g is searched by evaluation *)
Ltac og_false OG :=
  repeat match goal with
         | H : @eq (G OG) ?a ?b |- _ =>
             let H1 := fresh "Hog" in let H2 := fresh "Hog" in
             pose proof (og_eq_le1 OG a b H) as H1; pose proof (og_eq_le2 OG a b H) as H2; clear H
         | H : ~ @glt OG ?a ?b |- _ => apply (g_not_lt OG) in H
         | H : ~ @gle OG ?a ?b |- _ => apply (g_not_le OG) in H
         end;
  repeat match goal with
         | H : @glt OG _ _ |- _ => revert H
         | H : @gle OG _ _ |- _ => revert H
         end;
  lazymatch goal with
  | |- ?T =>
      let env := og_env_of OG T (@nil (G OG)) in
      let atoms := og_atoms_of OG T env in
      intros;
      apply (og_sound OG env atoms);
      [ repeat (apply Forall_cons;
                [ first [ apply atom_lt; cbn [gden nth]; assumption | apply atom_le; cbn [gden nth]; assumption ] | ]);
        apply Forall_nil
      | vm_compute; reflexivity ]
  end.

Ltac og OG :=
  lazymatch goal with
  | |- False => og_false OG
  | |- @glt _ ?a ?b => let H := fresh "Hneg" in destruct (g_lt_le_dec OG a b) as [H | H]; [exact H | exfalso; og_false OG]
  | |- @gle _ ?a ?b => let H := fresh "Hneg" in destruct (g_lt_le_dec OG b a) as [H | H]; [exfalso; og_false OG | exact H]
  | |- @eq (G _) ?a ?b => apply (gle_antisym OG); og OG
  | |- ~ _ => let H := fresh "Hneg" in intro H; og_false OG
  end.

Section Tests.
Variable GG : ogroup.
Local Open Scope og_scope.
Goal forall a b c d : GG, a + d < b -> b <= c -> a + d < c. Proof. intros. og GG. Qed.
Goal forall a b c : GG, a < b -> c + a < b + c. Proof. intros. og GG. Qed.
Goal forall a b w x : GG, a + w < b -> b <= x + a -> w < x. Proof. intros. og GG. Qed.
Goal forall a b : GG, a - b = 0 -> a = b. Proof. intros. og GG. Qed.
Goal forall a b c : GG, a = b + c -> ~ b < a - c. Proof. intros. og GG. Qed.
Goal forall a b : GG, ~ a < b -> ~ b < a -> a = b. Proof. intros. og GG. Qed.
Goal forall a : GG, 0 <= a -> - a <= 0. Proof. intros. og GG. Qed.
End Tests.

Section Derived.
Variable GG : ogroup.
Local Open Scope og_scope.
Lemma g_opp_add (a b : GG) : - (a + b) = - a + - b. Proof. og GG. Qed.
Lemma g_opp_opp (a : GG) : - - a = a. Proof. og GG. Qed.
Lemma g_opp_0 : - (0 : GG) = 0. Proof. og GG. Qed.
Lemma g_sub_diag (a : GG) : a - a = 0. Proof. og GG. Qed.
End Derived.

(* scope-free notations used by the files that mix group elements with natural numbers *)
Infix "+o" := gadd (at level 50, left associativity).
Infix "<o" := glt (at level 70).
Infix "<=o" := gle (at level 70).
Notation "-o x" := (gopp x) (at level 35, right associativity).
