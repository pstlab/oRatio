(* The two-watched-literal invariant along whole histories of sat_core, jointly with the database invariant of SatCoreDb
   (simplify_db needs its bound on the live clause ids), and what it buys: the model's undefined-behaviour flag is never
   raised (also across simplify_db), and when the queue is empty and every variable is assigned every clause ever added is
   satisfied.  Theories may record lemmas and report conflicts (th_lemmas_wl); one that never does meets that clause
   trivially (quiet_lemmas_wl). *)
From Coq Require Import List Arith Bool ZArith Lia Permutation Sorted.
From ORatio Require Import smt.SatCoreBase smt.SatCoreSpec smt.SatCore proofs.SatCoreBase_Proofs proofs.SatCoreInv_Proofs
  proofs.SatCorePrim_Proofs proofs.SatCoreStep_Proofs proofs.SatCoreAnalyze_Proofs proofs.SatCoreUb_Proofs
  proofs.SatCoreRun_Proofs proofs.SatCoreLog_Proofs proofs.SatCoreThm_Proofs proofs.SatCoreWl_Proofs proofs.SatCoreWlProp_Proofs
  proofs.SatCoreWlRun_Proofs proofs.SatCoreDb_Proofs proofs.SatCoreWlSimp_Proofs proofs.SatCoreUndo_Proofs.
Import ListNotations.

(* the insertion sort meets the ordering hypothesis used for record()'s "sort by level, highest first" *)
Lemma isort_key_sorted : forall (key : lit -> nat) l,
  StronglySorted (fun a b => key b <= key a) (isort (fun a b => Nat.ltb (key b) (key a)) l).
Proof. intros. apply isort_sorted; intros; try lia. apply Nat.ltb_lt in H; lia. apply Nat.ltb_ge in H; lia. Qed.

Section WlThm.
  Context {TS : Type}.
  Variable T : asg -> Prop.
  Variable sort : (lit -> lit -> bool) -> list lit -> list lit.
  Hypothesis Hsort : sort_contract sort.
  Hypothesis sort_key_sorted : forall (key : lit -> nat) l,
    StronglySorted (fun a b => key b <= key a) (sort (fun a b => Nat.ltb (key b) (key a)) l).
  Variable th_propagate : TS -> list lbool -> nat -> lit -> TS * list (list lit) * option (list lit).
  Variable th_check : TS -> list lbool -> nat -> TS * list (list lit) * option (list lit).
  Variable th_push th_pop : TS -> TS.
  Variable FUEL : nat.
  Hypothesis Hth : theory_contract T th_propagate th_check.
  Hypothesis th_lemmas_wl : forall (s : @state TS) p, Inv T s -> In p (trail s) -> nth (fst p) (level s) 0 = decision_level s ->
    lemmas_wl_ok s (snd (fst (th_propagate (thst s) (assigns s) (decision_level s) p))).
  Notation state := (@state TS).
  Let sort_perm := proj1 Hsort.
  Let sort_sorted := proj2 Hsort.
  Let thp_ok := proj1 Hth.
  Let thc_ok := proj2 Hth.
  Notation step := (step sort th_propagate th_check th_push th_pop FUEL).
  Notation run := (run sort th_propagate th_check th_push th_pop FUEL).
  Notation run_ok := (run_ok sort th_propagate th_check th_push th_pop FUEL).
  Notation WLfull := (@WLfull TS).

  (* the database invariant (for its bound on the live clause ids) and the watch invariant together form a joint invariant
     that simplify_db preserves without raising [ub] *)
  Definition DW (s : state) : Prop := DbInv s /\ WLfull s.
  Lemma dw_joint : joint T sort th_propagate th_check th_pop DW (fun s => DbInv s /\ WLK s).
  Proof.
    exact (joint_conj T sort th_propagate th_check th_pop _ _ _ _ (db_joint T sort Hsort th_propagate th_check th_pop Hth)
             (wl_joint T sort Hsort sort_key_sorted th_propagate th_check th_pop Hth th_lemmas_wl)).
  Qed.
  Lemma dw_simplify : forall (s : state), Inv T s -> DW s -> root_level s = true -> prop_q s = [] ->
    DW (simplify_loop s (constrs s) []) /\ ub (simplify_loop s (constrs s) []) = ub s.
  Proof.
    intros s I [D W] Hr Hq.
    assert (Hd : decision_level s = 0). { unfold decision_level, root_level in *. destruct (trail_lim s); auto. discriminate. }
    assert (W0 : WL 0 None (set_constrs s (rev [] ++ constrs s))).
    { unfold WLfull in W. rewrite Hd in W. eapply WL_frame; [| | | | | |exact W]; reflexivity. }
    destruct (WL_simplify_loop T (constrs s) s [] I Hr Hq W0 (proj1 (proj1 D)) (proj2 (proj1 D))) as [U2 W2].
    split; [|exact U2]. split. apply (simplify_loop_db T); auto.
    unfold WLfull, decision_level. destruct (simplify_loop_same (constrs s) s []) as (_ & _ & _ & -> & _).
    fold (decision_level s). rewrite Hd. exact W2.
  Qed.

  Theorem run_wl_no_ub : forall ops (s : state), Inv T s -> DbInv s -> WLfull s -> ub s = false ->
    run_ok ops s = true -> ub (run ops s) = false.
  Proof.
    intros ops s I D W Hub Hok.
    apply (run_rule_no_ub T sort sort_perm sort_sorted th_propagate th_check th_push th_pop FUEL thp_ok thc_ok _ _ dw_joint
             ops s I (conj D W) Hub Hok).
    intros _. split; intros s1 I1 H1 Hr1 Hq1; apply (dw_simplify s1 I1 H1 Hr1 Hq1).
  Qed.
  Theorem run_wl : forall ops o (s : state), Inv T s -> DbInv s -> WLfull s -> ub s = false ->
    run_ok (ops ++ [o]) s = true -> ub (run ops s) = false /\ Inv T (run ops s) /\ DbInv (run ops s) /\ WLfull (run ops s).
  Proof.
    intros ops o s I D W Hub Hok.
    assert (Hub' : ub (run ops s) = false).
    { apply run_wl_no_ub; auto. apply (run_ok_app sort th_propagate th_check th_push th_pop FUEL ops o s Hok). }
    destruct (run_rule T sort sort_perm sort_sorted th_propagate th_check th_push th_pop FUEL thp_ok thc_ok _ _ dw_joint
                ops o s I (conj D W) Hok Hub') as (I' & D' & W'); auto.
    intros _ s1 I1 H1 Hr1 Hq1. apply (dw_simplify s1 I1 H1 Hr1 Hq1).
  Qed.

  Lemma init_wl : forall ts : TS, WLfull (init ts).
  Proof.
    intros ts. unfold SatCoreWlRun_Proofs.WLfull, init.
    assert (Hvw : forall i c, ~ In c (vw (mkst [] [] [[]; []] [LF] [] [] [] [] [None] [0] ts [] false) None i)).
    { intros i c. rewrite vw_none. simpl. destruct i as [|[|i]]; simpl; auto. destruct i; auto. }
    constructor; simpl; auto.
    - intros i c H. exfalso. exact (Hvw i c H).
    - intros c l0 l1 r [i Hi]. exfalso. exact (Hvw i c Hi).
    - intros i. rewrite vw_none. simpl. destruct i as [|[|i]]; simpl; try constructor. destruct i; constructor.
    - intros c [].
    - intros c [i Hi]. exfalso. exact (Hvw i c Hi).
    - intros c l0 l1 r [i Hi]. exfalso. exact (Hvw i c Hi).
  Qed.

  (* under the watch invariant, with nothing left to propagate, a clause none of whose watched literals is
     unassigned has a true literal *)
  Lemma WL_live_clause_true : forall (s : state) c, Inv T s -> WLfull s -> prop_q s = [] -> In c (constrs s) ->
    (forall l, In l (lits_of s c) -> value_lit s l <> LU) -> exists l, In l (lits_of s c) /\ value_lit s l = LT.
  Proof.
    intros s c I W Hq Hc Hall. pose proof (wl_live _ _ _ W c Hc) as Ha. destruct Ha as [i Hi].
    destruct (wl_shape _ _ _ W i c Hi) as (l0 & l1 & r & El & _).
    assert (Ha : attached s None c) by (exists i; exact Hi).
    destruct (wl_sem _ _ _ W c l0 l1 r Ha El) as [S0 _]. rewrite El in *.
    destruct (value_lit s l0) eqn:V0.
    - exists l1. split. simpl; auto. apply S0; auto.
      + destruct (value_lit_false T s l0 (proj1 I) V0) as [Hin| ->].
        * pose proof (lvl_le_dl T s (lneg l0) (proj1 I) Hin) as H. unfold SatCoreAnalyze_Proofs.lvl in *. simpl in H. exact H.
        * unfold SatCoreAnalyze_Proofs.lvl. simpl. rewrite (lvl_var0 T s (proj1 I)). lia.
      + intros [Hx|[rest [Hx _]]]. rewrite Hq in Hx. destruct Hx. discriminate.
    - exists l0. simpl; auto.
    - exfalso. apply (Hall l0); simpl; auto.
  Qed.
End WlThm.

(* theories that record lemmas and report conflicts: theory_contract + the named clause th_lemmas_wl *)
Section WlClosed.
  Context {TS : Type}.
  Variables (T : asg -> Prop) (sort : (lit -> lit -> bool) -> list lit -> list lit).
  Variables (thp : TS -> list lbool -> nat -> lit -> TS * list (list lit) * option (list lit))
            (thc : TS -> list lbool -> nat -> TS * list (list lit) * option (list lit)) (thpush thpop : TS -> TS) (FUEL : nat).
  Hypothesis Hsort : sort_contract sort.
  Hypothesis sort_key_sorted : forall (key : lit -> nat) l,
    StronglySorted (fun a b => key b <= key a) (sort (fun a b => Nat.ltb (key b) (key a)) l).
  Hypothesis Hth : theory_contract T thp thc.
  Hypothesis th_lemmas_wl : forall (s : @state TS) p, Inv T s -> In p (trail s) -> nth (fst p) (level s) 0 = decision_level s ->
    lemmas_wl_ok s (snd (fst (thp (thst s) (assigns s) (decision_level s) p))).
  Notation run := (run sort thp thc thpush thpop FUEL).
  Notation run_ok := (run_ok sort thp thc thpush thpop FUEL).

  (* no history inside the documented preconditions reaches undefined behaviour, simplify_db included *)
  Theorem c07_no_ub_lemmas : forall ops ts, run_ok ops (init ts) = true -> ub (run ops (init ts)) = false.
  Proof.
    intros ops ts Hok.
    apply (run_wl_no_ub T sort Hsort sort_key_sorted thp thc thpush thpop FUEL Hth th_lemmas_wl ops (init ts)
             (init_inv T ts) (init_db ts) (init_wl ts) eq_refl Hok).
  Qed.

  (* the two-watched-literal invariant holds after every history that can be continued *)
  Theorem c07_watch_invariant_lemmas : forall ops o ts, run_ok (ops ++ [o]) (init ts) = true ->
    WL (decision_level (run ops (init ts))) None (run ops (init ts)).
  Proof.
    intros ops o ts Hok.
    apply (run_wl T sort Hsort sort_key_sorted thp thc thpush thpop FUEL Hth th_lemmas_wl ops o (init ts)
             (init_inv T ts) (init_db ts) (init_wl ts) eq_refl Hok).
  Qed.

  (* (v): nothing left to propagate and every variable assigned: every clause ever given to new_clause is satisfied *)
  Theorem c07_total_assignment_lemmas : forall ops o ts, run_ok (ops ++ [o]) (init ts) = true ->
    prop_q (run ops (init ts)) = [] ->
    (forall v, v < nvars (run ops (init ts)) -> value_var (run ops (init ts)) v <> LU) ->
    forall c, In c (added (log (run ops (init ts)))) -> sat_clause (asg_of (run ops (init ts))) c.
  Proof.
    intros ops o ts Hok Hq Hall.
    destruct (run_wl T sort Hsort sort_key_sorted thp thc thpush thpop FUEL Hth th_lemmas_wl ops o (init ts)
             (init_inv T ts) (init_db ts) (init_wl ts) eq_refl Hok) as (Hub & I & _ & W).
    apply (c07_total_assignment_satisfies_added_clauses_partial T sort thp thc thpush thpop FUEL Hsort Hth ops o ts Hok Hub).
    intros c Hc. apply (WL_live_clause_true T _ c I W Hq Hc).
    intros l Hl Hv. apply (Hall (fst l)). apply (i_cls_range T _ (proj1 I) c l Hl).
    unfold value_lit in Hv. destruct (value_var (run ops (init ts)) (fst l)); auto; destruct (snd l); discriminate.
  Qed.
End WlClosed.

(* a theory that never records a lemma (the propositional network, the object-variable theory) meets the extra clause *)
Lemma quiet_lemmas_wl : forall {TS : Type} (T : asg -> Prop)
  (thp : TS -> list lbool -> nat -> lit -> TS * list (list lit) * option (list lit)),
  (forall ts a dl p, snd (fst (thp ts a dl p)) = [] /\ snd (thp ts a dl p) = None) ->
  forall (s : @state TS) p, Inv T s -> In p (trail s) -> nth (fst p) (level s) 0 = decision_level s ->
  lemmas_wl_ok s (snd (fst (thp (thst s) (assigns s) (decision_level s) p))).
Proof. intros TS T thp Hq s p _ _ _. rewrite (proj1 (Hq (thst s) (assigns s) (decision_level s) p)). split; constructor. Qed.

(* the instance run by the differential harness *)
Lemma nt_quiet_p : forall ts a dl p, snd (fst (nt_propagate ts a dl p)) = [] /\ snd (nt_propagate ts a dl p) = None.
Proof. intros. split; reflexivity. Qed.

Theorem c07_no_ub_propositional : forall fuel ops,
  run_ok (@isort lit) nt_propagate nt_check nt_id nt_id fuel ops p_init = true ->
  ub (run (@isort lit) nt_propagate nt_check nt_id nt_id fuel ops p_init) = false.
Proof.
  intros fuel ops. apply (c07_no_ub_lemmas no_theory (@isort lit) nt_propagate nt_check nt_id nt_id fuel isort_contract isort_key_sorted
                            no_theory_contract (quiet_lemmas_wl no_theory nt_propagate nt_quiet_p) ops tt).
Qed.
Theorem c07_total_assignment_propositional : forall fuel ops o,
  let s := run (@isort lit) nt_propagate nt_check nt_id nt_id fuel ops p_init in
  run_ok (@isort lit) nt_propagate nt_check nt_id nt_id fuel (ops ++ [o]) p_init = true ->
  prop_q s = [] -> (forall v, v < nvars s -> value_var s v <> LU) ->
  forall c, In c (added (log s)) -> sat_clause (asg_of s) c.
Proof.
  intros fuel ops o s. apply (c07_total_assignment_lemmas no_theory (@isort lit) nt_propagate nt_check nt_id nt_id fuel
    isort_contract isort_key_sorted no_theory_contract (quiet_lemmas_wl no_theory nt_propagate nt_quiet_p) ops o tt).
Qed.

(* C08, propositional network: the `ub = false` side condition of pop-after-assume is discharged by the theorem above *)
Theorem c08_pop_assume_prop_no_ub : forall FUEL ops, run_ok (@isort lit) nt_propagate nt_check nt_id nt_id FUEL ops p_init = true ->
  forall p s', pre (run (@isort lit) nt_propagate nt_check nt_id nt_id FUEL ops p_init) (OAssume p) = true ->
  assume (@isort lit) nt_propagate nt_check nt_id nt_id FUEL (run (@isort lit) nt_propagate nt_check nt_id nt_id FUEL ops p_init) p = (s', RTrue) ->
  log s' = log (run (@isort lit) nt_propagate nt_check nt_id nt_id FUEL ops p_init) ->
  SatCoreUndo_Proofs.restored unit (fun ts => ts) (run (@isort lit) nt_propagate nt_check nt_id nt_id FUEL ops p_init) (pop nt_id s').
Proof.
  intros FUEL ops Hok p s' Hpre Ea Hlog.
  apply (SatCoreUndo_Proofs.c08_pop_assume_prop FUEL ops Hok (c07_no_ub_propositional FUEL ops Hok) p s' Hpre Ea Hlog).
Qed.
