(* simplify_db under the two-watched-literal invariant: clause::simplify never moves a watched literal, clause::remove
   finds the clause in both watch lists and leaves no dangling watcher; the model's [ub] flag is not raised. *)
From Coq Require Import List Arith Bool ZArith Lia Permutation Sorted.
From ORatio Require Import smt.SatCoreBase smt.SatCoreSpec smt.SatCore proofs.SatCoreBase_Proofs proofs.SatCoreInv_Proofs
  proofs.SatCorePrim_Proofs proofs.SatCoreStep_Proofs proofs.SatCoreAnalyze_Proofs proofs.SatCoreUb_Proofs
  proofs.SatCoreRun_Proofs proofs.SatCoreLog_Proofs proofs.SatCoreThm_Proofs proofs.SatCoreWl_Proofs proofs.SatCoreWlProp_Proofs
  proofs.SatCoreWlRun_Proofs proofs.SatCoreDb_Proofs.
Import ListNotations.

Lemma NoDup_map_filter : forall A B (f : A -> B) (g : A -> bool) l, NoDup (map f l) -> NoDup (map f (filter g l)).
Proof.
  induction l as [|x t IH]; simpl; intros H; auto. apply NoDup_cons_iff in H. destruct H as [H1 H2].
  destruct (g x); simpl; auto. constructor; auto. intros Hin. apply H1. apply in_map_iff in Hin. destruct Hin as [y [E Hy]].
  apply filter_In in Hy. rewrite <- E. apply in_map. apply Hy.
Qed.

Section WlSimp.
  Context {TS : Type}.
  Variable T : asg -> Prop.
  Notation state := (@state TS).
  Notation lvl := (@lvl TS).

  Definition isLU (s : state) (x : lit) : bool := lbool_eqb (value_lit s x) LU.

  Lemma simp_go_prefix : forall (s : state) orig rest kept_rev sat ls, simp_go s orig rest kept_rev = (sat, ls) ->
    exists tail, ls = rev kept_rev ++ tail.
  Proof.
    intros s orig. induction rest as [|x t IH]; intros kept_rev sat ls E; simpl in E.
    - inversion E; subst. exists []. now rewrite app_nil_r.
    - destruct (value_lit s x).
      + apply IH in E. exact E.
      + inversion E; subst. eauto.
      + apply IH in E. destruct E as [tail E]. exists (x :: tail). rewrite E. simpl. now rewrite <- app_assoc.
  Qed.
  Lemma simp_go_false_filter : forall (s : state) orig rest kept_rev ls, simp_go s orig rest kept_rev = (false, ls) ->
    ls = rev kept_rev ++ filter (isLU s) rest.
  Proof.
    intros s orig. induction rest as [|x t IH]; intros kept_rev ls E; simpl in E.
    - inversion E; subst. simpl. now rewrite app_nil_r.
    - unfold isLU at 1. simpl. destruct (value_lit s x); simpl.
      + apply IH. exact E.
      + discriminate.
      + rewrite (IH _ _ E). simpl. now rewrite <- app_assoc.
  Qed.

  (* the first two literals stay where they are *)
  Lemma simp_go_keeps2 : forall (s : state) l0 l1 r sat ls,
    (value_lit s l0 = LF -> value_lit s l1 = LT) -> (value_lit s l1 = LF -> value_lit s l0 = LT) ->
    simp_go s (l0 :: l1 :: r) (l0 :: l1 :: r) [] = (sat, ls) ->
    exists r', ls = l0 :: l1 :: r' /\
      (sat = false -> value_lit s l0 = LU /\ value_lit s l1 = LU /\ r' = filter (isLU s) r).
  Proof.
    intros s l0 l1 r sat ls H0 H1 E. simpl in E.
    destruct (value_lit s l0) eqn:V0.
    - rewrite (H0 eq_refl) in E. inversion E; subst. exists r. split; auto. discriminate.
    - inversion E; subst. exists r. split; auto. discriminate.
    - destruct (value_lit s l1) eqn:V1.
      + specialize (H1 eq_refl). discriminate.
      + inversion E; subst. exists r. split; auto. discriminate.
      + destruct sat.
        * destruct (simp_go_prefix _ _ _ _ _ _ E) as [tail Et]. exists tail. split; auto. discriminate.
        * pose proof (simp_go_false_filter _ _ _ _ _ E) as Ef. simpl in Ef. exists (filter (isLU s) r). split; auto.
  Qed.

  (* shrinking a clause behind its two watched literals *)
  Lemma WL_relits_tail : forall L (s : state) c l0 l1 r r', WL L None s -> c < length (cls s) ->
    lits_of s c = l0 :: l1 :: r -> NoDup (map fst (l0 :: l1 :: r')) ->
    WL L None (set_cls s (upd (cls s) c (l0 :: l1 :: r'))).
  Proof.
    intros L s c l0 l1 r r' [W0 W1 W2 W3 W4 W5 W6] Hc El Hnd.
    set (s' := set_cls s (upd (cls s) c (l0 :: l1 :: r'))).
    assert (Hvw : forall i, vw s' None i = vw s None i) by reflexivity.
    assert (Hatt : forall x, attached s' None x <-> attached s None x) by (intros; unfold attached; tauto).
    assert (Hlits : forall x, lits_of s' x = if Nat.eqb c x then l0 :: l1 :: r' else lits_of s x).
    { intros x. unfold s'. apply lits_of_upd. exact Hc. }
    constructor; auto.
    - intros i x Hx. rewrite Hlits. destruct (Nat.eqb_spec c x) as [<-|]; [|apply (W1 i x Hx)].
      destruct (W1 i c Hx) as [m0 [m1 [rr [E1 E2]]]]. rewrite El in E1. inversion E1; subst. eauto.
    - intros x m0 m1 rr Ha Em. rewrite Hlits in Em. destruct (Nat.eqb_spec c x) as [<-|]; [|apply (W2 x m0 m1 rr Ha Em)].
      inversion Em; subst. apply (W2 c m0 m1 r Ha El).
    - intros x Ha. rewrite Hlits. destruct (Nat.eqb_spec c x) as [<-|]; auto.
    - intros x m0 m1 rr Ha Em. rewrite Hlits in Em. destruct (Nat.eqb_spec c x) as [<-|].
      + inversion Em; subst. destruct (W6 c m0 m1 r Ha El) as [H1 H2]. split; assumption.
      + destruct (W6 x m0 m1 rr Ha Em) as [H1 H2]. split; assumption.
  Qed.

  Lemma erase1_in : forall x l, In x l -> exists l', erase1 x l = Some l' /\ (NoDup l -> forall y, In y l' <-> In y l /\ y <> x).
  Proof.
    induction l as [|z t IH]; intros H. destruct H. simpl. destruct (Nat.eqb_spec x z) as [->|Hn].
    - exists t. split; auto. intros ND y. apply NoDup_cons_iff in ND. destruct ND as [N1 N2]. split.
      + intros Hy. split. simpl; auto. intros ->. contradiction.
      + intros [[<-|Hy] Hne]; auto. contradiction.
    - destruct H as [->|H]; [contradiction|]. destruct (IH H) as [l' [E Hl']]. rewrite E. simpl. exists (z :: l'). split; auto.
      intros ND y. apply NoDup_cons_iff in ND. destruct ND as [N1 N2]. specialize (Hl' N2 y). simpl. split.
      + intros [<-|Hy]. split; auto. apply Hl' in Hy. tauto.
      + intros [[<-|Hy] Hne]; auto. right. apply Hl'. auto.
  Qed.
  Lemma unreason_fold_frame : forall ls c (s : state), watches (fold_left (unreason c) ls s) = watches s /\
    ub (fold_left (unreason c) ls s) = ub s /\ cls (fold_left (unreason c) ls s) = cls s /\
    constrs (fold_left (unreason c) ls s) = constrs s /\ assigns (fold_left (unreason c) ls s) = assigns s /\
    level (fold_left (unreason c) ls s) = level s /\ prop_q (fold_left (unreason c) ls s) = prop_q s.
  Proof.
    induction ls as [|l t IH]; intros c s; simpl. repeat split; auto.
    destruct (IH c (unreason c s l)) as (A1 & A2 & A3 & A4 & A5 & A6 & A7).
    assert (H : watches (unreason c s l) = watches s /\ ub (unreason c s l) = ub s /\ cls (unreason c s l) = cls s /\
                constrs (unreason c s l) = constrs s /\ assigns (unreason c s l) = assigns s /\ level (unreason c s l) = level s /\
                prop_q (unreason c s l) = prop_q s).
    { unfold unreason. destruct (nth (fst l) (reason s) None); [destruct (Nat.eqb c n)|]; simpl; repeat split; auto. }
    destruct H as (B1 & B2 & B3 & B4 & B5 & B6 & B7). repeat split; congruence.
  Qed.

  Lemma clause_remove_ok : forall L (s : state) c l0 l1 r, WL L None s -> attached s None c -> lits_of s c = l0 :: l1 :: r ->
    let s2 := clause_remove s c in
    ub s2 = ub s /\ cls s2 = cls s /\ constrs s2 = constrs s /\ assigns s2 = assigns s /\ level s2 = level s /\ prop_q s2 = prop_q s /\
    length (watches s2) = length (watches s) /\
    (forall i x, In x (nth i (watches s2) []) <-> In x (nth i (watches s) []) /\ x <> c) /\
    (forall i, NoDup (nth i (watches s2) [])).
  Proof.
    intros L s c l0 l1 r [W0 W1 W2 W3 W4 W5 W6] Ha El. cbv zeta.
    destruct (W2 c l0 l1 r Ha El) as [B0 B1]. rewrite vw_none in B0, B1.
    pose proof (W5 c Ha) as Hnd. rewrite El in Hnd. cbn [map] in Hnd. apply NoDup_cons_iff in Hnd. destruct Hnd as [N0 _].
    assert (Hi01 : index (lneg l0) <> index (lneg l1)). { apply var_neq_index. simpl. intros E. apply N0. simpl. auto. }
    assert (Hw0 : index (lneg l0) < length (watches s)).
    { destruct (Nat.lt_ge_cases (index (lneg l0)) (length (watches s))); auto. rewrite nth_overflow in B0 by auto. destruct B0. }
    assert (Hw1 : index (lneg l1) < length (watches s)).
    { destruct (Nat.lt_ge_cases (index (lneg l1)) (length (watches s))); auto. rewrite nth_overflow in B1 by auto. destruct B1. }
    pose proof (W3 (index (lneg l0))) as ND0. pose proof (W3 (index (lneg l1))) as ND1. rewrite vw_none in ND0, ND1.
    destruct (erase1_in c _ B0) as [w0 [E0 Hm0]]. specialize (Hm0 ND0).
    set (sa := set_watches s (upd (watches s) (index (lneg l0)) w0)).
    assert (Hn1 : nth (index (lneg l1)) (watches sa) [] = nth (index (lneg l1)) (watches s) []).
    { unfold sa. simpl. apply nth_upd_neq. exact Hi01. }
    destruct (erase1_in c _ B1) as [w1 [E1 Hm1]]. specialize (Hm1 ND1).
    set (sb := set_watches sa (upd (watches sa) (index (lneg l1)) w1)).
    assert (Ecr : clause_remove s c = fold_left (unreason c) (l0 :: l1 :: r) sb).
    { unfold clause_remove. rewrite El. unfold watch_erase at 2. rewrite E0. fold sa. unfold watch_erase. rewrite Hn1, E1. reflexivity. }
    rewrite Ecr.
    destruct (unreason_fold_frame (l0 :: l1 :: r) c sb) as (F1 & F2 & F3 & F4 & F5 & F6 & F7).
    rewrite F1, F2, F3, F4, F5, F6, F7. unfold sb, sa. simpl. rewrite !upd_length.
    assert (Hnth : forall i, nth i (upd (upd (watches s) (index (lneg l0)) w0) (index (lneg l1)) w1) [] =
                            if Nat.eqb (index (lneg l1)) i then w1 else if Nat.eqb (index (lneg l0)) i then w0 else nth i (watches s) []).
    { intros i. rewrite !nth_upd, upd_length. rewrite (proj2 (Nat.ltb_lt _ _) Hw0), (proj2 (Nat.ltb_lt _ _) Hw1). reflexivity. }
    repeat split; auto.
    - rewrite Hnth in H. destruct (Nat.eqb_spec (index (lneg l1)) i) as [<-|]; [apply Hm1 in H; tauto|].
      destruct (Nat.eqb_spec (index (lneg l0)) i) as [<-|]; [apply Hm0 in H; tauto|]. exact H.
    - rewrite Hnth in H. destruct (Nat.eqb_spec (index (lneg l1)) i) as [<-|]; [apply Hm1 in H; tauto|].
      destruct (Nat.eqb_spec (index (lneg l0)) i) as [<-|]; [apply Hm0 in H; tauto|].
      intros ->. destruct (W1 i c) as [m0 [m1 [rr [Em Ei]]]]. now rewrite vw_none. rewrite El in Em. inversion Em; subst. destruct Ei; congruence.
    - intros [H Hne]. rewrite Hnth. destruct (Nat.eqb_spec (index (lneg l1)) i) as [<-|]; [apply Hm1; auto|].
      destruct (Nat.eqb_spec (index (lneg l0)) i) as [<-|]; [apply Hm0; auto|]. exact H.
    - intros i. rewrite Hnth. destruct (Nat.eqb_spec (index (lneg l1)) i) as [<-|].
      + pose proof (erase1_spec _ _ _ E1) as [a [b [Ea [Eb _]]]]. rewrite Eb. rewrite Ea in ND1. apply (NoDup_remove_1 _ _ _ ND1).
      + destruct (Nat.eqb_spec (index (lneg l0)) i) as [<-|].
        * pose proof (erase1_spec _ _ _ E0) as [a [b [Ea [Eb _]]]]. rewrite Eb. rewrite Ea in ND0. apply (NoDup_remove_1 _ _ _ ND0).
        * specialize (W3 i). now rewrite vw_none in W3.
  Qed.

  (* clause::remove does not look at the list of live constraints *)
  Definition eqc (a b : state) : Prop :=
    watches a = watches b /\ cls a = cls b /\ assigns a = assigns b /\ level a = level b /\ prop_q a = prop_q b /\
    ub a = ub b /\ reason a = reason b.
  Lemma eqc_watch_erase : forall a b p c, eqc a b -> eqc (watch_erase a p c) (watch_erase b p c).
  Proof.
    intros a b p c (H1 & H2 & H3 & H4 & H5 & H6 & H7). unfold watch_erase. rewrite H1.
    destruct (erase1 c (nth (index p) (watches b) [])); unfold eqc; simpl; repeat split; auto; now rewrite H1.
  Qed.
  Lemma eqc_unreason_fold : forall ls c a b, eqc a b -> eqc (fold_left (unreason c) ls a) (fold_left (unreason c) ls b).
  Proof.
    induction ls as [|l t IH]; intros c a b H; simpl; auto. apply IH.
    destruct H as (H1 & H2 & H3 & H4 & H5 & H6 & H7). unfold unreason. rewrite H7.
    destruct (nth (fst l) (reason b) None); [destruct (Nat.eqb c n)|]; unfold eqc; simpl; repeat split; auto; now rewrite H7.
  Qed.
  Lemma eqc_clause_remove : forall a b c, eqc a b -> eqc (clause_remove a c) (clause_remove b c).
  Proof.
    intros a b c H. unfold clause_remove. assert (El : lits_of a c = lits_of b c) by (unfold lits_of; destruct H as (_ & -> & _); reflexivity).
    rewrite El. destruct (lits_of b c) as [|l0 [|l1 r]].
    - destruct H as (H1 & H2 & H3 & H4 & H5 & H6 & H7). unfold eqc. simpl. repeat split; auto.
    - destruct H as (H1 & H2 & H3 & H4 & H5 & H6 & H7). unfold eqc. simpl. repeat split; auto.
    - apply eqc_unreason_fold. apply eqc_watch_erase. apply eqc_watch_erase. exact H.
  Qed.

  (* the invariant after a satisfied clause has been removed; [live] is the list of the clauses still to be kept *)
  Lemma WL_removed : forall L (s : state) live live' c l0 l1 r,
    WL L None (set_constrs s live) -> In c live -> lits_of s c = l0 :: l1 :: r ->
    (forall x, In x live' -> In x live /\ x <> c) ->
    WL L None (set_constrs (clause_remove s c) live') /\ ub (clause_remove s c) = ub s /\ still_watched (clause_remove s c) c = false.
  Proof.
    intros L s live live' c l0 l1 r W Hc El Hl'.
    set (sl := set_constrs s live) in *.
    assert (Ha : attached sl None c) by (apply (wl_live _ _ _ W); exact Hc).
    destruct (clause_remove_ok L sl c l0 l1 r W Ha El) as (R1 & R2 & R3 & R4 & R5 & R6 & R7 & R8 & R9).
    assert (Heq : eqc (clause_remove sl c) (clause_remove s c)).
    { apply eqc_clause_remove. unfold eqc, sl. simpl. repeat split; auto. }
    destruct Heq as (Q1 & Q2 & Q3 & Q4 & Q5 & Q6 & Q7).
    destruct W as [W0 W1 W2 W3 W4 W5 W6].
    set (s2 := clause_remove s c) in *. set (t2 := set_constrs s2 live').
    assert (Hvw : forall i x, In x (vw t2 None i) <-> In x (vw sl None i) /\ x <> c).
    { intros i x. rewrite !vw_none. unfold t2. simpl. rewrite <- Q1. apply R8. }
    assert (Hlits : forall x, lits_of t2 x = lits_of sl x). { intros x. unfold lits_of, t2. simpl. rewrite <- Q2, R2. reflexivity. }
    assert (Hatt : forall x, attached t2 None x <-> attached sl None x /\ x <> c).
    { intros x. unfold attached. split.
      - intros [i Hi]. apply Hvw in Hi. destruct Hi as [Hi Hn]. split; eauto.
      - intros [[i Hi] Hn]. exists i. apply Hvw. auto. }
    assert (Hval : forall y, value_lit t2 y = value_lit sl y).
    { intros y. apply value_lit_assigns. unfold t2. simpl. rewrite <- Q3. exact R4. }
    assert (Hlv : forall y, lvl t2 y = lvl sl y).
    { intros y. unfold SatCoreAnalyze_Proofs.lvl, t2. simpl. rewrite <- Q4, R5. reflexivity. }
    split; [|split].
    - constructor.
      + unfold t2. simpl. rewrite <- Q1, <- Q3, R7, R4. exact W0.
      + intros i x Hx. apply Hvw in Hx. destruct Hx as [Hx _]. rewrite Hlits. apply (W1 i x Hx).
      + intros x m0 m1 rr Hx Em. apply Hatt in Hx. destruct Hx as [Hx Hn]. rewrite Hlits in Em.
        destruct (W2 x m0 m1 rr Hx Em) as [B0 B1]. split; apply Hvw; auto.
      + intros i. rewrite vw_none. unfold t2. simpl. rewrite <- Q1. apply R9.
      + intros x Hx. unfold t2 in Hx. simpl in Hx. destruct (Hl' x Hx) as [H1 H2]. apply Hatt. split; auto.
      + intros x Hx. apply Hatt in Hx. rewrite Hlits. apply W5. apply Hx.
      + intros x m0 m1 rr Hx Em. apply Hatt in Hx. destruct Hx as [Hx Hn]. rewrite Hlits in Em.
        destruct (W6 x m0 m1 rr Hx Em) as [H1 H2].
        assert (Hex : forall w, exempt sl None w x -> exempt t2 None w x).
        { intros w [Hq|[rs [E1 _]]]; [|discriminate]. left. unfold t2. simpl. rewrite <- Q5, R6. exact Hq. }
        unfold watch_ok in *. rewrite !Hval, !Hlv. split; intros Hv Hle He; [apply H1|apply H2]; auto.
    - rewrite <- Q6. exact R1.
    - unfold still_watched. destruct (existsb (memv c) (watches s2)) eqn:Ex; auto. exfalso.
      apply existsb_exists in Ex. destruct Ex as [w [Hw Hm]]. apply memv_In in Hm.
      destruct (In_nth _ _ [] Hw) as [i [Hi Ei]]. rewrite <- Q1 in Ei.
      assert (Hin : In c (nth i (watches (clause_remove sl c)) [])) by (rewrite Ei; exact Hm).
      apply R8 in Hin. destruct Hin as [_ Hn]. contradiction.
  Qed.

  (* the fields of the state after clause::remove, when the clause is found in both lists *)
  Lemma clause_remove_fields : forall (s : state) c l0 l1 r w0 w1, lits_of s c = l0 :: l1 :: r ->
    index (lneg l0) <> index (lneg l1) ->
    erase1 c (nth (index (lneg l0)) (watches s) []) = Some w0 -> erase1 c (nth (index (lneg l1)) (watches s) []) = Some w1 ->
    watches (clause_remove s c) = upd (upd (watches s) (index (lneg l0)) w0) (index (lneg l1)) w1 /\
    cls (clause_remove s c) = cls s /\ assigns (clause_remove s c) = assigns s /\ level (clause_remove s c) = level s /\
    prop_q (clause_remove s c) = prop_q s /\ constrs (clause_remove s c) = constrs s /\ ub (clause_remove s c) = ub s.
  Proof.
    intros s c l0 l1 r w0 w1 El Hi E0 E1.
    set (sa := set_watches s (upd (watches s) (index (lneg l0)) w0)).
    assert (Hn1 : nth (index (lneg l1)) (watches sa) [] = nth (index (lneg l1)) (watches s) []).
    { unfold sa. simpl. apply nth_upd_neq. exact Hi. }
    set (sb := set_watches sa (upd (watches sa) (index (lneg l1)) w1)).
    assert (Ecr : clause_remove s c = fold_left (unreason c) (l0 :: l1 :: r) sb).
    { unfold clause_remove. rewrite El. unfold watch_erase at 2. rewrite E0. fold sa. unfold watch_erase. rewrite Hn1, E1. reflexivity. }
    rewrite Ecr. destruct (unreason_fold_frame (l0 :: l1 :: r) c sb) as (F1 & F2 & F3 & F4 & F5 & F6 & F7).
    rewrite F1, F2, F3, F4, F5, F6, F7. unfold sb, sa. simpl. repeat split; auto.
  Qed.

  (* a detached clause may hold anything *)
  Lemma WL_transfer_detached : forall L (t t1 : state) c, WL L None t -> ~ attached t None c ->
    watches t1 = watches t -> assigns t1 = assigns t -> level t1 = level t -> prop_q t1 = prop_q t -> constrs t1 = constrs t ->
    (forall x, x <> c -> lits_of t1 x = lits_of t x) -> WL L None t1.
  Proof.
    intros L t t1 c [W0 W1 W2 W3 W4 W5 W6] Hna Hw Ha Hl Hq Hk Hlits.
    assert (Hvw : forall i, vw t1 None i = vw t None i) by (intros; unfold vw; now rewrite Hw).
    assert (Hatt : forall x, attached t1 None x <-> attached t None x).
    { intros x. unfold attached. split; intros [i Hi]; exists i; [rewrite <- Hvw|rewrite Hvw]; auto. }
    assert (Hne : forall x, attached t None x -> x <> c) by (intros x Hx ->; contradiction).
    assert (Hval : forall y, value_lit t1 y = value_lit t y) by (intros; apply value_lit_assigns; auto).
    assert (Hlv : forall y, lvl t1 y = lvl t y) by (intros; unfold SatCoreAnalyze_Proofs.lvl; now rewrite Hl).
    constructor.
    - now rewrite Hw, Ha.
    - intros i x Hx. rewrite Hvw in Hx. rewrite Hlits. apply (W1 i x Hx). apply Hne. exists i. exact Hx.
    - intros x m0 m1 rr Hx Em. apply Hatt in Hx. rewrite Hlits in Em by (apply Hne; auto). rewrite !Hvw. apply (W2 x m0 m1 rr Hx Em).
    - intros i. rewrite Hvw. apply W3.
    - intros x Hx. rewrite Hk in Hx. apply Hatt. apply W4. exact Hx.
    - intros x Hx. apply Hatt in Hx. rewrite Hlits by (apply Hne; auto). apply W5. exact Hx.
    - intros x m0 m1 rr Hx Em. apply Hatt in Hx. rewrite Hlits in Em by (apply Hne; auto). destruct (W6 x m0 m1 rr Hx Em) as [H1 H2].
      unfold watch_ok, exempt in *. rewrite !Hval, !Hlv, Hq. split; assumption.
  Qed.

  Lemma WL_removed' : forall L (s : state) live live' c l0 l1 r r',
    WL L None (set_constrs s live) -> In c live -> lits_of s c = l0 :: l1 :: r -> c < length (cls s) ->
    (forall x, In x live' -> In x live /\ x <> c) ->
    let s1 := set_cls s (upd (cls s) c (l0 :: l1 :: r')) in
    WL L None (set_constrs (clause_remove s1 c) live') /\ ub (clause_remove s1 c) = ub s /\ still_watched (clause_remove s1 c) c = false.
  Proof.
    intros L s live live' c l0 l1 r r' W Hc El Hlt Hl' s1.
    destruct (WL_removed L s live live' c l0 l1 r W Hc El Hl') as (Wt & Ub & Sw).
    set (sl := set_constrs s live) in *.
    assert (Ha : attached sl None c) by (apply (wl_live _ _ _ W); exact Hc).
    destruct (wl_both _ _ _ W c l0 l1 r Ha El) as [B0 B1]. rewrite vw_none in B0, B1.
    pose proof (wl_vars _ _ _ W c Ha) as Hnd. change (lits_of sl c) with (lits_of s c) in Hnd. rewrite El in Hnd.
    cbn [map] in Hnd. apply NoDup_cons_iff in Hnd. destruct Hnd as [N0 _].
    assert (Hi01 : index (lneg l0) <> index (lneg l1)). { apply var_neq_index. simpl. intros E. apply N0. simpl. auto. }
    destruct (erase1_in c _ B0) as [w0 [E0 _]]. destruct (erase1_in c _ B1) as [w1 [E1 _]].
    assert (El1 : lits_of s1 c = l0 :: l1 :: r'). { unfold s1. rewrite lits_of_upd by auto. now rewrite Nat.eqb_refl. }
    destruct (clause_remove_fields s c l0 l1 r w0 w1 El Hi01 E0 E1) as (A1 & A2 & A3 & A4 & A5 & A6 & A7).
    destruct (clause_remove_fields s1 c l0 l1 r' w0 w1 El1 Hi01 E0 E1) as (C1 & C2 & C3 & C4 & C5 & C6 & C7).
    split; [|split].
    - apply (WL_transfer_detached L (set_constrs (clause_remove s c) live') _ c Wt).
      + intros [i Hi]. rewrite vw_none in Hi. unfold still_watched in Sw.
        assert (Hex : existsb (memv c) (watches (clause_remove s c)) = true).
        { apply existsb_exists. exists (nth i (watches (clause_remove s c)) []). split. 2: now apply memv_In.
          apply nth_In. destruct (Nat.lt_ge_cases i (length (watches (clause_remove s c)))); auto. simpl in Hi. rewrite nth_overflow in Hi by auto. destruct Hi. }
        congruence.
      + simpl. rewrite C1, A1. reflexivity.
      + simpl. rewrite C3, A3. reflexivity.
      + simpl. rewrite C4, A4. reflexivity.
      + simpl. rewrite C5, A5. reflexivity.
      + reflexivity.
      + intros x Hx. unfold lits_of. simpl. rewrite C2, A2. unfold s1. simpl. now rewrite nth_upd_neq by auto.
    - rewrite C7. reflexivity.
    - unfold still_watched in *. rewrite C1. rewrite A1 in Sw. exact Sw.
  Qed.
  Lemma root_false_lvl : forall (s : state) w, Inv T s -> root_level s = true -> value_lit s w = LF -> lvl s w <= 0.
  Proof.
    intros s w I Hr Hv. destruct (value_lit_false T s w (proj1 I) Hv) as [Hin| ->].
    - pose proof (root_lvl0 T s (lneg w) I Hr Hin) as H. unfold SatCoreAnalyze_Proofs.lvl in *. simpl in H. lia.
    - pose proof (lvl_var0 T s (proj1 I)) as H. unfold SatCoreAnalyze_Proofs.lvl. simpl. lia.
  Qed.

  (* the loop of simplify_db: no ghost check fires and the watch invariant survives *)
  Lemma WL_simplify_loop : forall cs (s : state) kept, Inv T s -> root_level s = true -> prop_q s = [] ->
    WL 0 None (set_constrs s (rev kept ++ cs)) -> NoDup (rev kept ++ cs) -> (forall c, In c cs -> c < length (cls s)) ->
    ub (simplify_loop s cs kept) = ub s /\ WL 0 None (simplify_loop s cs kept).
  Proof.
    induction cs as [|c t IH]; intros s kept I Hroot Hq W Hnd Hb.
    - simpl. rewrite app_nil_r in W. split; auto.
    - cbn [simplify_loop].
      set (live := rev kept ++ c :: t) in *.
      assert (Hcl : In c live) by (apply in_or_app; right; left; auto).
      pose proof (wl_live _ _ _ W c Hcl) as Ha.
      destruct Ha as [i Hi]. destruct (wl_shape _ _ _ W i c Hi) as (l0 & l1 & r & El & _).
      assert (Ha : attached (set_constrs s live) None c) by (exists i; exact Hi).
      destruct (wl_sem _ _ _ W c l0 l1 r Ha El) as [S0 S1].
      pose proof (wl_vars _ _ _ W c Ha) as Hv. rewrite El in Hv.
      change (lits_of (set_constrs s live) c) with (lits_of s c) in El.
      assert (Hne : forall w, ~ exempt (set_constrs s live) None w c).
      { intros w [Hx|[rest [Hx _]]]. simpl in Hx. rewrite Hq in Hx. destruct Hx. discriminate. }
      assert (H0 : value_lit s l0 = LF -> value_lit s l1 = LT).
      { intros V. apply (S0 V). apply (root_false_lvl s l0 I Hroot V). apply Hne. }
      assert (H1 : value_lit s l1 = LF -> value_lit s l0 = LT).
      { intros V. apply (S1 V). apply (root_false_lvl s l1 I Hroot V). apply Hne. }
      assert (Hc : c < length (cls s)) by (apply Hb; left; auto).
      pose proof (simplify_remove_inv T s c) as Rinv. pose proof (simplify_shrink_inv T s c) as Sinv.
      rewrite El in *. destruct (simp_go s (l0 :: l1 :: r) (l0 :: l1 :: r) []) as [sat ls] eqn:E.
      destruct (simp_go_keeps2 s l0 l1 r sat ls H0 H1 E) as [r' [-> Hf]].
      destruct sat.
      + assert (Hl' : forall x, In x (rev kept ++ t) -> In x live /\ x <> c).
        { intros x Hx. unfold live. apply NoDup_remove in Hnd. destruct Hnd as [_ Hn]. split.
          apply in_app_or in Hx. apply in_or_app. destruct Hx; auto. right; right; auto. intros ->. contradiction. }
        destruct (WL_removed' 0 s live (rev kept ++ t) c l0 l1 r r' W Hcl El Hc Hl') as (W2 & U2 & Sw).
        rewrite Sw.
        set (s2 := clause_remove (set_cls s (upd (cls s) c (l0 :: l1 :: r'))) c) in *.
        pose proof (Rinv _ I Hroot eq_refl Sw) as I2.
        pose proof (clause_remove_same (set_cls s (upd (cls s) c (l0 :: l1 :: r'))) c) as Wr. fold s2 in Wr.
        destruct Wr as (A1 & A2 & A3 & A4 & A5 & A6 & _).
        assert (Hr2 : root_level s2 = true). { unfold root_level in *. rewrite A6. exact Hroot. }
        assert (Hq2 : prop_q s2 = []). { rewrite A4. exact Hq. }
        apply NoDup_remove_1 in Hnd.
        destruct (IH s2 kept I2 Hr2 Hq2 W2 Hnd) as [U3 W3].
        { intros x Hx. rewrite A2. simpl. rewrite upd_length. apply Hb. right; auto. }
        split; auto. rewrite U3. exact U2.
      + destruct (Hf eq_refl) as (V0 & V1 & ->).
        assert (Hok : shrink_ok s c (l0 :: l1 :: r) (l0 :: l1 :: filter (isLU s) r) = true).
        { unfold shrink_ok. apply andb_true_iff. split; [|reflexivity]. apply forallb_forall. intros x Hx.
          destruct (is_false s x) eqn:Fx; simpl; auto. apply negb_true_iff. apply memv_false. intros Hw.
          unfold is_false in Fx. assert (Fx' : value_lit s x = LF) by (destruct (value_lit s x); simpl in Fx; congruence). clear Fx.
          unfold watched_through in Hw.
          destruct (wl_shape _ _ _ W (index (lneg x)) c) as (m0 & m1 & rr & Em & Hor).
          { rewrite vw_none. exact Hw. }
          change (lits_of (set_constrs s live) c) with (lits_of s c) in Em. rewrite El in Em. inversion Em; subst m0 m1 rr.
          destruct Hor as [Hor|Hor]; apply index_inj in Hor; apply lneg_inj in Hor; subst x; congruence. }
        rewrite Hok.
        pose proof (Sinv _ I Hroot eq_refl Hok) as I1.
        set (s1 := set_cls s (upd (cls s) c (l0 :: l1 :: filter (isLU s) r))) in *.
        assert (W1 : WL 0 None (set_constrs s1 (rev (c :: kept) ++ t))).
        { simpl rev. rewrite <- app_assoc. simpl. fold live.
          change (set_constrs s1 live) with (set_cls (set_constrs s live) (upd (cls (set_constrs s live)) c (l0 :: l1 :: filter (isLU s) r))).
          apply (WL_relits_tail 0 (set_constrs s live) c l0 l1 r); auto.
          cbn [map] in *. apply NoDup_cons_iff in Hv. destruct Hv as [N0 Hv]. apply NoDup_cons_iff in Hv. destruct Hv as [N1 Hv].
          constructor. { intros [Hx|Hx]. apply N0; left; auto. apply N0. right. apply in_map_iff in Hx. destruct Hx as [y [Ey Hy]]. apply filter_In in Hy. rewrite <- Ey. apply in_map. apply Hy. }
          constructor. { intros Hx. apply N1. apply in_map_iff in Hx. destruct Hx as [y [Ey Hy]]. apply filter_In in Hy. rewrite <- Ey. apply in_map. apply Hy. }
          apply NoDup_map_filter. exact Hv. }
        assert (Hnd1 : NoDup (rev (c :: kept) ++ t)). { simpl rev. rewrite <- app_assoc. exact Hnd. }
        destruct (IH s1 (c :: kept) I1 Hroot Hq W1 Hnd1) as [U3 W3].
        { intros x Hx. unfold s1. simpl. rewrite upd_length. apply Hb. right; auto. }
        split; auto.
  Qed.
End WlSimp.
