(* What the invariants read from a state (lit_edge, proc, edges, sat_ok depend on few fields), the transfer of `ngood` along
   changes of the sat slice and the tables, sat_core::enqueue of an undefined literal, and the removal of the literal at the
   front of the queue (`dequeue`): the asserted edges become the old ones plus the edge of that literal. *)
From Coq Require Import List Arith Bool Lia.
From ORatio Require Import smt.DlDom smt.Dl proofs.DlOrd_Proofs proofs.DlBase_Proofs proofs.DlGraph_Proofs proofs.DlSpec_Proofs.
Import ListNotations.

Section Step.
Variable O : ogroup.
Variable D : Type.
Variable dm : dom D.
Variable DS : domspec O D dm.
Notation state := (state D).
Notation dget := (dget D dm).
Notation dval := (dval O D dm DS).
Notation proc := (proc D).
Notation in_q := (in_q D).
Notation lit_edge := (lit_edge O D dm DS).
Notation true_lit := (true_lit D).
Notation edges := (edges O D dm DS).
Notation cedge := (cedge O D dm DS).
Notation good := (good O D dm DS).
Notation ngood := (ngood O D dm DS).
Notation shape_ok := (shape_ok O D dm DS).
Notation tables_ok := (tables_ok D dm).
Notation layers_ok := (layers_ok D).
Notation sat_ok := (sat_ok D).
Notation dc_ok := (dc_ok O D dm DS).
Notation queue_ok := (queue_ok D).
Notation prop_ok := (prop_ok D dm).
Notation preds_ok := (preds_ok O D dm DS).
Notation decided := (decided D dm).

(* what depends on which fields *)
Lemma lit_edge_vd s s' l e : var_dists s' = var_dists s -> lit_edge s l e -> lit_edge s' l e.
Proof. intros E (c & g & H1 & H2 & H3). exists c, g. rewrite E. auto. Qed.

Lemma lit_edge_fun s l e e' : lit_edge s l e -> lit_edge s l e' -> e = e'.
Proof.
  intros (c & g & H1 & H2 & H3) (c' & g' & H1' & H2' & H3'). rewrite H1 in H1'. injection H1' as <-.
  rewrite (ds_wt_fun _ _ _ DS _ _ _ H2 H2') in H3. congruence.
Qed.

Lemma true_lit_as s s' v : assigns s' = assigns s -> true_lit s' v = true_lit s v.
Proof. intro E. unfold DlSpec_Proofs.true_lit, value_var. rewrite E. reflexivity. Qed.

Lemma proc_same s s' v : var_dists s' = var_dists s -> assigns s' = assigns s -> prop_q s' = prop_q s -> proc s v -> proc s' v.
Proof. intros E1 E2 E3. unfold DlSpec_Proofs.proc, DlSpec_Proofs.in_q, value_var. rewrite E1, E2, E3. auto. Qed.

Lemma edges_same s s' : var_dists s' = var_dists s -> assigns s' = assigns s -> prop_q s' = prop_q s ->
  forall e, edges s e <-> edges s' e.
Proof.
  intros E1 E2 E3 e. split; intros (v & Hp & He); exists v.
  - split; [apply (proc_same s s'); assumption |]. rewrite (true_lit_as s s' v E2). apply (lit_edge_vd s s'); assumption.
  - split; [apply (proc_same s' s); auto |]. rewrite <- (true_lit_as s s' v E2). apply (lit_edge_vd s' s); auto.
Qed.

Lemma sat_ok_same s s' : (forall v, value_var s' v = value_var s v) -> prop_q s' = prop_q s ->
  length (trail s') = length (trail s) -> length (layers s') = length (layers s) -> sat_ok s -> sat_ok s'.
Proof.
  intros VV Eq Et El [S1 S2 S3 S4]. constructor.
  - rewrite VV. exact S1.
  - intros l Hin. rewrite Eq in Hin. unfold value. rewrite VV. apply (S2 l Hin).
  - rewrite Eq. exact S3.
  - rewrite Et, El. exact S4.
Qed.

(* a change of the sat slice and of the tables keeps the network invariants: what matters is that the processed
   variables, their values and their edges are the same *)
Lemma ngood_transfer_gen s s' :
  ngood s ->
  n_vars s' = n_vars s -> dists s' = dists s -> preds s' = preds s -> dist_constr s' = dist_constr s ->
  layers s' = layers s -> fault s' = fault s ->
  tables_ok s' -> sat_ok s' -> queue_ok s' ->
  (forall v, proc s v -> proc s' v /\ true_lit s' v = true_lit s v) -> (forall v, proc s' v -> proc s v) ->
  (forall v e, proc s v -> (lit_edge s (true_lit s v) e <-> lit_edge s' (true_lit s v) e)) ->
  ngood s'.
Proof.
  intros [Gf Gsh Gt Gs Gl Gx Gp Gd Gq] En Ed Ep Edc El Ef T' S' Q' P1 P2 LE.
  assert (EE : forall e, edges s e <-> edges s' e).
  { intro e. split.
    - intros (v & Hp & He). destruct (P1 v Hp) as [Hp' Et]. exists v. split; [exact Hp' |]. rewrite Et. apply (LE v e Hp). exact He.
    - intros (v & Hp & He). pose proof (P2 v Hp) as Hp0. destruct (P1 v Hp0) as [_ Et]. exists v. split; [exact Hp0 |].
      rewrite Et in He. apply (LE v e Hp0). exact He. }
  assert (CE : forall pp j g, cedge s pp j g -> cedge s' pp j g).
  { intros pp j g (c & H1 & H2 & H3). destruct (P1 c H2) as [H2' Et]. exists c. split; [rewrite Edc; exact H1 |]. split; [exact H2' |].
    rewrite Et. apply (LE c _ H2). exact H3. }
  assert (DV : forall i j, dval s' i j = dval s i j) by (intros; unfold DlSpec_Proofs.dval, Dl.dget; rewrite Ed; reflexivity).
  constructor.
  - congruence.
  - destruct Gsh as [A1 A2 A3 A4 A5]. constructor; rewrite ?Ed, ?Ep, ?En; try assumption.
    + intros i j. unfold Dl.dget. rewrite Ed. apply A4.
    + intros i j H. unfold Dl.dget. rewrite Ed. apply A5. exact H.
  - exact T'.
  - exact S'.
  - destruct Gl as [A1 A2]. constructor; rewrite ?El, ?Ed; assumption.
  - rewrite En. eapply exact_ext; [exact EE |].
    destruct Gx as [X1 X2 X3 X4]. constructor; try assumption.
    + intros i Hi. rewrite DV. apply X2. exact Hi.
    + intros i j g Hi Hj E. rewrite DV in E. apply X3; assumption.
    + intros i k w j He Hj. rewrite !DV. apply (X4 i k w j He Hj).
  - intros i j Hi Hj Hf. rewrite En in Hi, Hj. rewrite DV in Hf. specialize (Gp i j Hi Hj Hf). unfold tree in *.
    eapply gtree_mono; [exact CE |].
    clear - Gp DV Ep. induction Gp as [| j p g Hji Hp Ht IH Hc Ev]; [apply tree_root |].
    eapply tree_step; [exact Hji | unfold pget in *; rewrite Ep; exact Hp | exact IH | exact Hc | rewrite !DV; exact Ev].
  - destruct Gd as [G1 G2]. unfold DlSpec_Proofs.dc_ok. rewrite Edc. split; [exact G1 |]. intros k c Hk. destruct (G2 k c Hk) as [P [g E]].
    destruct (P1 c P) as [P' Et]. split; [exact P' | exists g; rewrite Et; apply (LE c _ P); exact E].
  - exact Q'.
Qed.

Lemma ngood_transfer s s' :
  ngood s ->
  n_vars s' = n_vars s -> dists s' = dists s -> preds s' = preds s -> dist_constr s' = dist_constr s ->
  var_dists s' = var_dists s -> dist_constrs s' = dist_constrs s -> layers s' = layers s -> fault s' = fault s ->
  length (assigns s') = length (assigns s) ->
  sat_ok s' -> queue_ok s' ->
  (forall v, proc s v -> proc s' v /\ true_lit s' v = true_lit s v) -> (forall v, proc s' v -> proc s v) ->
  ngood s'.
Proof.
  intros G En Ed Ep Edc Evd Ecs El Ef Ea S' Q' P1 P2. apply (ngood_transfer_gen s s' G); try assumption.
  - destruct (gd_tables _ _ _ _ _ G) as [A1 A2 A3 A4 A5]. constructor; rewrite ?Evd, ?Ecs, ?En, ?Ea; assumption.
  - intros v e _. split; apply lit_edge_vd; congruence.
Qed.

(* sat_core::enqueue of an undefined literal (a decision, a propagated literal, the head of a recorded lemma) *)
Lemma value_LU (s : state) l : value s l = LU <-> value_var s (fst l) = LU.
Proof. unfold value. destruct (value_var s (fst l)), (snd l); split; congruence. Qed.

Lemma enqueue_LU (u : state) l : value u l = LU ->
  enqueue D u l = (set_sat D u (lset (assigns u) (fst l) (if snd l then LT else LF)) (prop_q u ++ [l]) (push_trail (trail u) (fst l)), true).
Proof. intro H. unfold enqueue. rewrite H. reflexivity. Qed.

Lemma push_trail_length t v : t <> [] -> length (push_trail t v) = length t.
Proof. destruct t; [congruence | reflexivity]. Qed.

Lemma enqueue_ngood u l : ngood u -> value u l = LU -> 0 < fst l < length (assigns u) ->
  let u' := fst (enqueue D u l) in
  ngood u' /\ value u' l = LT /\ (forall v, v <> fst l -> value_var u' v = value_var u v) /\
  prop_q u' = prop_q u ++ [l] /\
  n_vars u' = n_vars u /\ dists u' = dists u /\ preds u' = preds u /\ dist_constr u' = dist_constr u /\
  var_dists u' = var_dists u /\ dist_constrs u' = dist_constrs u /\ layers u' = layers u /\ fault u' = fault u /\
  confl u' = confl u /\ conj_exprs u' = conj_exprs u /\ length (assigns u') = length (assigns u) /\ length (trail u') = length (trail u).
Proof.
  intros G HU Hl. rewrite (enqueue_LU u l HU). cbn [fst]. set (u' := set_sat D u _ _ _).
  pose proof (proj1 (value_LU u l) HU) as HV.
  assert (Val : forall v, v <> fst l -> value_var u' v = value_var u v).
  { intros v Hv. unfold value_var, u', set_sat; cbn. apply nth_lset_neq. congruence. }
  assert (Vl : value u' l = LT).
  { unfold value, value_var, u', set_sat; cbn. rewrite nth_lset_eq by lia. destruct (snd l); reflexivity. }
  assert (Tr : trail u <> []).
  { pose proof (so_levels _ _ (gd_sat _ _ _ _ _ G)) as L. destruct (trail u); [discriminate | congruence]. }
  assert (NQ : ~ In (fst l) (map fst (prop_q u))).
  { intro Hin. apply in_map_iff in Hin. destruct Hin as (l' & E & Hin).
    pose proof (so_q_true _ _ (gd_sat _ _ _ _ _ G) l' Hin) as T. unfold value in T. rewrite E, HV in T. discriminate. }
  split; [| split; [exact Vl | split; [exact Val | unfold u', set_sat; cbn; rewrite lset_length, (push_trail_length _ _ Tr); repeat split]]].
  apply (ngood_transfer u u' G); try reflexivity.
  - unfold u', set_sat; cbn. apply lset_length.
  - destruct (gd_sat _ _ _ _ _ G) as [S1 S2 S3 S4]. constructor.
    + rewrite Val; [exact S1 | lia].
    + intros l' Hin. unfold u', set_sat in Hin; cbn in Hin. apply in_app_or in Hin. destruct Hin as [Hin | [<- | []]]; [| exact Vl].
      pose proof (S2 l' Hin) as T. unfold value in *. rewrite Val; [exact T |].
      intro E. apply NQ. apply in_map_iff. exists l'. split; [exact E | exact Hin].
    + unfold u', set_sat; cbn. rewrite map_app. cbn. apply NoDup_app_snoc; assumption.
    + unfold u', set_sat; cbn. rewrite (push_trail_length _ _ Tr). exact S4.
  - intros v c Hc Hn. destruct (Nat.eq_dec v (fst l)) as [-> | Hne].
    + right. unfold DlSpec_Proofs.in_q, u', set_sat; cbn. rewrite map_app. apply in_or_app. right. left. reflexivity.
    + rewrite (Val v Hne) in Hn. destruct (gd_queue _ _ _ _ _ G v c Hc Hn) as [(P1 & P2 & P3) | Q].
      * left. split; [exact P1 |]. split; [rewrite (Val v Hne); exact P2 |].
        unfold DlSpec_Proofs.in_q, u', set_sat in *; cbn. rewrite map_app. intro Hin. apply in_app_or in Hin. destruct Hin as [Hin | [E | []]]; [contradiction | congruence].
      * right. unfold DlSpec_Proofs.in_q, u', set_sat in *; cbn. rewrite map_app. apply in_or_app. left. exact Q.
  - intros v (P1 & P2 & P3). assert (Hne : v <> fst l) by (intros ->; contradiction).
    split.
    + split; [exact P1 |]. split; [rewrite (Val v Hne); exact P2 |].
      unfold DlSpec_Proofs.in_q, u', set_sat in *; cbn. rewrite map_app. intro Hin. apply in_app_or in Hin. destruct Hin as [Hin | [E | []]]; [contradiction | congruence].
    + unfold DlSpec_Proofs.true_lit. rewrite (Val v Hne). reflexivity.
  - intros v (P1 & P2 & P3). assert (Hne : v <> fst l).
    { intros ->. apply P3. unfold DlSpec_Proofs.in_q, u', set_sat; cbn. rewrite map_app. apply in_or_app. right. left. reflexivity. }
    split; [exact P1 |]. split; [rewrite <- (Val v Hne); exact P2 |].
    unfold DlSpec_Proofs.in_q, u', set_sat in *; cbn in *. rewrite map_app in P3. intro Hin. apply P3. apply in_or_app. left. exact Hin.
Qed.

(* taking the literal at the front of the queue *)
Definition dequeue (s : state) : state := set_sat D s (assigns s) (tl (prop_q s)) (trail s).

Lemma dequeue_fields s :
  n_vars (dequeue s) = n_vars s /\ dists (dequeue s) = dists s /\ preds (dequeue s) = preds s /\
  dist_constr (dequeue s) = dist_constr s /\ var_dists (dequeue s) = var_dists s /\ dist_constrs (dequeue s) = dist_constrs s /\
  layers (dequeue s) = layers s /\ assigns (dequeue s) = assigns s /\ trail (dequeue s) = trail s /\
  fault (dequeue s) = fault s /\ confl (dequeue s) = confl s /\ prop_q (dequeue s) = tl (prop_q s).
Proof. unfold dequeue, set_sat; cbn. repeat split. Qed.

Section Deq.
Variable s : state.
Variable p : lit.
Variable q : list lit.
Hypothesis Hg : good s.
Hypothesis Hq : prop_q s = p :: q.
Let s1 := dequeue s.

Lemma deq_value : value s p = LT.
Proof. apply (so_q_true _ _ (gd_sat _ _ _ _ _ (gd_n _ _ _ _ _ Hg))). rewrite Hq. left; reflexivity. Qed.

Lemma deq_true_lit : true_lit s (fst p) = p.
Proof.
  pose proof deq_value as V. unfold value in V. unfold DlSpec_Proofs.true_lit. destruct p as [v sg]; cbn [fst snd] in *.
  destruct (value_var s v), sg; congruence.
Qed.

Lemma deq_not_in_q : ~ In (fst p) (map fst q).
Proof.
  pose proof (so_q_nodup _ _ (gd_sat _ _ _ _ _ (gd_n _ _ _ _ _ Hg))) as ND. rewrite Hq in ND. cbn in ND. inversion ND; assumption.
Qed.

Lemma deq_proc_old v : proc s v -> proc s1 v.
Proof.
  intros (H1 & H2 & H3). repeat split; try assumption. unfold DlSpec_Proofs.in_q in *. unfold s1, dequeue; cbn.
  rewrite Hq in *. cbn in *. tauto.
Qed.

Lemma deq_proc_new c : vd_find (fst p) (var_dists s) = Some c -> proc s1 (fst p).
Proof.
  intro Hc. split; [exists c; exact Hc |]. split.
  - pose proof deq_value as V. unfold value in V. change (value_var s1 (fst p)) with (value_var s (fst p)).
    destruct (value_var s (fst p)); congruence.
  - unfold DlSpec_Proofs.in_q, s1, dequeue; cbn. rewrite Hq. cbn. apply deq_not_in_q.
Qed.

Lemma deq_proc_inv v : proc s1 v -> proc s v \/ v = fst p.
Proof.
  intros (H1 & H2 & H3). destruct (Nat.eq_dec v (fst p)) as [-> | Hn]; [right; reflexivity | left].
  repeat split; try assumption. unfold DlSpec_Proofs.in_q in *. unfold s1, dequeue in H3; cbn in H3. rewrite Hq in *. cbn in *.
  intros [E | Hin]; [congruence | contradiction].
Qed.

Lemma deq_not_proc : ~ proc s (fst p).
Proof. intros (_ & _ & H). apply H. unfold DlSpec_Proofs.in_q. rewrite Hq. left; reflexivity. Qed.

(* the edges after the dequeue: the old ones plus the edge of p *)
Lemma deq_edges e ep : lit_edge s p ep -> (edges s1 e <-> add_edge (edges s) (fst (fst ep)) (snd (fst ep)) (snd ep) e).
Proof.
  intro Hep. destruct ep as [[a b] w]. cbn [fst snd]. split.
  - intros (v & Hp & He). destruct (deq_proc_inv v Hp) as [Hold | ->].
    + left. exists v. split; [exact Hold | exact He].
    + right. change (true_lit s1 (fst p)) with (true_lit s (fst p)) in He. rewrite deq_true_lit in He.
      exact (lit_edge_fun s p _ _ He Hep).
  - intros [(v & Hp & He) | ->].
    + exists v. split; [apply deq_proc_old; exact Hp | exact He].
    + destruct Hep as (c & g & Hc & Hw & E). exists (fst p). split; [apply (deq_proc_new c Hc) |].
      change (true_lit s1 (fst p)) with (true_lit s (fst p)). rewrite deq_true_lit. exists c, g. auto.
Qed.

Lemma deq_cedge pp j g : cedge s pp j g -> cedge s1 pp j g.
Proof. intros (c & H1 & H2 & H3). exists c. split; [exact H1 | split; [apply deq_proc_old; exact H2 | exact H3]]. Qed.

Lemma deq_preds : preds_ok s1.
Proof.
  intros i j Hi Hj Hf. unfold tree. eapply gtree_mono; [apply deq_cedge |].
  apply (gd_preds _ _ _ _ _ (gd_n _ _ _ _ _ Hg) i j Hi Hj Hf).
Qed.

Lemma deq_static : shape_ok s1 /\ tables_ok s1 /\ layers_ok s1 /\ sat_ok s1 /\ fault s1 = 0 /\
                   dc_ok s1 /\ queue_ok s1.
Proof.
  destruct Hg as [[Gf Gsh Gt Gs Gl Gx Gp Gd Gq] Gpr].
  split; [destruct Gsh as [A1 A2 A3 A4 A5]; constructor; assumption |].
  split; [destruct Gt as [A1 A2 A3 A4 A5]; constructor; assumption |].
  split; [destruct Gl as [A1 A2]; constructor; assumption |]. split.
  { destruct Gs as [S1 S2 S3 S4]. constructor; unfold s1, dequeue; cbn.
    - exact S1.
    - intros l Hl. change (value (set_sat D s (assigns s) (tl (prop_q s)) (trail s)) l) with (value s l).
      apply S2. rewrite Hq in *. right. exact Hl.
    - rewrite Hq in *. cbn in *. inversion S3; assumption.
    - exact S4. }
  split; [exact Gf |]. split.
  { destruct Gd as [G1 G2]. split; [exact G1 |]. intros k c0 Hk. destruct (G2 k c0 Hk) as [P [g E]].
    split; [apply deq_proc_old; exact P | exists g; exact E]. }
  intros v c0 Hv Hn. destruct (Gq v c0 Hv Hn) as [P | Q]; [left; apply deq_proc_old; exact P |].
    unfold DlSpec_Proofs.in_q in Q. rewrite Hq in Q. cbn in Q. destruct Q as [<- | Q].
    - left. apply (deq_proc_new c0 Hv).
    - right. unfold DlSpec_Proofs.in_q, s1, dequeue; cbn. rewrite Hq. exact Q.
Qed.

(* ---- the edge a -gw-> b of the literal p ---- *)
Variables a b : nat.
Variable gw : O.
Hypothesis Hedge : lit_edge s p (a, b, gw).
Let n := n_vars s.

Lemma deq_ab : a < n /\ b < n /\ a <> b.
Proof.
  destruct Hedge as (c & g & Hc & Hw & E).
  destruct (tb_wf _ _ _ (gd_tables _ _ _ _ _ (gd_n _ _ _ _ _ Hg)) _ _ Hc) as (H1 & H2 & H3 & _).
  destruct (snd p); injection E as -> -> _; unfold n; repeat split; auto.
Qed.

Lemma deq_edges_ab e : edges s1 e <-> add_edge (edges s) a b gw e.
Proof. apply (deq_edges e (a, b, gw) Hedge). Qed.

Lemma deq_edges_in : edges_in n (edges s1).
Proof.
  intros i k w He. apply deq_edges_ab in He. destruct He as [He | [= -> -> ->]].
  - apply (ex_in _ _ _ _ (gd_exact _ _ _ _ _ (gd_n _ _ _ _ _ Hg)) i k w He).
  - destruct deq_ab as (? & ? & _). auto.
Qed.

(* no conflict and no improvement: the closure does not change *)
Lemma deq_redundant : xle (Fin g0) (xadd (dval s b a) gw) -> xle (dval s a b) (Fin gw) -> good s1.
Proof.
  intros Hnc Hred. destruct deq_ab as (Ha & Hb & Hab). pose proof Hg as [[Gf Gsh Gt Gs Gl Gx Gp Gd Gq] Gpr].
  destruct deq_static as (S1 & S2 & S3 & S4 & S5 & S6 & S7).
  constructor; [constructor | exact Gpr]; try assumption.
  - eapply exact_ext; [intro e; symmetry; apply deq_edges_ab |].
    change (n_vars s1) with n. change (dval s1) with (dval s).
    apply (update_exact O n (edges s) (dval s) (dval s) a b gw Gx Ha Hb Hnc).
    intros i j Hi Hj. split; [| reflexivity]. intro L. exfalso.
    pose proof (exact_triangle O n (edges s) (dval s) i a j Gx Hi Ha Hj) as T1.
    pose proof (exact_triangle O n (edges s) (dval s) a b j Gx Ha Hb Hj) as T2.
    unfold DlGraph_Proofs.via in L.
    destruct (dval s i a) as [g1 |]; [| cbn in L; contradiction]. destruct (dval s b j) as [g2 |]; [| cbn in L; contradiction].
    destruct (dval s a b) as [g3 |]; [| cbn in Hred; contradiction]. cbn in *.
    destruct (dval s a j) as [g4 |]; cbn in *; [| contradiction]. destruct (dval s i j) as [g5 |]; cbn in *; [og O | contradiction].
  - apply deq_preds.
Qed.

End Deq.

End Step.
