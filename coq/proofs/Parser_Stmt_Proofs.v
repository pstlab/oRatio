(* Proofs about the parser model and the printer, property C16: statements.
     stmt_roundtrip     reading `pp_stmt s` gives back s, for EVERY statement tree: local fields, assignments, expression
                        statements, blocks, disjunctions with costs, facts / goals, return -- nested to any depth within the limit
     parse_statements   a program made of (top-level) statements is accepted and read back as written *)
From Coq Require Import List String Bool Arith Lia.
From ORatio Require Import lang.Token lang.Lexer lang.Ast lang.Parser lang.Printer.
From ORatio Require Import proofs.Parser_Len_Proofs proofs.Parser_Proofs.
Import ListNotations.

Lemma p_expr_monoS f d pr ts : NF (p_expr f d pr ts) -> p_expr (S f) d pr ts = p_expr f d pr ts.
Proof. apply (run_mono (p_expr_run f d pr ts)). Qed.
Lemma p_args_monoS f d ts : NF (p_args f d ts) -> p_args (S f) d ts = p_args f d ts.
Proof. apply (run_mono (p_args_run f d ts)). Qed.
Lemma p_fargs_monoS f d ts : NF (p_fargs f d ts) -> p_fargs (S f) d ts = p_fargs f d ts.
Proof. apply (run_mono (p_fargs_run f d ts)). Qed.

Lemma expr_ok e d rest : wf_expr e -> hgt e <= d -> tail_ok 0 rest -> RE (S d) 0 (pp e ++ rest) e rest.
Proof. intros W Hh. exact (expr_read e d rest W (le_S _ _ Hh)). Qed.

Lemma tail_ok_rbracket r : tail_ok 0 (TRBracket :: r).  Proof. cbn. repeat split; discriminate. Qed.

(* trees: what statements are built of *)
Definition wf_oexpr (oe : option expr) : Prop := match oe with Some e => wf_expr e | None => True end.
Definition ohgt (oe : option expr) : nat := match oe with Some e => hgt e | None => 0 end.

Definition pp_init (oe : option expr) : list token := match oe with Some e => TEq :: pp e | None => [] end.
Lemma pp_var_eq v : pp_var v = TId (fst v) :: pp_init (snd v).  Proof. destruct v as [x [e|]]; reflexivity. Qed.

Lemma init_ok oe d rest : wf_oexpr oe -> ohgt oe <= d -> tail_ok 0 rest ->
  match rest with TEq :: _ => False | _ => True end ->
  reads (fun f => p_init f (S d) (pp_init oe ++ rest)) oe rest.
Proof.
  intros W Hh Ht Hne. destruct oe as [e|]; cbn [pp_init app].
  - eapply reads_ext; [intros f; cbn [p_init]; reflexivity|]. eapply reads_bind; [exact (expr_ok e d rest W Hh Ht)|apply reads_ret].
  - exists 0. intros f _. unfold p_init. destruct rest as [|[] ?]; try reflexivity. contradiction.
Qed.

Lemma vars1_ok d rest vs : forall v, Forall (fun v => wf_oexpr (snd v) /\ ohgt (snd v) <= d) (v :: vs) ->
  reads (fun f => p_vars f (S d) (pp_var v ++ flat_map (fun y => [TComma] ++ pp_var y) vs ++ TSemicolon :: rest)) (v :: vs) (TSemicolon :: rest).
Proof.
  induction vs as [|v2 vs IH]; intros [x oe] HF; inversion HF as [|? ? [W Hh] HF']; subst; cbn [fst snd] in *;
    rewrite pp_var_eq; assoc_app;
    (eapply reads_S; [intros f; cbn [p_vars expect_id bind]; reflexivity|]).
  - eapply reads_bind; [apply init_ok; [exact W|exact Hh|apply tail_ok_semicolon|exact I]|apply reads_ret].
  - eapply reads_bind; [apply init_ok; [exact W|exact Hh|apply tail_ok_comma|exact I]|].
    eapply reads_bind; [exact (IH v2 HF')|apply reads_ret].
Qed.
Lemma vars_ok vs d rest : vs <> [] -> Forall (fun v => wf_oexpr (snd v) /\ ohgt (snd v) <= d) vs ->
  reads (fun f => p_vars f (S d) (sep_by [TComma] (map pp_var vs) ++ TSemicolon :: rest)) vs (TSemicolon :: rest).
Proof. intros Hne HF. destruct vs as [|v vs]; [congruence|]. rewrite sep_by_cons, <- app_assoc. apply vars1_ok. exact HF. Qed.

Lemma cost_ok c d rest : wf_oexpr c -> ohgt c <= d -> match rest with TLBracket :: _ => False | _ => True end ->
  reads (fun f => p_cost f (S d) (pp_cost c ++ rest)) c rest.
Proof.
  intros W Hh Hne. destruct c as [e|]; cbn [pp_cost app].
  - rewrite <- app_assoc. cbn [app]. eapply reads_ext; [intros f; cbn [p_cost]; reflexivity|].
    eapply reads_bind; [exact (expr_ok e d _ W Hh (tail_ok_rbracket rest))|apply reads_ret].
  - exists 0. intros f _. unfold p_cost. destruct rest as [|[] ?]; try reflexivity. contradiction.
Qed.

Definition pp_farg (a : ident * expr) : list token := TId (fst a) :: TColon :: pp (snd a).

Lemma fargs1_ok d rest asg : forall a, Forall (fun a => wf_expr (snd a) /\ hgt (snd a) <= d) (a :: asg) ->
  reads (fun f => p_fargs1 f (S d) (pp_farg a ++ flat_map (fun y => [TComma] ++ pp_farg y) asg ++ TRParen :: rest)) (a :: asg) rest.
Proof.
  induction asg as [|a2 asg IH]; intros [x e] HF; inversion HF as [|? ? [W Hh] HF']; subst; cbn [fst snd] in *;
    unfold pp_farg at 1; assoc_app;
    (eapply reads_S; [intros f; cbn [p_fargs1]; reflexivity|]).
  - eapply reads_bind; [exact (expr_ok e d _ W Hh (tail_ok_rparen 0 rest))|apply reads_ret].
  - eapply reads_bind; [exact (expr_ok e d _ W Hh (tail_ok_comma 0 _))|]. eapply reads_bind; [exact (IH a2 HF')|apply reads_ret].
Qed.
Lemma fargs_ok asg d rest : Forall (fun a => wf_expr (snd a) /\ hgt (snd a) <= d) asg ->
  reads (fun f => p_fargs f (S d) (sep_by [TComma] (map pp_farg asg) ++ TRParen :: rest)) asg rest.
Proof.
  intros HF. destruct asg as [|a asg]; [exists 0; reflexivity|]. rewrite sep_by_cons, <- app_assoc. exact (fargs1_ok d rest asg a HF).
Qed.

Section StmtInd.
  Variable P : stmt -> Prop.
  Hypothesis HLocal : forall tp vs, P (SLocal tp vs).
  Hypothesis HAssign : forall q i e, P (SAssign q i e).
  Hypothesis HExpr : forall e, P (SExpr e).
  Hypothesis HDisj : forall cs, Forall (fun c => Forall P (fst c)) cs -> P (SDisj cs).
  Hypothesis HBlock : forall ss, Forall P ss -> P (SBlock ss).
  Hypothesis HFormula : forall isf fn scp pn asg, P (SFormula isf fn scp pn asg).
  Hypothesis HReturn : forall e, P (SReturn e).
  Fixpoint stmt_ind' (s : stmt) : P s :=
    let all := fix all (l : list stmt) : Forall P l :=
                 match l with [] => Forall_nil P | x :: r => Forall_cons x (stmt_ind' x) (all r) end in
    match s with
    | SLocal tp vs => HLocal tp vs
    | SAssign q i e => HAssign q i e
    | SExpr e => HExpr e
    | SDisj cs => HDisj cs ((fix allc (l : list (list stmt * option expr)) : Forall (fun c => Forall P (fst c)) l :=
                              match l with [] => Forall_nil _ | c :: r => Forall_cons c (all (fst c)) (allc r) end) cs)
    | SBlock ss => HBlock ss (all ss)
    | SFormula isf fn scp pn asg => HFormula isf fn scp pn asg
    | SReturn e => HReturn e
    end.
End StmtInd.

Fixpoint wf_stmt (s : stmt) : Prop :=
  match s with
  | SLocal tp vs => tp <> [] /\ vs <> [] /\ Forall (fun v => wf_oexpr (snd v)) vs
  | SAssign _ _ e | SExpr e | SReturn e => wf_expr e
  | SDisj cs =>
      cs <> [] /\ (match cs with [c] => snd c <> None | _ => True end) /\
      fold_right (fun c acc => (fold_right (fun x a => wf_stmt x /\ a) True (fst c) /\ wf_oexpr (snd c)) /\ acc) True cs
  | SBlock ss => fold_right (fun x a => wf_stmt x /\ a) True ss
  | SFormula _ _ _ _ asg => Forall (fun a => wf_expr (snd a)) asg
  end.

(* an upper bound on the nesting budget a statement needs *)
Fixpoint sneed (s : stmt) : nat :=
  match s with
  | SLocal _ vs => 2 + fold_right (fun v acc => max (ohgt (snd v)) acc) 0 vs
  | SAssign _ _ e | SExpr e | SReturn e => 2 + hgt e
  | SDisj cs => 1 + fold_right (fun c acc => max (max (fold_right (fun x a => max (sneed x) a) 0 (fst c)) (2 + ohgt (snd c))) acc) 0 cs
  | SBlock ss => 1 + fold_right (fun x a => max (sneed x) a) 0 ss
  | SFormula _ _ _ _ asg => 2 + fold_right (fun a acc => max (hgt (snd a)) acc) 0 asg
  end.

(* a statement is not followed by `[` or `or` (which would make a block the first disjunct of a disjunction) *)
Definition stmt_tail (rest : list token) : Prop := match rest with TLBracket :: _ | TOr :: _ => False | _ => True end.

Lemma str_eqb_eq a : forall b, str_eqb a b = true -> a = b.
Proof.
  induction a as [|x a IH]; intros [|y b] H; cbn in H; try discriminate; [reflexivity|].
  apply andb_true_iff in H. destruct H as [H1 H2]. apply Ascii.eqb_eq in H1. subst. f_equal. apply IH. exact H2.
Qed.

Lemma prim_roundtrip n k : prim_token n = Some k -> prim_name k = Some n.
Proof.
  unfold prim_token. intros H.
  destruct (str_eqb n (la "bool")) eqn:E1; [inversion H; subst; apply str_eqb_eq in E1; subst; reflexivity|].
  destruct (str_eqb n (la "int")) eqn:E2; [inversion H; subst; apply str_eqb_eq in E2; subst; reflexivity|].
  destruct (str_eqb n (la "real")) eqn:E3; [inversion H; subst; apply str_eqb_eq in E3; subst; reflexivity|].
  destruct (str_eqb n (la "tp")) eqn:E4; [inversion H; subst; apply str_eqb_eq in E4; subst; reflexivity|].
  destruct (str_eqb n (la "string")) eqn:E5; [inversion H; subst; apply str_eqb_eq in E5; subst; reflexivity|].
  discriminate.
Qed.

(* a printed type is one primitive keyword, or a qualified name *)
Lemma pp_type_cases q : q <> [] ->
  (exists n k, q = [n] /\ pp_type q = [k] /\ prim_name k = Some n) \/
  (exists x xs, q = x :: xs /\ pp_type q = TId x :: dots xs).
Proof.
  intros Hq. destruct q as [|n [|n2 q']]; [congruence| |].
  - cbn [pp_type]. destruct (prim_token n) as [k|] eqn:E.
    + left. exists n, k. split; [reflexivity|]. split; [reflexivity|exact (prim_roundtrip n k E)].
    + right. exists n, []. split; [reflexivity|apply pp_qid_cons].
  - right. exists n, (n2 :: q'). split; [reflexivity|]. cbn [pp_type]. apply pp_qid_cons.
Qed.

Lemma vars_head vs rest : vs <> [] ->
  exists x t r0, sep_by [TComma] (map pp_var vs) ++ TSemicolon :: rest = TId x :: t :: r0 /\ (t = TEq \/ t = TComma \/ t = TSemicolon).
Proof.
  intros Hne. destruct vs as [|[x oe] vs']; [congruence|]. rewrite sep_by_cons, pp_var_eq. cbn [fst snd].
  destruct oe; [|destruct vs']; cbn [pp_init flat_map app]; eexists _, _, _; (split; [reflexivity|tauto]).
Qed.

Lemma stmt_head s : wf_stmt s -> exists t r, pp_stmt s = t :: r /\ t <> TRBrace /\ t <> TLBracket /\ t <> TOr.
Proof.
  destruct s; cbn [wf_stmt pp_stmt]; intros W.
  - destruct W as (Htp & _). destruct (pp_type_cases tp Htp) as [(n & k & _ & -> & Hp)|(x & xs & _ & ->)];
      eexists _, _; (split; [reflexivity|]); [destruct k; try discriminate Hp|]; repeat split; discriminate.
  - destruct (ids ++ [i]) as [|x xs] eqn:E; [destruct ids; discriminate|]. rewrite pp_qid_cons. eexists _, _. split; [reflexivity|repeat split; discriminate].
  - destruct (head_pp e W) as (t & r & E & F). rewrite E. eexists _, _. split; [reflexivity|].
    destruct F as [F|[->| ->]]; repeat split; try discriminate; intros ->; discriminate F.
  - destruct W as (Hne & _). destruct cs as [|c cs]; [congruence|].
    change (map ?f (c :: cs)) with (f c :: map f cs). destruct cs; cbn [sep_by app]; eexists _, _; (split; [reflexivity|repeat split; discriminate]).
  - eexists _, _. split; [reflexivity|repeat split; discriminate].
  - destruct isf; eexists _, _; (split; [reflexivity|repeat split; discriminate]).
  - eexists _, _. split; [reflexivity|repeat split; discriminate].
Qed.

Definition stmt_rt (s : stmt) : Prop := forall d rest, sneed s <= d -> stmt_tail rest ->
  reads (fun f => p_stmt f d (pp_stmt s ++ rest)) s rest.

Lemma stmt_tail_of_head s rest' : wf_stmt s -> stmt_tail (pp_stmt s ++ rest').
Proof. intros W. destruct (stmt_head s W) as (t & r & -> & H1 & H2 & H3). cbn. destruct t; try exact I; congruence. Qed.

Lemma block_ok ss d rest : Forall (fun s => wf_stmt s /\ stmt_rt s /\ sneed s <= d) ss ->
  reads (fun f => p_block f d (flat_map pp_stmt ss ++ TRBrace :: rest)) ss rest.
Proof.
  induction 1 as [|s ss' (W & RT & Hd) HF IH]; cbn [flat_map app].
  - exists 1. intros [|f] Hf; [lia|reflexivity].
  - rewrite <- app_assoc.
    assert (Ht : stmt_tail (flat_map pp_stmt ss' ++ TRBrace :: rest)).
    { destruct HF as [|s2 ss2 (W2 & _) _]; [exact I|]. cbn [flat_map]. rewrite <- app_assoc. apply stmt_tail_of_head. exact W2. }
    eapply reads_S.
    + intros f. apply block_eq. destruct (stmt_head s W) as (t & r & -> & Hn & _). destruct t; (reflexivity || congruence).
    + eapply reads_bind; [exact (RT d _ Hd Ht)|]. eapply reads_bind; [exact IH|apply reads_ret].
Qed.

Definition pp_disjunct (c : list stmt * option expr) : list token := pp_block (fst c) ++ pp_cost (snd c).

(* a disjunct all of whose statements are read back with budget S d, and whose cost with budget d *)
Definition disjunct_ready (d : nat) (c : list stmt * option expr) : Prop :=
  Forall (fun s => wf_stmt s /\ stmt_rt s /\ sneed s <= S d) (fst c) /\ wf_oexpr (snd c) /\ ohgt (snd c) <= d.

Lemma disjuncts_ok cs d rest :
  Forall (disjunct_ready d) cs ->
  stmt_tail rest ->
  reads (fun f => p_disjuncts f (S d) (flat_map (fun c => TOr :: pp_disjunct c) cs ++ rest)) cs rest.
Proof.
  intros HF Ht. induction HF as [|c cs' (Hb & Wc & Hc) HF IH]; cbn [flat_map app].
  - exists 1. intros [|f] Hf; [lia|]. cbn [p_disjuncts]. destruct rest as [|[] ?]; try reflexivity. contradiction.
  - unfold pp_disjunct at 1. unfold pp_block. assoc_app.
    eapply reads_S; [intros f; cbn [p_disjuncts]; reflexivity|].
    eapply reads_bind; [exact (block_ok (fst c) (S d) _ Hb)|]. eapply reads_bind; [apply cost_ok; [exact Wc|exact Hc|]|].
    + destruct cs'; cbn [flat_map app]; [destruct rest as [|[] ?]; try exact I; contradiction|exact I].
    + eapply reads_bind; [exact IH|]. destruct c. apply reads_ret.
Qed.

Lemma stmts_pack ss d : Forall (fun s => wf_stmt s -> stmt_rt s) ss -> Forall wf_stmt ss ->
  fold_right (fun x a => max (sneed x) a) 0 ss <= d -> Forall (fun s => wf_stmt s /\ stmt_rt s /\ sneed s <= d) ss.
Proof.
  intros H W Hd. apply fold_max_all in Hd. induction H as [|s r Hs _ IH]; [constructor|].
  inversion W; subst. inversion Hd; subst. constructor; [tauto|]. apply IH; assumption.
Qed.

Lemma disj_pack cs d1 :
  Forall (fun c : list stmt * option expr => Forall (fun s => wf_stmt s -> stmt_rt s) (fst c)) cs ->
  fold_right (fun c acc => (fold_right (fun x a => wf_stmt x /\ a) True (fst c) /\ wf_oexpr (snd c)) /\ acc) True cs ->
  fold_right (fun c acc => max (max (fold_right (fun x a => max (sneed x) a) 0 (fst c)) (2 + ohgt (snd c))) acc) 0 cs <= S d1 ->
  Forall (disjunct_ready d1) cs.
Proof.
  induction 1 as [|c r Hc _ IH]; cbn [fold_right]; intros W Hd; [constructor|]. destruct W as [[Wb Wc] Wr].
  apply Nat.max_lub_iff in Hd. destruct Hd as [Hd Hr]. apply Nat.max_lub_iff in Hd. destruct Hd as [Hs Ho].
  constructor; [|exact (IH Wr Hr)]. split; [apply stmts_pack; [exact Hc|apply fold_and_all; exact Wb|exact Hs]|]. split; [exact Wc|lia].
Qed.

(* after the block of a first disjunct comes `[` or `or` *)
Lemma disj_or_block {T} r (a b : T) : (exists r0, r = TLBracket :: r0 \/ r = TOr :: r0) ->
  match r with TLBracket :: _ | TOr :: _ => a | _ => b end = a.
Proof. intros [r0 [->| ->]]; reflexivity. Qed.

Theorem stmt_roundtrip s : wf_stmt s -> stmt_rt s.
Proof.
  induction s using stmt_ind'; intros W d rest Hd Ht; cbn [wf_stmt sneed pp_stmt] in *.
  - (* local field *)
    destruct W as (Htp & Hvs & Wv). destruct d as [|[|d0]]; try lia.
    assert (HF : Forall (fun v => wf_oexpr (snd v) /\ ohgt (snd v) <= d0) vs).
    { apply Forall_and; [exact Wv|]. apply (fold_max_all (fun v => ohgt (snd v))). lia. }
    assoc_app.
    pose proof (vars_ok vs d0 rest Hvs HF) as H.
    destruct (pp_type_cases tp Htp) as [(n & k & -> & -> & Hn)|(y & ys & -> & ->)]; cbn [app].
    + eapply reads_S.
      { intros f. rewrite p_stmt_other by (destruct k; (discriminate Hn || reflexivity)). rewrite Hn. reflexivity. }
      eapply reads_bind; [exact H|apply reads_ret].
    + destruct (vars_head vs rest Hvs) as (x1 & t1 & r0 & Ev & _). rewrite Ev in H |- *.
      eapply reads_S; [intros f; cbn [p_stmt]; rewrite p_dots_pp by exact I; cbn [bind]; reflexivity|].
      eapply reads_bind; [exact H|apply reads_ret].
  - (* assignment *)
    destruct d as [|[|d0]]; try lia. assoc_app.
    destruct (q ++ [i]) as [|x xs] eqn:Eq; [destruct q; discriminate|]. rewrite pp_qid_cons. cbn [app].
    assert (Es : split_last (x :: xs) = (q, i)) by (rewrite <- Eq; apply split_last_snoc). injection Es as <- <-.
    eapply reads_S; [intros f; cbn [p_stmt]; rewrite p_dots_pp by exact I; cbn [bind split_last]; reflexivity|].
    eapply reads_bind; [exact (expr_ok e d0 _ W ltac:(lia) (tail_ok_semicolon 0 rest))|apply reads_ret].
  - (* expression *)
    assoc_app. destruct d as [|d0]; [lia|]. apply expr_stmt_read; [exact W|lia].
  - (* disjunction *)
    destruct W as (Hne & Hone & Wc). destruct d as [|d0]; [lia|]. destruct cs as [|c cs']; [congruence|].
    cbn [fold_right] in Wc, Hd. destruct Wc as [[Wb Wco] Wrest].
    rewrite sep_by_cons. unfold pp_block. assoc_app.
    (* a cost, or the absence of one, needs a budget of two *)
    destruct d0 as [|d1]; [apply le_S_n, Nat.max_lub_iff, proj1, Nat.max_lub_iff, proj2 in Hd; lia|].
    assert (Hall : Forall (disjunct_ready d1) (c :: cs')).
    { apply disj_pack; [exact H|cbn [fold_right]; tauto|cbn [fold_right]; lia]. }
    inversion Hall as [|? ? (Hb1 & Wc1 & Hc1) Hall']; subst.
    change (flat_map (fun x => TOr :: TLBrace :: flat_map pp_stmt (fst x) ++ TRBrace :: pp_cost (snd x)) cs')
      with (flat_map (fun c0 => TOr :: pp_disjunct c0) cs').
    set (tailD := flat_map (fun c0 => TOr :: pp_disjunct c0) cs' ++ rest).
    assert (Hnb : match tailD with TLBracket :: _ => False | _ => True end).
    { unfold tailD. destruct cs'; cbn [flat_map app]; [destruct rest as [|[] ?]; try exact I; contradiction|exact I]. }
    assert (Hhead : exists r0, (pp_cost (snd c) ++ tailD = TLBracket :: r0) \/ (pp_cost (snd c) ++ tailD = TOr :: r0)).
    { destruct (snd c) as [e0|] eqn:Ec; cbn [pp_cost app].
      - eexists. left. reflexivity.
      - unfold tailD. destruct cs' as [|c2 cs2]; [exfalso; congruence|]. cbn [flat_map app]. eexists. right. reflexivity. }
    eapply reads_S; [intros f; cbn [p_stmt]; reflexivity|]. eapply reads_bind; [exact (block_ok (fst c) (S d1) _ Hb1)|].
    eapply reads_ext; [intros f; apply disj_or_block; exact Hhead|].
    eapply reads_bind; [exact (cost_ok (snd c) d1 tailD Wc1 Hc1 Hnb)|].
    eapply reads_bind; [exact (disjuncts_ok cs' d1 rest Hall' Ht)|]. destruct c. apply reads_ret.
  - (* block *)
    destruct d as [|d0]; [lia|]. apply fold_and_all in W. assoc_app.
    eapply reads_S; [intros f; cbn [p_stmt]; reflexivity|]. eapply reads_bind; [exact (block_ok ss d0 rest (stmts_pack ss d0 H W ltac:(lia)))|].
    exists 0. intros f _. destruct rest as [|[] ?]; try reflexivity; contradiction.
  - (* formula *)
    destruct d as [|[|d0]]; try lia.
    assert (HF : Forall (fun a => wf_expr (snd a) /\ hgt (snd a) <= d0) asg).
    { apply Forall_and; [exact W|]. apply (fold_max_all (fun a => hgt (snd a))). lia. }
    assoc_app.
    change (map (fun a : str * expr => TId (fst a) :: TColon :: pp (snd a)) asg) with (map pp_farg asg).
    assert (Eq : p_qid (pp_qid (scp ++ [pn]) ++ TLParen :: sep_by [TComma] (map pp_farg asg) ++ TRParen :: TSemicolon :: rest) =
                 Ok (scp ++ [pn]) (TLParen :: sep_by [TComma] (map pp_farg asg) ++ TRParen :: TSemicolon :: rest)).
    { apply p_qid_pp; [destruct scp; discriminate|exact I]. }
    destruct isf; (eapply reads_S; [intros f; cbn [p_stmt expect_id bind]; rewrite Eq; cbn [bind]; rewrite split_last_snoc; cbn [expect_lparen bind]; reflexivity|]);
      (eapply reads_bind; [exact (fargs_ok asg d0 _ HF)|apply reads_ret]).
  - (* return *)
    destruct d as [|[|d0]]; try lia. assoc_app.
    eapply reads_S; [intros f; cbn [p_stmt]; reflexivity|].
    eapply reads_bind; [exact (expr_ok e d0 _ W ltac:(lia) (tail_ok_semicolon 0 rest))|apply reads_ret].
Qed.

(* statements allowed at top level: all but `return` *)
Definition wf_top (s : stmt) : Prop := wf_stmt s /\ match s with SReturn _ => False | _ => True end.

Lemma unit_kind_prim k n x t r : prim_name k = Some n -> t <> TLParen ->
  unit_kind_of (k :: TId x :: t :: r) = Ok UStmt (k :: TId x :: t :: r).
Proof. intros Hp Ht. destruct k; try discriminate Hp; destruct t; try reflexivity; congruence. Qed.

Lemma unit_kind_stmt s rest : wf_top s -> exists r0, unit_kind_of (pp_stmt s ++ rest) = Ok UStmt r0.
Proof.
  intros [W Hnr]. destruct s; cbn [wf_stmt pp_stmt] in *; try contradiction.
  - destruct W as (Htp & Hvs & _). assoc_app.
    destruct (vars_head vs rest Hvs) as (x & t & r0 & -> & Ht).
    destruct (pp_type_cases tp Htp) as [(n & k & _ & -> & Hp)|(y & ys & _ & ->)]; cbn [app].
    + eexists. apply (unit_kind_prim k n x t r0 Hp). destruct Ht as [->|[->| ->]]; discriminate.
    + cbn [unit_kind_of]. rewrite p_dots_pp by exact I. cbn [bind]. destruct Ht as [->|[->| ->]]; eexists; reflexivity.
  - destruct (ids ++ [i]) as [|x xs] eqn:Eq; [destruct ids; discriminate|]. rewrite pp_qid_cons.
    assoc_app. cbn [unit_kind_of]. rewrite p_dots_pp by exact I. cbn [bind]. eexists. reflexivity.
  - rewrite <- app_assoc. cbn [app]. eexists. apply expr_stmt_head. exact W.
  - destruct W as (Hne & _). destruct cs as [|c cs']; [congruence|].
    change (map ?f (c :: cs')) with (f c :: map f cs'). destruct cs'; cbn [sep_by app unit_kind_of]; eexists; reflexivity.
  - cbn [app unit_kind_of]. eexists. reflexivity.
  - destruct isf; cbn [app unit_kind_of]; eexists; reflexivity.
Qed.

Lemma units_stmts ss : Forall (fun s => wf_top s /\ sneed s <= MAX_DEPTH) ss ->
  reads (fun f => p_units f (flat_map pp_stmt ss)) (CU [] [] [] ss) [].
Proof.
  induction 1 as [|s ss' [[W Hnr] Hd] HF IH]; [apply units_nil|]. cbn [flat_map].
  destruct (unit_kind_stmt s (flat_map pp_stmt ss') (conj W Hnr)) as [r0 Hk].
  apply units_stmt with (2 := Hk) (rest := flat_map pp_stmt ss') (u := CU [] [] [] ss'); [| |exact IH].
  - destruct (stmt_head s W) as (t & r & -> & _). discriminate.
  - apply stmt_roundtrip; [exact W|exact Hd|]. destruct HF as [|s2 ss2 [[W2 _] _] _]; [exact I|]. cbn [flat_map]. apply stmt_tail_of_head. exact W2.
Qed.

(* a program consisting of statements (declarations of variables, assignments, constraints, blocks and disjunctions,
   facts and goals) is accepted and read back as written *)
Theorem parse_statements ss : Forall (fun s => wf_top s /\ sneed s <= MAX_DEPTH) ss ->
  parse (pp_unit (CU [] [] [] ss)) = Ok (CU [] [] [] ss) [].
Proof. intros H. apply parse_reads. exact (units_stmts ss H). Qed.

(* example: the hypotheses are satisfiable by a non-trivial program *)
Definition ex_prog : list stmt :=
  [ SLocal [la "real"] [(la "x", None); (la "y", Some (EReal (la "2") (la "0")))];
    SLocal [la "A"; la "B"] [(la "b", Some (ENew [la "A"; la "B"] [ex_id "x"]))];
    SAssign [la "b"] (la "f") (ENary NAdd [ex_id "x"; EInt (la "1")]);
    SExpr (EBin BLeq (ex_id "x") (ENary NMul [ENary NAdd [ex_id "y"; EInt (la "1")]; EReal (la "0") (la "5")]));
    SDisj [([SFormula false (la "g") [la "b"] (la "P") [(la "a", ex_id "x")]], Some (EInt (la "2")));
           ([SBlock [SExpr (EUn UNot (ex_id "p"))]; SFormula true (la "h") [] (la "Q") []], None)] ].
Example ex_prog_ok : Forall (fun s => wf_top s /\ sneed s <= MAX_DEPTH) ex_prog.
Proof.
  unfold ex_prog. repeat (apply Forall_cons || apply Forall_nil);
    (split; [|apply Nat.leb_le; vm_compute; reflexivity]);
    repeat first [discriminate | exact I | lia | split | apply Forall_cons | apply Forall_nil | progress cbn [wf_stmt wf_expr wf_oexpr fold_right snd fst List.length]].
Qed.
Example ex_prog_roundtrip : parse (pp_unit (CU [] [] [] ex_prog)) = Ok (CU [] [] [] ex_prog) [].
Proof. apply parse_statements. exact ex_prog_ok. Qed.
