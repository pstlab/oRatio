(* C04 -- proofs about plan/Sweep.v (the model of /repo/solver/types/state_variable.cpp).
   Main results (restated in props/Properties_C04.v):
     sweep_reports_iff, sweep_complete, sweep_nil_iff_disjoint, sv_instance_ok_sound, zero_length_never_reported,
     touching_never_reported, timeline_shows_covering, timeline_le1_iff_disjoint,
     resolvers_sound, resolvers_exhaustive (+ the two *_refuted witnesses that its provisos are needed),
     to_check_covers (+ to_check_without_sigma_listener_refuted);
   timeline_segment_spec is what the two timeline results and RRSweep_Proofs rest on.
   All by induction over the list of pulses / the list of events: no bound on the number of atoms, pulses or events. *)
From Coq Require Import ZArith List Bool Lia Sorting.Sorted.
From ORatio Require Import plan.Sweep proofs.PlanLists_Proofs.
Import ListNotations.
Local Open Scope Z_scope.

Lemma qd_ltb_iff : forall a b, qd_ltb a b = true <-> qd_lt a b.
Proof.
  intros a b. unfold qd_ltb, qd_lt.
  rewrite orb_true_iff, andb_true_iff, !Z.ltb_lt, Z.eqb_eq. tauto.
Qed.

Lemma qd_ltb_false : forall a b, qd_ltb a b = false <-> qd_le b a.
Proof.
  intros a b. unfold qd_ltb, qd_le.
  rewrite orb_false_iff, andb_false_iff, !Z.ltb_ge, Z.eqb_neq. lia.
Qed.

Lemma qd_leb_iff : forall a b, qd_leb a b = true <-> qd_le a b.
Proof. intros a b. unfold qd_leb. rewrite negb_true_iff. apply qd_ltb_false. Qed.

Lemma qd_leb_false : forall a b, qd_leb a b = false <-> qd_lt b a.
Proof. intros a b. unfold qd_leb. rewrite negb_false_iff. apply qd_ltb_iff. Qed.

Lemma qd_ext : forall a b : qd, fst a = fst b -> snd a = snd b -> a = b.
Proof. intros [a1 a2] [b1 b2]; simpl; intros; subst; reflexivity. Qed.

Lemma qd_eqb_iff : forall a b, qd_eqb a b = true <-> a = b.
Proof.
  intros a b. unfold qd_eqb. rewrite andb_true_iff, !Z.eqb_eq. split.
  - intros [H1 H2]. apply qd_ext; assumption.
  - intros ->. auto.
Qed.

Lemma qd_eqb_false : forall a b, qd_eqb a b = false <-> a <> b.
Proof. intros a b. rewrite <- qd_eqb_iff. symmetry. apply not_true_iff_false. Qed.

Lemma qd_neq : forall a b : qd, a <> b <-> (fst a <> fst b \/ snd a <> snd b).
Proof.
  intros a b. split.
  - intros H. destruct (Z.eq_dec (fst a) (fst b)) as [E1|]; [|auto].
    destruct (Z.eq_dec (snd a) (snd b)) as [E2|]; [|auto]. exfalso. apply H. apply qd_ext; assumption.
  - intros H E. subst. lia.
Qed.

(* turn every order fact into linear arithmetic over the components *)
Ltac qd_norm :=
  repeat match goal with
         | H : qd_ltb _ _ = true |- _ => apply qd_ltb_iff in H
         | H : qd_ltb _ _ = false |- _ => apply qd_ltb_false in H
         | H : qd_leb _ _ = true |- _ => apply qd_leb_iff in H
         | H : qd_leb _ _ = false |- _ => apply qd_leb_false in H
         | H : qd_eqb _ _ = true |- _ => apply qd_eqb_iff in H
         | H : qd_eqb _ _ = false |- _ => apply qd_eqb_false in H
         end.

Ltac qd_lia :=
  qd_norm;
  repeat match goal with
         | H : @eq qd _ _ |- _ => let H1 := fresh in let H2 := fresh in
                                   assert (H1 := f_equal fst H); assert (H2 := f_equal snd H); clear H
         | H : ~ (@eq qd _ _) |- _ => apply qd_neq in H
         end;
  try match goal with |- @eq qd _ _ => apply qd_ext end;
  try match goal with |- ~ (@eq qd _ _) => apply qd_neq end;
  unfold qd_lt, qd_le, qd_add, qd_sub, qd0 in *; simpl fst in *; simpl snd in *; lia.

Lemma qd_lt_irrefl : forall a, ~ qd_lt a a.
Proof. intros a H. qd_lia. Qed.
Lemma qd_lt_trans : forall a b c, qd_lt a b -> qd_lt b c -> qd_lt a c.
Proof. intros. qd_lia. Qed.
Lemma qd_le_lt_trans : forall a b c, qd_le a b -> qd_lt b c -> qd_lt a c.
Proof. intros. qd_lia. Qed.
Lemma qd_lt_le_trans : forall a b c, qd_lt a b -> qd_le b c -> qd_lt a c.
Proof. intros. qd_lia. Qed.
Lemma qd_le_trans : forall a b c, qd_le a b -> qd_le b c -> qd_le a c.
Proof. intros. qd_lia. Qed.
Lemma qd_le_refl : forall a, qd_le a a.
Proof. intros. qd_lia. Qed.
Lemma qd_le_iff : forall a b, qd_le a b <-> qd_lt a b \/ a = b.
Proof.
  intros a b. split.
  - intros H. destruct (qd_ltb a b) eqn:E; [left | right]; qd_lia.
  - intros [H|H]; qd_lia.
Qed.
Lemma qd_not_lt : forall a b, ~ qd_lt a b <-> qd_le b a.
Proof. intros. split; intros; qd_lia. Qed.
Lemma qd_not_le : forall a b, ~ qd_le a b <-> qd_lt b a.
Proof. intros. split; intros; qd_lia. Qed.

Definition id_lt (a b : atom) : Prop := a_id a < a_id b.
Definition key_lt (x y : qd * list atom) : Prop := qd_lt (fst x) (fst y).

Lemma StronglySorted_app_inv : forall (A : Type) (R : A -> A -> Prop) l1 l2, StronglySorted R (l1 ++ l2) ->
  StronglySorted R l1 /\ StronglySorted R l2 /\ forall x y, In x l1 -> In y l2 -> R x y.
Proof.
  intros A R l1. induction l1 as [|a r IH]; intros l2 H; simpl in *.
  - split; [constructor|]. split; [assumption|]. intros x y [].
  - apply StronglySorted_inv in H. destruct H as [Hr Ha]. destruct (IH _ Hr) as (I1 & I2 & I3).
    rewrite Forall_app in Ha. destruct Ha as [Ha1 Ha2]. rewrite Forall_forall in Ha2.
    split; [constructor; assumption|]. split; [assumption|].
    intros x y [<-|Hx] Hy; [apply Ha2 | apply I3]; assumption.
Qed.

Lemma pset_insert_in : forall p s x, In x (pset_insert p s) <-> In x (p :: s).
Proof.
  intros p s x. induction s as [|q r IH]; simpl; [tauto|].
  destruct (qd_ltb p q) eqn:E1; [simpl; tauto|]. destruct (qd_eqb p q) eqn:E2.
  - apply qd_eqb_iff in E2. subst. simpl. tauto.
  - simpl. rewrite IH. simpl. tauto.
Qed.

Lemma pset_insert_sorted : forall p s, StronglySorted qd_lt s -> StronglySorted qd_lt (pset_insert p s).
Proof.
  intros p s H. induction H as [|q r Hr IH Hq]; simpl.
  - repeat constructor.
  - destruct (qd_ltb p q) eqn:E1; [|destruct (qd_eqb p q) eqn:E2].
    + apply qd_ltb_iff in E1. constructor; [constructor; assumption|]. constructor; [assumption|].
      apply (Forall_impl _ (fun y => qd_lt_trans p q y E1) Hq).
    + constructor; assumption.
    + constructor; [assumption|]. rewrite Forall_forall in *. intros y Hy.
      apply pset_insert_in in Hy. destruct Hy as [<-|Hy]; [qd_lia | auto].
Qed.

Lemma aset_insert_in : forall a s x,
  (forall b, In b s -> a_id b = a_id a -> b = a) ->
  (In x (aset_insert a s) <-> In x (a :: s)).
Proof.
  intros a s x. induction s as [|b r IH]; simpl; intros U; [tauto|].
  destruct (a_id a <? a_id b) eqn:E1; [simpl; tauto|]. destruct (a_id a =? a_id b) eqn:E2.
  - apply Z.eqb_eq in E2. assert (b = a) by (apply U; auto). subst. simpl. tauto.
  - simpl. rewrite IH by (intros; apply U; auto). simpl. tauto.
Qed.

Lemma aset_insert_Forall : forall (P : atom -> Prop) a s, P a -> Forall P s -> Forall P (aset_insert a s).
Proof.
  intros P a s Pa H. induction H as [|b r Pb Hr IH]; simpl.
  - repeat constructor; assumption.
  - destruct (a_id a <? a_id b); [|destruct (a_id a =? a_id b)]; repeat constructor; assumption.
Qed.

Lemma aset_insert_sorted : forall a s, StronglySorted id_lt s -> StronglySorted id_lt (aset_insert a s).
Proof.
  intros a s H. induction H as [|b r Hr IH Hb]; simpl.
  - repeat constructor.
  - destruct (a_id a <? a_id b) eqn:E1; [|destruct (a_id a =? a_id b) eqn:E2].
    + apply Z.ltb_lt in E1. constructor; [constructor; assumption|]. constructor; [assumption|].
      apply (Forall_impl _ (fun y => Z.lt_trans _ _ _ E1) Hb).
    + constructor; assumption.
    + constructor; [assumption|]. apply aset_insert_Forall; [unfold id_lt; lia | assumption].
Qed.

Lemma aset_erase_in : forall a s x, StronglySorted id_lt s ->
  (In x (aset_erase a s) <-> In x s /\ a_id x <> a_id a).
Proof.
  intros a s x H. induction H as [|b r Hr IH Hb]; simpl.
  - tauto.
  - rewrite Forall_forall in Hb. destruct (a_id a =? a_id b) eqn:E.
    + apply Z.eqb_eq in E. split.
      * intros Hx. split; [right; assumption|]. specialize (Hb x Hx). unfold id_lt in Hb. lia.
      * intros [[<-|Hx] Hn]; [congruence | assumption].
    + apply Z.eqb_neq in E. simpl. rewrite IH. intuition congruence.
Qed.

Lemma aset_erase_sorted : forall a s, StronglySorted id_lt s -> StronglySorted id_lt (aset_erase a s).
Proof.
  intros a s H. induction H as [|b r Hr IH Hb]; simpl.
  - constructor.
  - destruct (a_id a =? a_id b); [assumption|].
    constructor; [assumption|]. rewrite Forall_forall in *. intros y Hy.
    apply aset_erase_in in Hy; [|assumption]. apply Hb. tauto.
Qed.

Lemma sorted_id_NoDup : forall s, StronglySorted id_lt s -> NoDup s.
Proof.
  intros s H. induction H as [|b r Hr IH Hb]; constructor; [|assumption].
  intros Hin. rewrite Forall_forall in Hb. specialize (Hb b Hin). unfold id_lt in Hb. lia.
Qed.

Definition lookup (m : amap) (p : qd) : list atom :=
  match amap_find p m with Some s => s | None => [] end.

Definition amap_ok (m : amap) : Prop :=
  StronglySorted key_lt m /\ Forall (fun e => StronglySorted id_lt (snd e)) m.

Lemma lookup_cons : forall k s m p, lookup ((k, s) :: m) p = if qd_eqb p k then s else lookup m p.
Proof. intros k s m p. unfold lookup. simpl. destruct (qd_eqb p k); reflexivity. Qed.

Lemma lookup_above : forall m p, Forall (fun e => qd_lt p (fst e)) m -> lookup m p = [].
Proof.
  intros m p H. induction H as [|[q s] r Hq Hr IH]; [reflexivity|].
  rewrite lookup_cons, IH. simpl in Hq. destruct (qd_eqb p q) eqn:E; [exfalso; qd_lia | reflexivity].
Qed.

(* m[q].insert(b) changes the set found under q and nothing else *)
Lemma lookup_add : forall q b m p, StronglySorted key_lt m ->
  lookup (amap_add q b m) p = if qd_eqb p q then aset_insert b (lookup m p) else lookup m p.
Proof.
  intros q b m p Hs. induction Hs as [|[k s] r Hr IH Hk]; simpl.
  - rewrite lookup_cons. reflexivity.
  - destruct (qd_ltb q k) eqn:E1; [|destruct (qd_eqb q k) eqn:E2]; rewrite !lookup_cons.
    + (* q becomes the smallest key: it was not there *)
      apply qd_ltb_iff in E1. destruct (qd_eqb p q) eqn:E; [|reflexivity]. apply qd_eqb_iff in E. subst p.
      rewrite <- lookup_cons, lookup_above; [reflexivity|].
      constructor; [exact E1|]. apply (Forall_impl _ (fun e => qd_lt_trans q k (fst e) E1) Hk).
    + apply qd_eqb_iff in E2. subst k. destruct (qd_eqb p q); reflexivity.
    + rewrite IH. destruct (qd_eqb p k) eqn:E; [|reflexivity].
      destruct (qd_eqb p q) eqn:E'; [exfalso; qd_lia | reflexivity].
Qed.

Lemma amap_add_keys_Forall : forall (P : qd -> Prop) q b m, P q ->
  Forall (fun e => P (fst e)) m -> Forall (fun e => P (fst e)) (amap_add q b m).
Proof.
  intros P q b m Pq H. induction H as [|[k s] r Pk Hr IH]; simpl.
  - repeat constructor; assumption.
  - destruct (qd_ltb q k); [|destruct (qd_eqb q k)]; repeat constructor; assumption.
Qed.

Lemma amap_add_ok : forall q b m, amap_ok m -> amap_ok (amap_add q b m).
Proof.
  intros q b m [Hs Hf]. induction Hs as [|[k s] r Hr IH Hk]; simpl.
  - repeat constructor.
  - apply Forall_cons_iff in Hf. destruct Hf as [Hf1 Hf2]. simpl in Hf1.
    destruct (qd_ltb q k) eqn:E1; [|destruct (qd_eqb q k) eqn:E2].
    + apply qd_ltb_iff in E1. split; [|repeat constructor; assumption].
      constructor; [constructor; assumption|]. constructor; [exact E1|].
      apply (Forall_impl _ (fun e => qd_lt_trans q k (fst e) E1) Hk).
    + split; [constructor; assumption|]. constructor; [apply aset_insert_sorted|]; assumption.
    + destruct (IH Hf2) as [I1 I2]. split; [|constructor; assumption].
      constructor; [assumption|]. apply (amap_add_keys_Forall (qd_lt k)); [qd_lia | assumption].
Qed.

Lemma lookup_sorted : forall m p, amap_ok m -> StronglySorted id_lt (lookup m p).
Proof.
  intros m p [_ Hf]. unfold lookup. induction Hf as [|[k s] r H1 H2 IH]; simpl; [constructor|].
  destruct (qd_eqb p k); [exact H1 | exact IH].
Qed.

Definition uniq (atoms : list atom) : Prop :=
  forall x y, In x atoms -> In y atoms -> a_id x = a_id y -> x = y.

Lemma NoDup_ids_uniq : forall atoms, NoDup (map a_id atoms) -> uniq atoms.
Proof. intros atoms H x y. apply NoDup_map_inj. exact H. Qed.

(* a table of the sweep (starting_atoms: key = a_start, ending_atoms: key = a_end) after the atoms `done` were entered *)
Definition amap_spec (key : atom -> qd) (done : list atom) (m : amap) : Prop :=
  amap_ok m /\ forall p x, In x (lookup m p) <-> In x done /\ key x = p.

Lemma amap_spec_add : forall key atoms done m a, uniq atoms -> incl done atoms -> In a atoms ->
  amap_spec key done m -> amap_spec key (done ++ [a]) (amap_add (key a) a m).
Proof.
  intros key atoms done m a U Hd Ha [Ok L]. split; [apply amap_add_ok; assumption|].
  intros p x. rewrite lookup_add by apply Ok. rewrite in_app_iff. simpl.
  destruct (qd_eqb p (key a)) eqn:E.
  - apply qd_eqb_iff in E. subst p. rewrite aset_insert_in.
    + simpl. rewrite L. intuition congruence.
    + intros c Hc. apply L in Hc. apply U; [apply Hd; tauto | assumption].
  - apply qd_eqb_false in E. rewrite L. intuition congruence.
Qed.

Definition tables_inv (done : list atom) (t : tables) : Prop :=
  amap_spec a_start done (starting t) /\ amap_spec a_end done (ending t) /\ StronglySorted qd_lt (pulses t) /\
  (forall p, In p (pulses t) <-> exists a, In a done /\ (a_start a = p \/ a_end a = p)).

Lemma tables_inv_add : forall atoms done t a, uniq atoms -> incl done atoms -> In a atoms ->
  tables_inv done t -> tables_inv (done ++ [a]) (add_atom t a).
Proof.
  intros atoms done t a U Hd Ha (T1 & T2 & S3 & L3). unfold tables_inv, add_atom; simpl.
  split; [apply (amap_spec_add a_start atoms); assumption|].
  split; [apply (amap_spec_add a_end atoms); assumption|].
  split; [apply pset_insert_sorted, pset_insert_sorted; assumption|].
  intros p. rewrite pset_insert_in. simpl. rewrite pset_insert_in. simpl. rewrite L3. split.
  - intros [<-|[<-|[b [Hb Hp]]]]; [exists a | exists a | exists b]; rewrite in_app_iff; simpl; auto.
  - intros [b [Hb Hp]]. apply in_app_iff in Hb. destruct Hb as [Hb|[<-|[]]].
    + right; right. exists b. auto.
    + destruct Hp as [<-|<-]; auto.
Qed.

Lemma tables_inv_fold : forall atoms l done t, uniq atoms -> incl (done ++ l) atoms ->
  tables_inv done t -> tables_inv (done ++ l) (fold_left add_atom l t).
Proof.
  intros atoms l. induction l as [|a r IH]; intros done t U Hi H; simpl.
  - rewrite app_nil_r. assumption.
  - change (a :: r) with ([a] ++ r) in *. rewrite app_assoc in *. apply IH; [assumption | assumption |].
    apply incl_app_inv in Hi. destruct Hi as [Hi _]. apply incl_app_inv in Hi.
    apply (tables_inv_add atoms); [assumption | apply Hi | apply Hi; left; reflexivity | assumption].
Qed.

Lemma build_inv : forall atoms, uniq atoms -> tables_inv atoms (build atoms).
Proof.
  intros atoms U. apply (tables_inv_fold atoms atoms [] empty_tables U (incl_refl _)).
  unfold tables_inv, amap_spec, amap_ok; simpl. repeat split; try constructor; try tauto. intros [a [[] _]].
Qed.

Section Step.
  Variable atoms : list atom.
  Hypothesis U : uniq atoms.

  Lemma fold_insert_spec : forall s ov, incl s atoms -> incl ov atoms -> StronglySorted id_lt ov ->
    let r := fold_left (fun o a => aset_insert a o) s ov in
    (forall x, In x r <-> In x ov \/ In x s) /\ StronglySorted id_lt r.
  Proof.
    intros s. induction s as [|a s IH]; intros ov Hs Ho So; simpl.
    - split; [tauto | assumption].
    - apply incl_cons_inv in Hs. destruct Hs as [Ha Hs].
      assert (E : forall x, In x (aset_insert a ov) <-> In x (a :: ov)).
      { intros x. apply aset_insert_in. intros b Hb. apply U; auto. }
      destruct (IH (aset_insert a ov)) as [I1 I2];
        [assumption | intros z Hz; apply E in Hz; destruct Hz as [<-|Hz]; auto | apply aset_insert_sorted; assumption |].
      split; [|assumption]. intros x. rewrite I1, E. simpl. tauto.
  Qed.

  Lemma fold_erase_spec : forall s ov, incl s atoms -> incl ov atoms -> StronglySorted id_lt ov ->
    let r := fold_left (fun o a => aset_erase a o) s ov in
    (forall x, In x r <-> In x ov /\ ~ In x s) /\ StronglySorted id_lt r.
  Proof.
    intros s. induction s as [|a s IH]; intros ov Hs Ho So; simpl.
    - split; [tauto | assumption].
    - apply incl_cons_inv in Hs. destruct Hs as [Ha Hs].
      assert (E : forall x, In x (aset_erase a ov) <-> In x ov /\ a <> x).
      { intros x. rewrite aset_erase_in by assumption. split; intros [H1 H2]; (split; [assumption|]).
        - intros <-. congruence.
        - intros Eid. apply H2. symmetry. apply U; auto. }
      destruct (IH (aset_erase a ov)) as [I1 I2];
        [assumption | intros z Hz; apply E in Hz; apply Ho; tauto | apply aset_erase_sorted; assumption |].
      split; [|assumption]. intros x. rewrite I1, E. simpl. tauto.
  Qed.

  Lemma step_pulse_unfold : forall t p ov,
    step_pulse t p ov =
    fold_left (fun o a => aset_erase a o) (lookup (ending t) p)
              (fold_left (fun o a => aset_insert a o) (lookup (starting t) p) ov).
  Proof.
    intros t p ov. unfold step_pulse, lookup.
    destruct (amap_find p (starting t)); destruct (amap_find p (ending t)); reflexivity.
  Qed.

  Lemma step_pulse_spec : forall t p ov, tables_inv atoms t -> incl ov atoms -> StronglySorted id_lt ov ->
    (forall x, In x (step_pulse t p ov) <->
               (In x ov \/ (In x atoms /\ a_start x = p)) /\ a_end x <> p) /\
    StronglySorted id_lt (step_pulse t p ov).
  Proof.
    intros t p ov ([_ L1] & [_ L2] & _) Ho So. rewrite step_pulse_unfold.
    assert (A1 : incl (lookup (starting t) p) atoms) by (intros z Hz; apply L1 in Hz; tauto).
    assert (A2 : incl (lookup (ending t) p) atoms) by (intros z Hz; apply L2 in Hz; tauto).
    destruct (fold_insert_spec _ ov A1 Ho So) as [I1 I2].
    set (ov1 := fold_left (fun o a => aset_insert a o) (lookup (starting t) p) ov) in *.
    assert (A3 : incl ov1 atoms) by (intros z Hz; apply I1 in Hz; destruct Hz; auto).
    destruct (fold_erase_spec _ ov1 A2 A3 I2) as [E1 E2].
    split; [|assumption]. intros x. rewrite E1, I1, L1, L2.
    split; intros [H1 H2]; (split; [assumption|]); [|tauto].
    intros E. apply H2. split; [|assumption]. destruct H1 as [H1|[H1 _]]; auto.
  Qed.
End Step.

Definition live_set (atoms : list atom) (p : qd) (o : list atom) : Prop :=
  forall x, In x o <-> In x atoms /\ live x p.

Lemma states_fst : forall t ps ov, map fst (states t ps ov) = ps.
Proof. intros t ps. induction ps as [|p r IH]; intros ov; simpl; [reflexivity | rewrite IH; reflexivity]. Qed.

Section States.
  Variable atoms : list atom.
  Hypothesis U : uniq atoms.
  Variable t : tables.
  Hypothesis T : tables_inv atoms t.

  (* `overlapping_atoms` once the pulses `pre` have been handled, in increasing order: an atom is inserted at its start
     and erased at its end (which, when end < start, comes first and erases nothing) *)
  Definition processed (pre : list qd) (ov : list atom) : Prop :=
    (forall x, In x ov <-> In x atoms /\ In (a_start x) pre /\ (In (a_end x) pre -> qd_lt (a_end x) (a_start x))) /\
    StronglySorted id_lt ov.

  Lemma processed_step : forall pre p ov, (forall q, In q pre -> qd_lt q p) ->
    processed pre ov -> processed (pre ++ [p]) (step_pulse t p ov).
  Proof.
    intros pre p ov Lt [M So].
    destruct (step_pulse_spec atoms U t p ov T) as [M' So']; [intros z Hz; apply M in Hz; tauto | assumption |].
    split; [|assumption]. intros x. rewrite M', M. split.
    - intros [[(Hx & Hs & He)|[Hx Es]] Ne]; (split; [assumption|]); split.
      + apply in_or_app. left. assumption.
      + intros H. apply in_app_or in H. destruct H as [H|[H|[]]]; [auto | congruence].
      + rewrite Es. apply in_elt.
      + intros H. apply in_app_or in H. destruct H as [H|[H|[]]]; [rewrite Es; auto | congruence].
    - intros (Hx & Hs & He). apply in_app_or in Hs.
      assert (Ne : a_end x <> p).
      { intros E. assert (L : qd_lt (a_end x) (a_start x)) by (apply He; rewrite E; apply in_elt).
        destruct Hs as [Hs|[Hs|[]]]; [apply Lt in Hs|]; qd_lia. }
      split; [|assumption]. destruct Hs as [Hs|[Hs|[]]]; [left | right; auto].
      split; [assumption|]. split; [assumption|]. intros H. apply He, in_or_app. left. assumption.
  Qed.

  Lemma states_processed : forall post pre ov, StronglySorted qd_lt (pre ++ post) -> processed pre ov ->
    forall p o, In (p, o) (states t post ov) ->
    exists pre' post', pre ++ post = pre' ++ p :: post' /\ processed (pre' ++ [p]) o.
  Proof.
    intros post. induction post as [|q r IH]; intros pre ov S P p o H; simpl in H; [contradiction|].
    assert (P' : processed (pre ++ [q]) (step_pulse t q ov)).
    { apply processed_step; [|assumption]. intros z Hz.
      apply (StronglySorted_app_inv _ _ _ _ S); [assumption | left; reflexivity]. }
    destruct H as [H|H].
    - inversion H; subst. exists pre, r. split; [reflexivity | assumption].
    - change (q :: r) with ([q] ++ r) in *. rewrite app_assoc in *. apply (IH _ _ S P' _ _ H).
  Qed.

  (* among the pulses of a sorted list pre ++ p :: post, those handled when p has been are those <= p *)
  Lemma processed_live : forall pre p post o, StronglySorted qd_lt (pre ++ p :: post) ->
    (forall a, In a atoms -> In (a_start a) (pre ++ p :: post) /\ In (a_end a) (pre ++ p :: post)) ->
    processed (pre ++ [p]) o -> live_set atoms p o.
  Proof.
    intros pre p post o S Cov [M _] x. rewrite M.
    destruct (StronglySorted_app_inv _ _ _ _ S) as (_ & Sp & Lo).
    apply StronglySorted_inv in Sp. destruct Sp as [_ Hi]. rewrite Forall_forall in Hi.
    assert (Seen : forall q, In q (pre ++ p :: post) -> (In q (pre ++ [p]) <-> qd_le q p)).
    { intros q Hq. rewrite in_app_iff in *. simpl in *. split.
      - intros [H|[<-|[]]]; [specialize (Lo q p H (or_introl eq_refl)); qd_lia | apply qd_le_refl].
      - intros L. destruct Hq as [H|[H|H]]; [auto | auto | specialize (Hi q H); exfalso; qd_lia]. }
    unfold live. split; intros (Hx & Hs & He); destruct (Cov x Hx) as [Cs Ce];
      rewrite (Seen _ Cs) in *; rewrite (Seen _ Ce) in *; (split; [assumption|]); (split; [assumption|]).
    - destruct (qd_ltb p (a_end x)) eqn:E; [left; qd_lia | right; apply He; qd_lia].
    - intros L. destruct He as [He|He]; [exfalso; qd_lia | assumption].
  Qed.

  Lemma states_live : forall ps, StronglySorted qd_lt ps ->
    (forall a, In a atoms -> In (a_start a) ps /\ In (a_end a) ps) ->
    forall p o, In (p, o) (states t ps []) -> In p ps /\ live_set atoms p o /\ StronglySorted id_lt o.
  Proof.
    intros ps S Cov p o H.
    assert (P0 : processed [] []) by (split; [simpl; tauto | constructor]).
    destruct (states_processed ps [] [] S P0 p o H) as (pre & post & E & P).
    simpl in E. subst ps. split; [apply in_elt|]. split; [apply (processed_live pre p post); assumption | apply P].
  Qed.
End States.

Lemma reported_app : forall l1 l2 a b, reported (l1 ++ l2) a b <-> reported l1 a b \/ reported l2 a b.
Proof. intros. unfold reported. rewrite !in_app_iff. tauto. Qed.

Lemma reported_flat_map : forall (A : Type) (f : A -> list (atom * atom)) l a b,
  reported (flat_map f l) a b <-> exists z, In z l /\ reported (f z) a b.
Proof.
  intros A f l a b. unfold reported. rewrite !in_flat_map. split.
  - intros [[z [H1 H2]]|[z [H1 H2]]]; exists z; auto.
  - intros [z [H1 [H2|H2]]]; [left | right]; exists z; auto.
Qed.

Lemma reported_pairs : forall l x y, NoDup l -> (reported (pairs l) x y <-> In x l /\ In y l /\ x <> y).
Proof.
  intros l x y N. induction N as [|z r Hz N IH]; simpl.
  - unfold reported. simpl. tauto.
  - rewrite reported_app, IH. unfold reported. rewrite !in_map_iff. split.
    + intros [[[w [E Hw]]|[w [E Hw]]]|H].
      * inversion E; subst. split; [auto|]. split; [auto|]. intros ->. contradiction.
      * inversion E; subst. split; [auto|]. split; [auto|]. intros ->. contradiction.
      * destruct H as (Hx & Hy & D). auto.
    + intros ([<-|Hx] & [<-|Hy] & D).
      * congruence.
      * left; left. exists y. auto.
      * left; right. exists x. auto.
      * right. auto.
Qed.

(* the guard `overlapping_atoms.size() > 1` only skips sets that have no pair *)
Lemma sv_loop_states : forall t ps ov, sv_loop t ps ov = flat_map (fun po => pairs (snd po)) (states t ps ov).
Proof.
  intros t ps. induction ps as [|p r IH]; intros ov; simpl; [reflexivity|].
  rewrite IH. destruct (step_pulse t p ov) as [|x [|y s]]; reflexivity.
Qed.

Lemma intersect_at_start : forall a b, intersect a b ->
  exists c, (c = a \/ c = b) /\ covers a (a_start c) /\ covers b (a_start c).
Proof.
  intros a b [x [[A1 A2] [B1 B2]]].
  destruct (qd_ltb (a_start a) (a_start b)) eqn:E; [exists b | exists a]; (split; [auto|]); split; split; qd_lia.
Qed.

Section SvSweep.
  Variable atoms : list atom.
  Hypothesis U : uniq atoms.

  Definition is_pulse (p : qd) : Prop := exists c, In c atoms /\ (a_start c = p \/ a_end c = p).

  Lemma pulses_spec : forall p, In p (pulses (build atoms)) <-> is_pulse p.
  Proof. apply (build_inv atoms U). Qed.

  Lemma states_spec : forall p o, In (p, o) (states (build atoms) (pulses (build atoms)) []) ->
    is_pulse p /\ live_set atoms p o /\ StronglySorted id_lt o.
  Proof.
    intros p o H. rewrite <- pulses_spec. revert p o H.
    apply (states_live atoms U _ (build_inv atoms U)); [apply (build_inv atoms U)|].
    intros a Ha. split; apply pulses_spec; exists a; auto.
  Qed.

  Lemma states_complete : forall p, is_pulse p ->
    exists o, In (p, o) (states (build atoms) (pulses (build atoms)) []).
  Proof.
    intros p Hp. apply pulses_spec in Hp. rewrite <- (states_fst (build atoms) _ []) in Hp.
    apply in_map_iff in Hp. destruct Hp as [[q o] [E Hin]]. simpl in E. subst. exists o. assumption.
  Qed.

  (* what the sweep reports, for ANY atoms (also end < start) *)
  Theorem sweep_reports_iff : forall a b,
    reported (sv_sweep atoms) a b <->
    In a atoms /\ In b atoms /\ a <> b /\ exists p, is_pulse p /\ live a p /\ live b p.
  Proof.
    intros a b. unfold sv_sweep. rewrite sv_loop_states, reported_flat_map. split.
    - intros [[p o] [H R]]. destruct (states_spec p o H) as (Hp & LS & So).
      apply reported_pairs in R; [|apply sorted_id_NoDup; assumption]. destruct R as (Ha & Hb & D).
      apply LS in Ha. apply LS in Hb. split; [tauto|]. split; [tauto|]. split; [assumption|].
      exists p. tauto.
    - intros (Ha & Hb & D & p & Hp & La & Lb).
      destruct (states_complete p Hp) as [o Ho]. destruct (states_spec p o Ho) as (_ & LS & So).
      exists (p, o). split; [assumption|]. apply reported_pairs; [apply sorted_id_NoDup; assumption|].
      split; [apply LS; auto|]. split; [apply LS; auto | assumption].
  Qed.

  (* zero-length atoms (start = end) are never reported, whatever they are nested in or touch, well-formed or not *)
  Theorem zero_length_never_reported : forall a b, a_start a = a_end a -> ~ reported (sv_sweep atoms) a b.
  Proof.
    intros a b E R. apply sweep_reports_iff in R. destruct R as (_ & _ & _ & p & _ & [L1 L2] & _).
    rewrite E in L1. destruct L2 as [L2|L2]; qd_lia.
  Qed.

  Hypothesis WF : forall a, In a atoms -> wf_atom a.

  Lemma live_covers : forall a p, In a atoms -> (live a p <-> covers a p).
  Proof.
    intros a p Ha. specialize (WF a Ha). unfold live, covers, wf_atom in *. split.
    - intros [H1 [H2|H2]]; [auto | exfalso; qd_lia].
    - intros [H1 H2]. auto.
  Qed.

  Lemma live_set_covers : forall p o, live_set atoms p o -> forall a, In a o <-> In a atoms /\ covers a p.
  Proof.
    intros p o LS a. rewrite (LS a). split; intros [Ha C]; (split; [assumption|]); apply (live_covers a p Ha); assumption.
  Qed.

  (* sweep_complete: a pair is reported iff the half-open intervals [s1,e1) and [s2,e2) have a common instant *)
  Theorem sweep_complete : forall a b,
    reported (sv_sweep atoms) a b <-> In a atoms /\ In b atoms /\ a <> b /\ intersect a b.
  Proof.
    intros a b. rewrite sweep_reports_iff. split.
    - intros (Ha & Hb & N & p & _ & La & Lb). repeat split; try assumption.
      exists p. split; apply live_covers; assumption.
    - intros (Ha & Hb & N & I). repeat split; try assumption.
      destruct (intersect_at_start a b I) as [c (Hc & Ca & Cb)]. exists (a_start c).
      split; [exists c; destruct Hc as [->| ->]; auto|]. split; apply live_covers; assumption.
  Qed.

  Definition disjoint : Prop := forall a b, In a atoms -> In b atoms -> a <> b -> ~ intersect a b.

  Theorem sweep_nil_iff_disjoint : sv_sweep atoms = [] <-> disjoint.
  Proof.
    split.
    - intros E a b Ha Hb N I.
      assert (R : reported (sv_sweep atoms) a b) by (apply sweep_complete; auto).
      rewrite E in R. destruct R as [[]|[]].
    - intros D. destruct (sv_sweep atoms) as [|[a b] r] eqn:E; [reflexivity|]. exfalso.
      assert (R : reported (sv_sweep atoms) a b) by (left; rewrite E; left; reflexivity).
      apply sweep_complete in R. destruct R as (Ha & Hb & N & I). exact (D a b Ha Hb N I).
  Qed.

  Theorem sv_instance_ok_sound : sv_instance_ok atoms = true <-> disjoint.
  Proof.
    unfold sv_instance_ok. rewrite <- sweep_nil_iff_disjoint.
    destruct (sv_sweep atoms); split; intros H; congruence.
  Qed.

  (* atoms that only touch (end of one = start of the other) are never reported *)
  Theorem touching_never_reported : forall a b, qd_le (a_end a) (a_start b) -> ~ reported (sv_sweep atoms) a b.
  Proof.
    intros a b E R. apply sweep_complete in R. destruct R as (_ & _ & _ & x & [C1 C2] & [D1 D2]). qd_lia.
  Qed.
End SvSweep.

Lemma tl_loop_spec : forall t ps prev ov, StronglySorted qd_lt (prev :: ps) ->
  forall seg, In seg (tl_loop t prev ps ov) ->
    In (seg_from seg, seg_atoms seg) ((prev, ov) :: states t ps ov) /\
    In (seg_from seg) (prev :: ps) /\ In (seg_to seg) (prev :: ps) /\
    qd_lt (seg_from seg) (seg_to seg) /\
    (forall q, In q (prev :: ps) -> qd_le q (seg_from seg) \/ qd_le (seg_to seg) q).
Proof.
  intros t ps. induction ps as [|p r IH]; intros prev ov S seg H; simpl in H; [contradiction|].
  inversion S as [|? ? S' Hp]; subst. rewrite Forall_forall in Hp.
  destruct H as [<-|H]; simpl.
  - split; [left; reflexivity|]. split; [left; reflexivity|]. split; [right; left; reflexivity|].
    split; [apply Hp; left; reflexivity|].
    intros q [<-|[<-|Hq]]; [left; apply qd_le_refl | right; apply qd_le_refl|].
    right. inversion S' as [|? ? _ Hp']; subst. rewrite Forall_forall in Hp'. specialize (Hp' q Hq). qd_lia.
  - destruct (IH p (step_pulse t p ov) S' seg H) as (I1 & I2 & I3 & I4 & I5).
    split; [right; exact I1|]. split; [right; exact I2|]. split; [right; exact I3|]. split; [assumption|].
    intros q [<-|Hq]; [|apply I5; assumption].
    left. specialize (Hp _ I2). qd_lia.
Qed.

Lemma tl_loop_from : forall t ps prev ov q, In q (prev :: ps) -> (exists q', In q' (prev :: ps) /\ qd_lt q q') ->
  StronglySorted qd_lt (prev :: ps) -> exists seg, In seg (tl_loop t prev ps ov) /\ seg_from seg = q.
Proof.
  intros t ps. induction ps as [|p r IH]; intros prev ov q Hq [q' [Hq' L]] S.
  - destruct Hq as [<-|[]]. destruct Hq' as [<-|[]]. exfalso. qd_lia.
  - simpl. destruct Hq as [<-|Hq].
    + eexists. split; [left; reflexivity|reflexivity].
    + inversion S as [|? ? S' Hp]; subst. rewrite Forall_forall in Hp.
      destruct (IH p (step_pulse t p ov) q Hq) as [seg [H1 H2]]; [|assumption|exists seg; split; [right; assumption|assumption]].
      destruct Hq' as [<-|Hq']; [|exists q'; auto].
      exfalso. specialize (Hp _ Hq). qd_lia.
Qed.

Section SvTimeline.
  Variable atoms : list atom.
  Hypothesis U : uniq atoms.
  Variables origin horizon : qd.

  Let t := build atoms.
  Let ps' := tl_pulses t origin horizon.

  Lemma tl_pulses_sorted : StronglySorted qd_lt ps'.
  Proof. unfold ps', tl_pulses. apply pset_insert_sorted, pset_insert_sorted, (build_inv atoms U). Qed.

  Lemma tl_pulses_bounds : forall a, In a atoms -> In (a_start a) ps' /\ In (a_end a) ps'.
  Proof.
    intros a Ha. split; apply pset_insert_in; right; apply pset_insert_in; right; apply (pulses_spec atoms U); exists a; auto.
  Qed.

  (* every segment: consecutive pulses, and the atoms shown are exactly those in `overlapping_atoms` at its left end *)
  Theorem timeline_segment_spec : forall seg, In seg (sv_timeline atoms origin horizon) ->
    qd_lt (seg_from seg) (seg_to seg) /\
    In (seg_from seg) ps' /\ In (seg_to seg) ps' /\
    (forall q, In q ps' -> qd_le q (seg_from seg) \/ qd_le (seg_to seg) q) /\
    live_set atoms (seg_from seg) (seg_atoms seg) /\ StronglySorted id_lt (seg_atoms seg).
  Proof.
    intros seg H. unfold sv_timeline in H. fold t in H. fold ps' in H.
    pose proof tl_pulses_sorted as S.
    pose proof (states_live atoms U t (build_inv atoms U) ps' S tl_pulses_bounds) as TS.
    destruct ps' as [|p0 r] eqn:E; [contradiction|].
    destruct (tl_loop_spec t r p0 (step_pulse t p0 []) S seg H) as (I1 & I2 & I3 & I4 & I5).
    destruct (TS _ _ I1) as (_ & LS & So).
    exact (conj I4 (conj I2 (conj I3 (conj I5 (conj LS So))))).
  Qed.

  Hypothesis WF : forall a, In a atoms -> wf_atom a.

  (* the atoms of a segment are exactly the atoms covering every instant of it *)
  Theorem timeline_shows_covering : forall seg, In seg (sv_timeline atoms origin horizon) ->
    forall x, qd_le (seg_from seg) x -> qd_lt x (seg_to seg) ->
    forall a, In a (seg_atoms seg) <-> In a atoms /\ covers a x.
  Proof.
    intros seg H x X1 X2 a.
    destruct (timeline_segment_spec seg H) as (L & F1 & F2 & Adj & LS & _).
    rewrite (live_set_covers atoms WF _ _ LS a).
    split; intros [Ha [C1 C2]]; (split; [assumption|]); destruct (tl_pulses_bounds a Ha) as [Ps Pe].
    - split; [qd_lia|]. destruct (Adj _ Pe) as [G|G]; qd_lia.
    - split; [|qd_lia]. destruct (Adj _ Ps) as [G|G]; qd_lia.
  Qed.

  Theorem timeline_le1_iff_disjoint :
    (forall seg, In seg (sv_timeline atoms origin horizon) -> (length (seg_atoms seg) <= 1)%nat) <-> disjoint atoms.
  Proof.
    split.
    - intros H a b Ha Hb N I.
      (* the later of the two starts is a pulse, it is not the last one, so a segment starts there *)
      destruct (intersect_at_start a b I) as [c (Hc & Ca & Cb)].
      assert (Pp : In (a_start c) ps') by (destruct Hc as [->| ->]; apply tl_pulses_bounds; assumption).
      assert (Pe : In (a_end a) ps') by (apply tl_pulses_bounds; assumption).
      assert (G : exists seg, In seg (sv_timeline atoms origin horizon) /\ seg_from seg = a_start c).
      { pose proof tl_pulses_sorted as S. unfold sv_timeline. fold t. fold ps'.
        destruct ps' as [|p0 r] eqn:E; [contradiction|].
        apply tl_loop_from; [assumption | exists (a_end a); split; [assumption | apply Ca] | assumption]. }
      destruct G as [seg [Hs Ef]]. specialize (H seg Hs).
      destruct (timeline_segment_spec seg Hs) as (_ & _ & _ & _ & LS & _). rewrite Ef in LS.
      assert (Ia : In a (seg_atoms seg)) by (apply (live_set_covers atoms WF _ _ LS); auto).
      assert (Ib : In b (seg_atoms seg)) by (apply (live_set_covers atoms WF _ _ LS); auto).
      destruct (seg_atoms seg) as [|x [|y r]]; simpl in *; [contradiction | | lia].
      destruct Ia as [<-|[]], Ib as [<-|[]]. congruence.
    - intros D seg Hs.
      destruct (timeline_segment_spec seg Hs) as (_ & _ & _ & _ & LS & So).
      destruct (seg_atoms seg) as [|x [|y r]] eqn:E; simpl; try lia. exfalso.
      assert (Ix : In x atoms /\ covers x (seg_from seg)) by (apply (live_set_covers atoms WF _ _ LS); left; reflexivity).
      assert (Iy : In y atoms /\ covers y (seg_from seg)) by (apply (live_set_covers atoms WF _ _ LS); right; left; reflexivity).
      assert (N : x <> y).
      { apply sorted_id_NoDup in So. inversion So as [|? ? Hn _]; subst. intros ->. apply Hn. left. reflexivity. }
      apply (D x y); try tauto. exists (seg_from seg). tauto.
  Qed.
End SvTimeline.

Lemma mem_In : forall v l, mem v l = true <-> In v l.
Proof.
  intros v l. unfold mem. rewrite existsb_exists. split.
  - intros [x [H E]]. apply Z.eqb_eq in E. subst. assumption.
  - intros H. exists v. split; [assumption | apply Z.eqb_refl].
Qed.

Lemma c_intersect_iff : forall c a b, c_intersect c a b <->
  qd_lt (c_start c a) (c_end c b) /\ qd_lt (c_start c b) (c_end c a) /\
  qd_lt (c_start c a) (c_end c a) /\ qd_lt (c_start c b) (c_end c b).
Proof.
  intros c a b. unfold c_intersect, c_covers. split.
  - intros [x [[A1 A2] [B1 B2]]]. repeat split; qd_lia.
  - intros (H1 & H2 & H3 & H4).
    destruct (qd_ltb (c_start c a) (c_start c b)) eqn:E; [exists (c_start c b) | exists (c_start c a)]; repeat split; qd_lia.
Qed.

(* soundness: a resolver whose literal is true separates the two atoms *)
Theorem resolvers_sound : forall c newer older t0 t1 r,
  In r (sv_resolvers newer older t0 t1) -> holds c r ->
  respects c newer t0 -> respects c older t1 -> ~ c_overlap c newer older.
Proof.
  intros c newer older t0 t1 r Hin Hh R0 R1 [Et [x [[A1 A2] [B1 B2]]]].
  unfold sv_resolvers in Hin. apply in_app_or in Hin. destruct Hin as [Hin|Hin].
  - destruct (has_leqs t0 t1); [|contradiction].
    destruct Hin as [<-|[<-|[]]]; simpl in Hh; qd_lia.
  - destruct t0 as [v0|d0], t1 as [v1|d1]; simpl in *.
    + contradiction.
    + destruct Hin as [<-|[]]. simpl in Hh. congruence.
    + destruct Hin as [<-|[]]. simpl in Hh. congruence.
    + apply in_map_iff in Hin. destruct Hin as [v [<- _]]. simpl in Hh. destruct Hh. congruence.
Qed.

(* exhaustiveness: a completion in which the pair does not overlap satisfies one of the resolvers, PROVIDED both atoms are
   non-empty and, when both tau are variables, the instance of the newer atom is one the older atom could take *)
Theorem resolvers_exhaustive : forall c newer older t0 t1,
  respects c newer t0 -> respects c older t1 ->
  has_leqs t0 t1 = true ->
  qd_lt (c_start c newer) (c_end c newer) -> qd_lt (c_start c older) (c_end c older) ->
  (match t0, t1 with TVar _, TVar d1 => In (c_tau c newer) d1 | _, _ => True end) ->
  ~ c_overlap c newer older ->
  exists r, In r (sv_resolvers newer older t0 t1) /\ holds c r.
Proof.
  intros c newer older t0 t1 R0 R1 HL N0 N1 Sh NO. unfold sv_resolvers. rewrite HL.
  destruct (qd_ltb (c_start c older) (c_end c newer)) eqn:E1;
    [|exists (Order newer older); split; [left; reflexivity | simpl; qd_lia]].
  destruct (qd_ltb (c_start c newer) (c_end c older)) eqn:E2;
    [|exists (Order older newer); split; [right; left; reflexivity | simpl; qd_lia]].
  (* the intervals intersect, so the instances differ *)
  assert (D : c_tau c newer <> c_tau c older).
  { intros E. apply NO. split; [assumption|]. apply c_intersect_iff. qd_norm. auto. }
  destruct t0 as [v0|d0], t1 as [v1|d1]; simpl in *.
  - apply Z.eqb_eq in HL. congruence.
  - exists (Forbid older v0). split; [right; right; left; reflexivity | simpl; congruence].
  - exists (Forbid newer v1). split; [right; right; left; reflexivity | simpl; congruence].
  - exists (Place newer (c_tau c newer) older). split.
    + right; right. apply (in_map (fun v => Place newer v older)). apply filter_In. split; [assumption | apply mem_In; assumption].
    + simpl. split; [reflexivity | congruence].
Qed.

(* the two provisos are necessary: without them the resolver set loses completions (a matter for C02, not for C04) *)
Theorem resolvers_not_exhaustive_empty_atom_refuted :
  exists c newer older t0 t1, respects c newer t0 /\ respects c older t1 /\ has_leqs t0 t1 = true /\
    ~ c_overlap c newer older /\ forall r, In r (sv_resolvers newer older t0 t1) -> ~ holds c r.
Proof.
  exists (mkCompl (fun a => if a =? 0 then (5, 0) else (0, 0)) (fun a => if a =? 0 then (5, 0) else (10, 0)) (fun _ => 7)).
  exists 0, 1, (TFixed 7), (TFixed 7). simpl. repeat split.
  - intros [_ [x [[A1 A2] _]]]. simpl in *. qd_lia.
  - intros r [<-|[<-|[]]]; simpl; intros H; qd_lia.
Qed.

Theorem resolvers_not_exhaustive_unshared_instance_refuted :
  exists c newer older t0 t1, respects c newer t0 /\ respects c older t1 /\ has_leqs t0 t1 = true /\
    qd_lt (c_start c newer) (c_end c newer) /\ qd_lt (c_start c older) (c_end c older) /\
    ~ c_overlap c newer older /\ forall r, In r (sv_resolvers newer older t0 t1) -> ~ holds c r.
Proof.
  exists (mkCompl (fun _ => (0, 0)) (fun _ => (10, 0)) (fun a => if a =? 0 then 0 else 1)).
  exists 0, 1, (TVar [0; 1]), (TVar [1; 2]). simpl.
  split; [left; reflexivity|]. split; [left; reflexivity|]. split; [reflexivity|].
  split; [unfold qd_lt; simpl; lia|]. split; [unfold qd_lt; simpl; lia|]. split.
  - intros [E _]. simpl in E. lia.
  - intros r [<-|[<-|[<-|[]]]]; simpl; intros H; qd_lia.
Qed.

Definition item_atom (i : trail_item) : Z := match i with ti_sigma a => a | ti_remove a _ => a end.

(* backtracking shortens the trail and leaves to_check alone, so the obligation is kept for every suffix of the trail *)
Definition tc_inv (s : tc_state) : Prop :=
  (forall n, tc_covered (mkTc (tc_atoms s) (skipn n (tc_trail s)) (tc_set s))) /\
  (forall i, In i (tc_trail s) -> lookup_atom (item_atom i) (tc_atoms s) <> None).

Lemma in_skipn : forall (A : Type) n (l : list A) x, In x (skipn n l) -> In x l.
Proof. intros A n l x H. rewrite <- (firstn_skipn n l). apply in_or_app. right. assumption. Qed.

Lemma skipn_skipn : forall (A : Type) m n (l : list A), skipn m (skipn n l) = skipn (n + m) l.
Proof.
  intros A m n. induction n as [|n IH]; intros [|x l]; simpl; try reflexivity; [destruct m; reflexivity | apply IH].
Qed.

Lemma sigma_on_fresh : forall at_ tr a d b, a <> b -> sigma_on ((a, d) :: at_) tr b = sigma_on at_ tr b.
Proof.
  intros at_ tr a d b N. unfold sigma_on. simpl. destruct (b =? a) eqn:E; [apply Z.eqb_eq in E; congruence | reflexivity].
Qed.

Lemma dom_on_fresh : forall at_ tr a d b, a <> b -> dom_on ((a, d) :: at_) tr b = dom_on at_ tr b.
Proof.
  intros at_ tr a d b N. unfold dom_on. simpl. destruct (b =? a) eqn:E; [apply Z.eqb_eq in E; congruence | reflexivity].
Qed.

Lemma sigma_on_cons : forall at_ i tr b, sigma_on at_ (i :: tr) b = true -> i = ti_sigma b \/ sigma_on at_ tr b = true.
Proof.
  intros at_ i tr b. unfold sigma_on. destruct (lookup_atom b at_) as [[s0 d]|]; [|discriminate].
  destruct i as [a|a v]; simpl; [|auto].
  destruct (b =? a) eqn:E; [left; apply Z.eqb_eq in E; congruence | auto].
Qed.

Lemma dom_on_skipn_incl : forall at_ tr n a, incl (dom_on at_ tr a) (dom_on at_ (skipn n tr) a).
Proof.
  intros at_ tr n a v. unfold dom_on. destruct (lookup_atom a at_) as [[s0 d]|]; [|intros []].
  rewrite !filter_In. intros [H1 H2]. split; [assumption|].
  rewrite negb_true_iff in *. unfold removed in *.
  rewrite <- (firstn_skipn n tr), existsb_app in H2. apply orb_false_iff in H2. apply H2.
Qed.

Lemma no_item_existsb : forall tr a (f : trail_item -> bool),
  (forall i, In i tr -> item_atom i <> a) -> (forall i, f i = true -> item_atom i = a) -> existsb f tr = false.
Proof.
  intros tr a f H F. destruct (existsb f tr) eqn:E; [|reflexivity].
  apply existsb_exists in E. destruct E as [i [Hi Fi]]. exfalso. exact (H i Hi (F i Fi)).
Qed.

Lemma sigma_on_no_item : forall at_ tr a, (forall i, In i tr -> item_atom i <> a) -> sigma_on at_ tr a = sigma_on at_ [] a.
Proof.
  intros at_ tr a H. unfold sigma_on. destruct (lookup_atom a at_) as [[s0 d]|]; [|reflexivity].
  rewrite (no_item_existsb tr a _ H); [reflexivity|].
  intros [b|b w] F; [apply Z.eqb_eq in F; simpl; congruence | discriminate].
Qed.

Lemma dom_on_no_item : forall at_ tr a, (forall i, In i tr -> item_atom i <> a) -> dom_on at_ tr a = dom_on at_ [] a.
Proof.
  intros at_ tr a H. unfold dom_on. destruct (lookup_atom a at_) as [[s0 d]|]; [|reflexivity].
  apply filter_ext. intros v. unfold removed. rewrite (no_item_existsb tr a _ H); [reflexivity|].
  intros [b|b w] F; [discriminate|]. apply andb_true_iff in F. destruct F as [F _]. apply Z.eqb_eq in F. simpl. congruence.
Qed.

Lemma touch_eq : forall at_ tr st a, exists st', touch (mkTc at_ tr st) a = mkTc at_ tr st' /\ incl st st' /\
  (sigma_on at_ tr a = true -> incl (dom_on at_ tr a) st').
Proof.
  intros at_ tr st a. unfold touch. simpl. destruct (sigma_on at_ tr a); eexists; (split; [reflexivity|]); split.
  - apply incl_appr, incl_refl.
  - intros _. apply incl_appl, incl_refl.
  - apply incl_refl.
  - discriminate.
Qed.

Lemma touch_inv : forall s a, tc_inv s -> tc_inv (touch s a).
Proof.
  intros [at_ tr st] a [C K]. destruct (touch_eq at_ tr st a) as (st' & -> & E3 & _).
  split; [|exact K]. intros n b v Sb Db. apply E3. exact (C n b v Sb Db).
Qed.

(* new_atom: the trail has no item about the fresh atom, so on every suffix of the trail it looks as it does now *)
Lemma new_touch_inv : forall at_ tr st a d, lookup_atom a at_ = None -> tc_inv (mkTc at_ tr st) ->
  tc_inv (touch (mkTc ((a, d) :: at_) tr st) a).
Proof.
  intros at_ tr st a d L [C K]. simpl in C, K.
  assert (NoItem : forall n i, In i (skipn n tr) -> item_atom i <> a).
  { intros n i Hi E. apply (K i); [exact (in_skipn _ n tr i Hi) | rewrite E; exact L]. }
  destruct (touch_eq ((a, d) :: at_) tr st a) as (st' & -> & E3 & E4).
  rewrite (sigma_on_no_item _ tr), (dom_on_no_item _ tr) in E4 by apply (NoItem 0%nat).
  split; simpl.
  - intros n b v Sb Db. simpl in Sb, Db. destruct (Z.eq_dec a b) as [<-|N].
    + rewrite sigma_on_no_item in Sb by apply NoItem. rewrite dom_on_no_item in Db by apply NoItem.
      exact (E4 Sb v Db).
    + rewrite sigma_on_fresh in Sb by assumption. rewrite dom_on_fresh in Db by assumption.
      apply E3. exact (C n b v Sb Db).
  - intros i Hi. destruct (item_atom i =? a); [discriminate | apply K; assumption].
Qed.

(* sigma assigned / a value of tau removed: the item pushed concerns the atom that is touched; for every other atom
   sigma is as before and the domain has not grown *)
Lemma push_touch_inv : forall at_ tr st i, lookup_atom (item_atom i) at_ <> None -> tc_inv (mkTc at_ tr st) ->
  tc_inv (touch (mkTc at_ (i :: tr) st) (item_atom i)).
Proof.
  intros at_ tr st i Hi [C K]. simpl in C, K.
  destruct (touch_eq at_ (i :: tr) st (item_atom i)) as (st' & -> & E3 & E4).
  split; simpl.
  - intros [|n] b v Sb Db; simpl in Sb, Db; [|apply E3; exact (C n b v Sb Db)].
    destruct (sigma_on_cons _ _ _ _ Sb) as [->|Sb']; [exact (E4 Sb v Db)|].
    apply E3, (C 0%nat b v Sb'). exact (dom_on_skipn_incl at_ (i :: tr) 1 b v Db).
  - intros j [<-|Hj]; [assumption | apply K; assumption].
Qed.

Lemma tc_step_inv : forall s e, tc_inv s -> tc_inv (tc_step true s e).
Proof.
  intros [at_ tr st] e H. destruct e as [a s0 dom|a|a v|a|n|]; simpl.
  - destruct (lookup_atom a at_) eqn:L; [assumption | apply new_touch_inv; assumption].
  - destruct (lookup_atom a at_) eqn:L; [|assumption].
    apply (push_touch_inv at_ tr st (ti_sigma a)); [simpl; congruence | assumption].
  - destruct (lookup_atom a at_) eqn:L; [|assumption].
    apply (push_touch_inv at_ tr st (ti_remove a v)); [simpl; congruence | assumption].
  - apply touch_inv. assumption.
  - destruct H as [C K]. split; simpl.
    + intros m. rewrite skipn_skipn. apply C.
    + intros i Hi. apply K. exact (in_skipn _ n tr i Hi).
  - assumption.
Qed.

Lemma tc_run_inv : forall evs, tc_inv (tc_run true evs).
Proof.
  intros evs. unfold tc_run.
  assert (I : tc_inv tc_init).
  { split; simpl; [|intros i []]. intros n a v H. destruct n; discriminate. }
  revert I. generalize tc_init.
  induction evs as [|e r IH]; intros s H; simpl; [assumption|]. apply IH, tc_step_inv, H.
Qed.

(* with the listener wiring of the repaired code: whenever get_current_incs runs (after ANY history of events),
   every instance that may host an active atom is in to_check *)
Theorem to_check_covers : forall evs, tc_covered (tc_run true evs).
Proof.
  intros evs. destruct (tc_run_inv evs) as [C _]. specialize (C 0%nat).
  destruct (tc_run true evs) as [at_ tr st]. exact C.
Qed.

Corollary to_check_covers_at_every_sweep : forall evs before after,
  evs = before ++ ev_sweep :: after -> tc_covered (tc_run true before).
Proof. intros. apply to_check_covers. Qed.

(* without the sigma listener (the code before commit 1e13ef7) the obligation fails: an atom whose parameters are
   constants becomes active after its creation and its instance is never put into to_check *)
Theorem to_check_without_sigma_listener_refuted : exists evs, ~ tc_covered (tc_run false evs).
Proof.
  exists [ev_new 0 false [3]; ev_sigma 0; ev_sweep]. intros C.
  specialize (C 0 3). vm_compute in C. destruct C; auto; discriminate.
Qed.

Lemma lookup_atom_in : forall a l d, lookup_atom a l = Some d -> In (a, d) l.
Proof.
  intros a l. induction l as [|[b e] r IH]; simpl; intros d H; [discriminate|].
  destruct (a =? b) eqn:E; [apply Z.eqb_eq in E; inversion H; subst; left; reflexivity | right; apply IH; assumption].
Qed.

Theorem tc_coveredb_sound : forall s, tc_coveredb s = true -> tc_covered s.
Proof.
  intros s H a v Sa Dv. unfold tc_coveredb in H. rewrite forallb_forall in H.
  unfold sigma_on in Sa. destruct (lookup_atom a (tc_atoms s)) as [d|] eqn:L; [|discriminate].
  specialize (H (a, d) (lookup_atom_in _ _ _ L)). simpl in H.
  apply orb_true_iff in H. destruct H as [H|H].
  - rewrite negb_true_iff in H. unfold sigma_on in H. rewrite L in H. congruence.
  - rewrite forallb_forall in H. apply mem_In. apply H. assumption.
Qed.

(* non-vacuity: the hypotheses of the theorems are satisfiable *)
(* [0,5) [5,5) [5,9) touch; [2,2) twice at one instant; [3+eps,7) overlaps [0,5) and [5,9) *)
Definition ex_atoms : list atom :=
  [mkAtom 0 (0, 0) (5, 0) qd0; mkAtom 1 (5, 0) (5, 0) qd0; mkAtom 2 (5, 0) (9, 0) qd0;
   mkAtom 3 (2, 0) (2, 0) qd0; mkAtom 4 (2, 0) (2, 0) qd0; mkAtom 5 (3, 1) (7, 0) qd0].

Example ex_hyps : uniq ex_atoms /\ (forall a, In a ex_atoms -> wf_atom a).
Proof.
  split.
  - apply NoDup_ids_uniq. repeat constructor; simpl; intuition lia.
  - intros a [<-|[<-|[<-|[<-|[<-|[<-|[]]]]]]]; unfold wf_atom, qd_le; simpl; lia.
Qed.

Example ex_sweep : sv_sweep_ids ex_atoms = [(0, 5); (2, 5)] /\ sv_sweep_ids (firstn 5 ex_atoms) = [].
Proof. vm_compute. split; reflexivity. Qed.

Example ex_timeline : map (fun s => map a_id (seg_atoms s)) (sv_timeline (firstn 5 ex_atoms) (0, 0) (12, 0)) = [[0]; [0]; [2]; []].
Proof. vm_compute. reflexivity. Qed.

Example ex_resolvers : sv_resolvers 1 0 (TVar [7; 8]) (TFixed 7) = [Order 1 0; Order 0 1; Forbid 1 7] /\
                       sv_resolvers 1 0 (TVar [7; 8]) (TVar [8; 9]) = [Order 1 0; Order 0 1; Place 1 8 0].
Proof. vm_compute. split; reflexivity. Qed.

Example ex_to_check : tc_coveredb (tc_run true [ev_new 0 false [3; 4]; ev_new 1 true [4]; ev_sigma 0; ev_remove 0 3; ev_sweep; ev_pop 2; ev_sweep]) = true /\
                      tc_coveredb (tc_run false [ev_new 0 false [3; 4]; ev_sigma 0; ev_sweep]) = false.
Proof. vm_compute. split; reflexivity. Qed.
