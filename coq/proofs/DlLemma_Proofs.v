(* The last pass of propagate(from, to, dist): for every pair in c_updates, every still undefined constraint of that pair
   that the distances now decide gets a lemma. Each lemma is DL-valid (its negated literals contain a negative cycle), its
   head is undefined and its tail false when it is recorded; afterwards every undefined constraint of a visited pair is
   undecided. *)
From Coq Require Import List Arith Bool.
From ORatio Require Import smt.DlDom smt.Dl proofs.DlOrd_Proofs proofs.DlGraph_Proofs proofs.DlSpec_Proofs proofs.DlPhase_Proofs
  proofs.DlExpl_Proofs proofs.DlStep_Proofs.
Import ListNotations.

Section Lemmas.
Variable O : ogroup.
Variable D : Type.
Variable dm : dom D.
Variable DS : domspec O D dm.
Notation state := (state D).
Notation dget := (dget D dm).
Notation dval := (dval O D dm DS).
Notation lit_edge := (lit_edge O D dm DS).
Notation ngood := (ngood O D dm DS).
Notation cl_edges := (cl_edges O D dm DS).
Notation decided := (decided D dm).

Definition clause_false (u : state) (cl : list lit) : Prop := forall l, In l cl -> value u l = LF.
Definition clause_valid (u : state) (cl : list lit) : Prop := neg_cycle (cl_edges u cl).
Definition lemma_ok (u : state) (cl : list lit) : Prop :=
  (exists l0 rest, cl = l0 :: rest /\ value u l0 = LU /\ clause_false u rest) /\ clause_valid u cl.

(* the network does not move, assignments only grow *)
Record grows (t u : state) : Prop := mkgrows {
  gr_n : n_vars u = n_vars t;
  gr_d : dists u = dists t;
  gr_p : preds u = preds t;
  gr_dc : dist_constr u = dist_constr t;
  gr_vd : var_dists u = var_dists t;
  gr_cs : dist_constrs u = dist_constrs t;
  gr_ly : layers u = layers t;
  gr_cf : confl u = confl t;
  gr_ce : conj_exprs u = conj_exprs t;
  gr_la : length (assigns u) = length (assigns t);
  gr_lt : length (trail u) = length (trail t);
  gr_val : forall v, value_var t v <> LU -> value_var u v = value_var t v;
  gr_q : exists extra, prop_q u = prop_q t ++ extra
}.

Lemma grows_refl t : grows t t.
Proof. constructor; auto. exists []. rewrite app_nil_r. reflexivity. Qed.
Lemma grows_trans t u w : grows t u -> grows u w -> grows t w.
Proof.
  intros [A1 A2 A3 A4 A5 A6 A7 A8 A9 A10 A11 A12 [e1 A13]] [B1 B2 B3 B4 B5 B6 B7 B8 B9 B10 B11 B12 [e2 B13]].
  constructor; try congruence.
  - intros v Hv. rewrite B12; [apply A12; exact Hv | rewrite A12; assumption].
  - exists (e1 ++ e2). rewrite B13, A13, app_assoc. reflexivity.
Qed.

Lemma cl_edges_vd u u' cl e : var_dists u' = var_dists u -> cl_edges u cl e -> cl_edges u' cl e.
Proof. intros E (l & Hl & He). exists l. split; [exact Hl | apply (lit_edge_vd O D dm DS u u'); assumption]. Qed.

Lemma decided_dists t u c : dists u = dists t -> decided u c -> decided t c.
Proof. intros E. unfold DlSpec_Proofs.decided, Dl.dget. rewrite E. auto. Qed.

Lemma wt_of (u : state) cv c : ngood u -> vd_find cv (var_dists u) = Some c -> exists gd, wt DS (c_dist c) gd.
Proof.
  intros G Hc. destruct (tb_wf _ _ _ (gd_tables _ _ _ _ _ G) _ _ Hc) as (_ & _ & _ & Hw & _). apply (ds_dwok _ _ _ DS). exact Hw.
Qed.

(* recording the lemma  l0 \/ explanation of the path row -> cur  when the edge of the negation of l0 closes that path
   to a negative cycle *)
Lemma record_lemma u l0 row cur w g :
  ngood u -> value u l0 = LU -> 0 < fst l0 < length (assigns u) -> row < n_vars u -> cur < n_vars u ->
  dval u row cur = Fin g -> lit_edge u (lnot l0) (cur, row, w) -> g +o w <o g0 ->
  let '(u1, cl) := walk_or_fault D u row cur row [l0] in let '(u', ev) := record D u1 cl in
  ngood u' /\ grows u u' /\ (exists L, ev = [Ev 2 (l0 :: L)] /\ lemma_ok u (l0 :: L)) /\ value_var u' (fst l0) <> LU.
Proof.
  intros G HU Hv Hr Hc Eg He Hneg. pose proof (gd_exact _ _ _ _ _ G) as X.
  destruct (walk_total O D dm DS u row cur [l0] (ex_in _ _ _ _ X) (gd_preds _ _ _ _ _ G) (ex_diag _ _ _ _ X) Hr Hc)
    as (L & g' & Hwk & Hwalk & Hd & HL); [rewrite Eg; discriminate |].
  rewrite Eg in Hd. injection Hd as <-.
  unfold walk_or_fault. rewrite Hwk. cbn [app]. unfold record.
  destruct (enqueue_ngood O D dm DS u l0 G HU Hv) as (G' & V' & Vo & Q' & N1 & N2 & N3 & N4 & N5 & N6 & N7 & N8 & N9 & N10 & N11 & N12).
  destruct (enqueue D u l0) as [u' bb]. cbn [fst] in *.
  split; [exact G' |]. split.
  { constructor; try assumption. intros v Hvn. apply Vo. intros ->. apply Hvn. apply value_LU. exact HU. exists [l0]. exact Q'. }
  split.
  - exists L. split; [reflexivity |]. split.
    + exists l0, L. split; [reflexivity |]. split; [exact HU |]. intros l Hl. apply HL. exact Hl.
    + exists row, (g +o w). split; [| exact Hneg].
      eapply walk_snoc.
      * eapply walk_mono; [| exact Hwalk]. intros e Hin. eapply cl_edges_mono; [| exact Hin]. apply incl_tl, incl_refl.
      * exists l0. split; [left; reflexivity | exact He].
  - unfold value in V'. destruct (value_var u' (fst l0)); [discriminate | discriminate | destruct (snd l0); discriminate].
Qed.

Lemma step3c_spec u evs cv :
  ngood u ->
  let '(u', evs') := step3c D dm (u, evs) cv in
  fault u' = 0 ->
  ngood u' /\ grows u u' /\ (exists new, evs' = evs ++ new /\ forall k cl, In (Ev k cl) new -> k = 2 /\ lemma_ok u cl) /\
  (forall c, vd_find cv (var_dists u) = Some c -> value_var u' cv <> LU \/ ~ decided u' c).
Proof.
  intro G. unfold step3c.
  assert (Same : fault u = 0 -> ngood u /\ grows u u /\ (exists new, evs = evs ++ new /\ forall k cl, In (Ev k cl) new -> k = 2 /\ lemma_ok u cl))
    by (intros _; split; [exact G |]; split; [apply grows_refl |]; exists []; rewrite app_nil_r; split; [reflexivity | intros ? ? []]).
  destruct (vd_find cv (var_dists u)) as [c |] eqn:Hc; [| intro F; split; [apply Same; exact F | split; [apply Same; exact F | split; [apply Same; exact F | intros ? [=]]]]].
  destruct (wt_of u cv c G Hc) as [gd Hw].
  destruct (tb_wf _ _ _ (gd_tables _ _ _ _ _ G) _ _ Hc) as (Hf & Ht & Hft & _ & Hv).
  pose proof (sh_mok _ _ _ _ _ (gd_shape _ _ _ _ _ G)) as MOK.
  assert (Rec : forall sg row cur w g, value u (cv, sg) = LU -> row < n_vars u -> cur < n_vars u -> dval u row cur = Fin g ->
            lit_edge u (cv, negb sg) (cur, row, w) -> g +o w <o g0 ->
            let '(u', evs') := (let (s1, cl) := walk_or_fault D u row cur row [((cv, sg) : lit)] in let (s2, ev) := record D s1 cl in (s2, evs ++ ev)) in
            fault u' = 0 ->
            ngood u' /\ grows u u' /\ (exists new, evs' = evs ++ new /\ forall k cl, In (Ev k cl) new -> k = 2 /\ lemma_ok u cl) /\
            (forall c0, Some c = Some c0 -> value_var u' cv <> LU \/ ~ decided u' c0)).
  { intros sg row cur w g HU Hr Hcu Eg He Hneg.
    pose proof (record_lemma u (cv, sg) row cur w g G HU Hv Hr Hcu Eg He Hneg) as R.
    destruct (walk_or_fault D u row cur row [((cv, sg) : lit)]) as [u1 cl]. destruct (record D u1 cl) as [u' ev].
    destruct R as (G' & Gr & (L & -> & Lok) & VU). intros _. split; [exact G' |]. split; [exact Gr |]. split.
    - exists [Ev 2 ((cv, sg) :: L)]. split; [reflexivity |]. intros k cl0 [[= <- <-] | []]. split; [reflexivity | exact Lok].
    - intros c0 _. left. exact VU. }
  destruct (value u (cv, true)) eqn:Ev0.
  1,2: intro F; split; [apply Same; exact F |]; split; [apply Same; exact F |]; split; [apply Same; exact F |];
       intros c0 [= <-]; left; unfold value in Ev0; cbn in Ev0; destruct (value_var u cv); congruence.
  destruct (dltb dm (dget u (c_to c) (c_from c)) (dneg dm (c_dist c))) eqn:T1.
  - (* refuted: lemma  !b \/ explanation of the path to -> from *)
    apply (ds_lt_neg _ _ _ DS _ _ _ (MOK _ _) Hw) in T1. fold (dval u (c_to c) (c_from c)) in T1.
    destruct (dval u (c_to c) (c_from c)) as [g |] eqn:Eg; [| cbn in T1; contradiction]. cbn in T1.
    apply (Rec false (c_to c) (c_from c) gd g); try assumption.
    + apply value_LU. apply value_LU in Ev0. exact Ev0.
    + exists c, gd. auto.
    + og O.
  - destruct (dleb dm (dget u (c_from c) (c_to c)) (c_dist c)) eqn:T2.
    + (* entailed: lemma  b \/ explanation of the path from -> to *)
      apply (ds_le _ _ _ DS _ _ _ (MOK _ _) Hw) in T2. fold (dval u (c_from c) (c_to c)) in T2.
      destruct (dval u (c_from c) (c_to c)) as [g |] eqn:Eg; [| cbn in T2; contradiction]. cbn in T2.
      apply (Rec true (c_from c) (c_to c) (gpred DS gd) g); try assumption.
      * exists c, gd. auto.
      * pose proof (ds_pred_neg _ _ _ DS gd) as PN. og O.
    + intro F. split; [apply Same; exact F |]. split; [apply Same; exact F |]. split; [apply Same; exact F |].
      intros c0 [= <-]. right. intros [Dd | Dd]; congruence.
Qed.

Definition evs_ok (u : state) (new : list event) : Prop :=
  forall k cl, In (Ev k cl) new -> k = 2 /\ exists w, grows u w /\ ngood w /\ lemma_ok w cl.
Definition settled (u : state) (cv : nat) : Prop :=
  forall c, vd_find cv (var_dists u) = Some c -> value_var u cv <> LU \/ ~ decided u c.

Lemma settled_grows u w cv : grows u w -> settled u cv -> settled w cv.
Proof.
  intros Gr S c Hc. rewrite (gr_vd _ _ Gr) in Hc. destruct (S c Hc) as [A | A].
  - left. rewrite (gr_val _ _ Gr cv A). exact A.
  - right. intro Dd. apply A. apply (decided_dists u w c (gr_d _ _ Gr) Dd).
Qed.

Lemma evs_ok_grows t u new : grows t u -> evs_ok u new -> evs_ok t new.
Proof. intros Gr H k cl Hin. destruct (H k cl Hin) as [E (w & Gw & Nw & Lw)]. split; [exact E |]. exists w. split; [eapply grows_trans; eassumption | auto]. Qed.

Lemma step3c_fold cs : forall u evs, ngood u ->
  let '(u', evs') := fold_left (step3c D dm) cs (u, evs) in
  fault u' = 0 ->
  ngood u' /\ grows u u' /\ (exists new, evs' = evs ++ new /\ evs_ok u new) /\ (forall cv, In cv cs -> settled u' cv).
Proof.
  induction cs as [| cv cs IH]; intros u evs G.
  - cbn. intros _. split; [exact G |]. split; [apply grows_refl |]. split; [exists []; rewrite app_nil_r; split; [reflexivity | intros ? ? []] | intros ? []].
  - cbn [fold_left]. pose proof (step3c_spec u evs cv G) as S1.
    destruct (step3c D dm (u, evs) cv) as [u1 e1] eqn:E1.
    specialize (IH u1 e1). destruct (fold_left (step3c D dm) cs (u1, e1)) as [u2 e2] eqn:E2.
    intro F2. assert (F1 : fault u1 = 0).
    { change u1 with (fst (u1, e1)). apply (step3c_fold_fault D dm cs). rewrite E2. exact F2. }
    destruct (S1 F1) as (G1 & Gr1 & (n1 & En1 & Ok1) & St1).
    destruct (IH G1 F2) as (G2 & Gr2 & (n2 & En2 & Ok2) & St2).
    split; [exact G2 |]. split; [eapply grows_trans; eassumption |]. split.
    + exists (n1 ++ n2). split; [rewrite En2, En1, app_assoc; reflexivity |].
      intros k cl Hin. apply in_app_or in Hin. destruct Hin as [Hin | Hin].
      * destruct (Ok1 k cl Hin) as [Ek L]. split; [exact Ek |]. exists u. split; [apply grows_refl | split; assumption].
      * apply (evs_ok_grows u u1 n2 Gr1 Ok2 k cl Hin).
    + intros cv' [<- | Hin]; [| apply St2; exact Hin]. apply (settled_grows u1 u2 cv Gr2).
      intros c Hc. apply St1. rewrite <- (gr_vd _ _ Gr1). exact Hc.
Qed.

Lemma step3_fold ks : forall u evs, ngood u ->
  let '(u', evs') := fold_left (step3 D dm) ks (u, evs) in
  fault u' = 0 ->
  ngood u' /\ grows u u' /\ (exists new, evs' = evs ++ new /\ evs_ok u new) /\
  (forall k cs cv, In k ks -> pm_find k (dist_constrs u) = Some cs -> In cv cs -> settled u' cv).
Proof.
  induction ks as [| k ks IH]; intros u evs G.
  - cbn. intros _. split; [exact G |]. split; [apply grows_refl |]. split; [exists []; rewrite app_nil_r; split; [reflexivity | intros ? ? []] | intros ? ? ? []].
  - cbn [fold_left]. unfold step3 at 2. cbn [fst].
    destruct (pm_find k (dist_constrs u)) as [cs |] eqn:Ek.
    + pose proof (step3c_fold cs u evs G) as S1.
      destruct (fold_left (step3c D dm) cs (u, evs)) as [u1 e1] eqn:E1.
      specialize (IH u1 e1). destruct (fold_left (step3 D dm) ks (u1, e1)) as [u2 e2] eqn:E2.
      intro F2. assert (F1 : fault u1 = 0).
      { change u1 with (fst (u1, e1)). apply (step3_fold_fault D dm ks). rewrite E2. exact F2. }
      destruct (S1 F1) as (G1 & Gr1 & (n1 & En1 & Ok1) & St1).
      destruct (IH G1 F2) as (G2 & Gr2 & (n2 & En2 & Ok2) & St2).
      split; [exact G2 |]. split; [eapply grows_trans; eassumption |]. split.
      * exists (n1 ++ n2). split; [rewrite En2, En1, app_assoc; reflexivity |].
        intros kk cl Hin. apply in_app_or in Hin. destruct Hin as [Hin | Hin]; [apply Ok1; exact Hin | apply (evs_ok_grows u u1 n2 Gr1 Ok2 kk cl Hin)].
      * intros k' cs' cv [<- | Hin] Hf Hcv.
        -- rewrite Ek in Hf. injection Hf as <-. apply (settled_grows u1 u2 cv Gr2). apply St1. exact Hcv.
        -- apply (St2 k' cs' cv Hin); [rewrite (gr_cs _ _ Gr1); exact Hf | exact Hcv].
    + specialize (IH u evs G). destruct (fold_left (step3 D dm) ks (u, evs)) as [u2 e2] eqn:E2.
      intro F2. destruct (IH F2) as (G2 & Gr2 & Ev2 & St2).
      split; [exact G2 |]. split; [exact Gr2 |]. split; [exact Ev2 |].
      intros k' cs' cv [<- | Hin] Hf Hcv; [congruence | apply (St2 k' cs' cv Hin Hf Hcv)].
Qed.

(* ---- every undefined constraint is undecided afterwards, when c_updates covers the newly decided ones ---- *)
Theorem step3_prop_ok t cu :
  ngood t ->
  (forall v c, vd_find v (var_dists t) = Some c -> value_var t v = LU -> decided t c -> In (c_from c, c_to c) cu) ->
  let '(u, evs) := fold_left (step3 D dm) cu (t, []) in
  fault u = 0 -> good O D dm DS u /\ grows t u /\ evs_ok t evs.
Proof.
  intros G Cov. pose proof (step3_fold cu t [] G) as S. destruct (fold_left (step3 D dm) cu (t, [])) as [u evs] eqn:E.
  intro F. destruct (S F) as (G' & Gr & (new & En & Ok) & St). cbn in En. subst evs.
  split; [| split; assumption]. constructor; [exact G' |].
  intros v c Hc HU Dd. rewrite (gr_vd _ _ Gr) in Hc.
  assert (HUt : value_var t v = LU).
  { destruct (value_var t v) eqn:Ev; try reflexivity; rewrite (gr_val _ _ Gr v) in HU; congruence. }
  pose proof (decided_dists t u c (gr_d _ _ Gr) Dd) as Ddt.
  pose proof (Cov v c Hc HUt Ddt) as Hin.
  destruct (tb_cs _ _ _ (gd_tables _ _ _ _ _ G) v c Hc) as (l & Hl & Hvl).
  destruct (St _ _ _ Hin Hl Hvl c) as [A | A]; [rewrite (gr_vd _ _ Gr); exact Hc | contradiction | contradiction].
Qed.

End Lemmas.
