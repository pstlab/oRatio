(* Non-vacuity of the plan checkers: a concrete program and solution accepted by every check, and mutated solutions
   (a wrong value, a dropped subgoal, a retargeted unification, a cycle) rejected by the check they violate. *)
From Coq Require Import List QArith.
From ORatio Require Import plan.Ast plan.Sem plan.Check.
Import ListNotations.

Definition x : ident := 20%N.  Definition g : ident := 21%N.  Definition f : ident := 22%N.  Definition p : ident := 23%N.
Definition B : ident := 30%N.  Definition P : ident := 31%N.

(*  predicate B(real x) { x >= 0; }   predicate P(real x) { goal g = new B(x: x); }
    fact f = new B(x: 1.0);  goal p = new P(x: 1.0);  p.x <= 1.0;                                        *)
Definition ex_prog : program :=
  mkProg []
         [ mkPred B None [(x, TReal)] [] [SExpr (ECmp CGe (EId [x]) (ENum 0))];
           mkPred P None [(x, TReal)] [] [SFormula false g [] B [(x, EId [x])]] ]
         [ SFormula true f [] B [(x, ENum 1)]; SFormula false p [] P [(x, ENum 1)]; SExpr (ECmp CLe (EId [p; x]) (ENum 1)) ].

Definition one : value := VNum (1, 0).

(* the solution: f active, p active with its rule applied in environment 200, the subgoal 102 unified with f *)
Definition ex_sol (vx : value) (st102 : astate) (tgt : ident) (rk100 : N) : solution :=
  mkSol [ mkEnv 0%N None [(f, VRef 100%N); (p, VRef 101%N)];
          mkEnv 100%N (Some 0%N) [(x, one)];
          mkEnv 101%N (Some 0%N) [(x, vx)];
          mkEnv 102%N (Some 0%N) [(x, one)];
          mkEnv 200%N (Some 101%N) [(id_this, VRef 101%N); (g, VRef 102%N)] ]
        []
        [ mkAtom 100%N B true Active 10%N None [];
          mkAtom 101%N P false Active 11%N None [(P, 200%N)];
          mkAtom 102%N B false st102 12%N (Some tgt) [] ]
        [] []
        [ (100%N, rk100); (101%N, 3%N); (102%N, 1%N) ].

Example ex_accepted : check_solution ex_prog (ex_sol one Unified 100%N 0%N) = true.
Proof. vm_compute. reflexivity. Qed.

(* p.x = 2: violates `p.x <= 1.0` and the argument `x: 1.0` (C01) *)
Example ex_wrong_value : check_satisfies ex_prog (ex_sol (VNum (2, 0)) Unified 100%N 0%N) = false.
Proof. vm_compute. reflexivity. Qed.

(* the subgoal of p is not in the plan (C01 / C03: the rule's subgoal is missing) *)
Example ex_dropped_subgoal : check_rules ex_prog (ex_sol one Inactive 100%N 0%N) = false.
Proof. vm_compute. reflexivity. Qed.

(* unified with itself / with a non-active atom (C03) *)
Example ex_self_unification : check_unified ex_prog (ex_sol one Unified 102%N 0%N) = false.
Proof. vm_compute. reflexivity. Qed.

(* the subgoal unified with the goal that gave rise to it: a causal cycle, no rank can certify it (C03) *)
Example ex_cycle : forall rk, check_acyclic ex_prog (ex_sol one Unified 101%N rk) = false.
Proof. intros rk. vm_compute. reflexivity. Qed.

Example ex_edges : support_edges ex_prog (ex_sol one Unified 100%N 0%N) = [(101%N, 102%N); (102%N, 100%N)].
Proof. vm_compute. reflexivity. Qed.
