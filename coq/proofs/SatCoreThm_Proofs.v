(* C07: the contracts on std::sort and on the attached theory, and the theorems about whole histories of the sat_core model
   for any sort and theory that meet them; the extracted instance (isort, no theory) meets both. *)
From Coq Require Import List Arith Bool Lia Permutation Sorted.
From ORatio Require Import smt.SatCoreBase smt.SatCoreSpec smt.SatCore proofs.SatCoreBase_Proofs proofs.SatCoreInv_Proofs
  proofs.SatCorePrim_Proofs proofs.SatCoreStep_Proofs proofs.SatCoreAnalyze_Proofs proofs.SatCoreUb_Proofs
  proofs.SatCoreRun_Proofs proofs.SatCoreLog_Proofs.
Import ListNotations.

(* the stable insertion sort used for extraction meets the contract assumed of std::sort *)
Lemma isort_var_sorted : forall l, StronglySorted (fun a b : lit => fst a <= fst b) (isort var_lt l).
Proof. intros. apply isort_sorted; unfold var_lt; intros; try lia. apply Nat.ltb_lt in H; lia. apply Nat.ltb_ge in H; lia. Qed.

(* the contracts: the Section hypotheses that stand for external behaviour (std::sort, the attached theories), bundled *)
Definition sort_contract (sort : (lit -> lit -> bool) -> list lit -> list lit) : Prop :=
  (forall f l, Permutation (sort f l) l) /\ (forall l, StronglySorted (fun a b => fst a <= fst b) (sort var_lt l)).
Definition theory_contract {TS : Type} (T : asg -> Prop)
  (th_propagate : TS -> list lbool -> nat -> lit -> TS * list (list lit) * option (list lit))
  (th_check : TS -> list lbool -> nat -> TS * list (list lit) * option (list lit)) : Prop :=
  (forall (s : @state TS) p, Inv T s -> In p (trail s) -> lvl s p = decision_level s ->
     th_result_ok T s (th_propagate (thst s) (assigns s) (decision_level s) p)) /\
  (forall (s : @state TS), Inv T s ->
     th_result_ok T s (th_check (thst s) (assigns s) (decision_level s)) /\
     snd (fst (th_check (thst s) (assigns s) (decision_level s))) = []).

Lemma isort_contract : sort_contract (@isort lit).
Proof. split. intros; apply isort_perm. apply isort_var_sorted. Qed.
Lemma no_theory_contract : theory_contract no_theory nt_propagate nt_check.
Proof.
  split.
  - intros s p _ _ _. unfold th_result_ok, nt_propagate. simpl. split. constructor. intros; discriminate.
  - intros s _. unfold th_result_ok, nt_check. simpl. split; auto. split. constructor. intros; discriminate.
Qed.

Lemma log_sound_in : forall T l post c pre, l = post ++ (0, c) :: pre -> log_sound T l -> entails T (axioms pre) c.
Proof.
  intros T l post. revert l. induction post as [|[k d] t IH]; intros l c pre E H; subst; simpl in H.
  - destruct H as [_ [H _]]. auto.
  - destruct H as [H _]. eapply IH; eauto.
Qed.

Section Thm.
  Context {TS : Type}.
  Variables (T : asg -> Prop) (sort : (lit -> lit -> bool) -> list lit -> list lit).
  Variables (thp : TS -> list lbool -> nat -> lit -> TS * list (list lit) * option (list lit))
            (thc : TS -> list lbool -> nat -> TS * list (list lit) * option (list lit)) (thpush thpop : TS -> TS) (FUEL : nat).
  Hypothesis Hsort : sort_contract sort.
  Hypothesis Hth : theory_contract T thp thc.
  Notation state := (@state TS).
  Notation run := (run sort thp thc thpush thpop FUEL).
  Notation run_ok := (run_ok sort thp thc thpush thpop FUEL).
  Notation step := (step sort thp thc thpush thpop FUEL).

  Lemma reach_inv : forall ops ts, run_ok ops (init ts) = true -> ub (run ops (init ts)) = false -> Inv T (run ops (init ts)).
  Proof. intros. apply (run_inv T sort (proj1 Hsort) (proj2 Hsort) thp thc thpush thpop FUEL (proj1 Hth) (proj2 Hth)); auto. apply init_inv. Qed.

  (* (i) every reported value is entailed by the axioms (added clauses + next() no-goods) modulo T and the standing decisions *)
  Theorem c07_values : forall ops ts, run_ok ops (init ts) = true -> ub (run ops (init ts)) = false ->
    forall p, value_lit (run ops (init ts)) p = LT ->
    entails T (axioms (log (run ops (init ts))) ++ units (decisions (run ops (init ts)))) [p].
  Proof.
    intros ops ts Hok Hub p Hv. pose proof (reach_inv ops ts Hok Hub) as I.
    destruct (value_lit_true T _ p (proj1 I) Hv) as [H| ->].
    - apply trail_entailed; auto. apply I.
    - eapply entails_mono; [apply incl_appl, incl_refl|]. apply entails_in, axioms_true.
  Qed.
  Theorem c07_false_values : forall ops ts, run_ok ops (init ts) = true -> ub (run ops (init ts)) = false ->
    forall p, value_lit (run ops (init ts)) p = LF ->
    entails T (axioms (log (run ops (init ts))) ++ units (decisions (run ops (init ts)))) [lneg p].
  Proof. intros ops ts Hok Hub p Hv. apply c07_values; auto. rewrite value_lit_neg. now rewrite Hv. Qed.
  (* ... and at root level, of the axioms alone *)
  Theorem c07_root_values : forall ops ts, run_ok ops (init ts) = true -> ub (run ops (init ts)) = false ->
    root_level (run ops (init ts)) = true ->
    forall p, value_lit (run ops (init ts)) p = LT -> entails T (axioms (log (run ops (init ts)))) [p].
  Proof.
    intros ops ts Hok Hub Hr p Hv. pose proof (c07_values ops ts Hok Hub p Hv) as H.
    destruct (root_decisions T _ (proj1 (reach_inv ops ts Hok Hub)) Hr) as [_ Hd]. rewrite Hd in H. simpl in H. now rewrite app_nil_r in H.
  Qed.
  (* reasons: the implying constraint of a trail literal is a stored clause headed by it whose other literals were
     false before it (they are on the trail below it, negated), and that clause is entailed by the axioms *)
  Theorem c07_reasons : forall ops ts, run_ok ops (init ts) = true -> ub (run ops (init ts)) = false ->
    forall pre q suf c, trail (run ops (init ts)) = pre ++ q :: suf -> nth (fst q) (reason (run ops (init ts))) None = Some c ->
    exists rest, lits_of (run ops (init ts)) c = q :: rest /\ (forall r, In r rest -> In (lneg r) suf \/ r = FALSE_lit) /\
                 entails T (axioms (log (run ops (init ts)))) (lits_of (run ops (init ts)) c).
  Proof.
    intros ops ts Hok Hub pre q suf c Et Hr. pose proof (reach_inv ops ts Hok Hub) as I.
    destruct (trail_ok_in _ _ _ _ _ (i_trail T _ (proj1 I)) Et) as [_ [H2 _]]. destruct (H2 c Hr) as [rest [Hl Hf]].
    exists rest. split; auto. split; auto. apply (i_cls_sound T _ (proj1 I)).
    destruct (Nat.lt_ge_cases c (length (cls (run ops (init ts))))); auto. rewrite lits_of_overflow in Hl by auto. discriminate.
  Qed.
  (* (ii) every learnt clause (hook kind 0) is entailed by the axioms logged before it; theory lemmas are T-valid *)
  Theorem c07_learnt : forall ops ts, run_ok ops (init ts) = true -> ub (run ops (init ts)) = false ->
    forall post c pre, log (run ops (init ts)) = post ++ (0, c) :: pre -> entails T (axioms pre) c.
  Proof. intros ops ts Hok Hub post c pre E. eapply log_sound_in; eauto. apply (i_log T _ (proj1 (reach_inv ops ts Hok Hub))). Qed.
  (* the stored clauses too (resolution soundness carried by the database) *)
  Theorem c07_database : forall ops ts, run_ok ops (init ts) = true -> ub (run ops (init ts)) = false ->
    forall c, In c (constrs (run ops (init ts))) -> c < length (cls (run ops (init ts))) ->
    entails T (axioms (log (run ops (init ts)))) (lits_of (run ops (init ts)) c).
  Proof. intros ops ts Hok Hub c _ Hc. apply (i_cls_sound T _ (proj1 (reach_inv ops ts Hok Hub))). exact Hc. Qed.

  (* the no-good of next(): NOT entailed - it is exactly the negation of the standing decisions, last one first *)
  Theorem next_records_negated_decisions : forall (s : state), root_level s = false ->
    exists ext, log (fst (step s ONext)) = ext ++ (1, map lneg (decisions s)) :: log s /\ kinds_in [0; 2; 3] ext.
  Proof. intros s Hr. exact (next_log sort thp thc thpush thpop FUEL s Hr). Qed.
  Theorem c07_no_next_axioms : forall ops ts, ~ In ONext ops -> axioms (log (run ops (init ts))) = added (log (run ops (init ts))).
  Proof. intros. apply axioms_added. rewrite run_no_next; auto. Qed.

  (* (iii) the meaning of a `false` answer *)
  Theorem c07_answers : forall ops o ts, run_ok (ops ++ [o]) (init ts) = true ->
    forall s' r, step (run ops (init ts)) o = (s', r) -> ub s' = false -> answer_sound T (run ops (init ts)) o s' r.
  Proof.
    intros ops o ts Hok s' r E Hub. destruct (run_ok_app sort thp thc thpush thpop FUEL ops o (init ts) Hok) as [Hok1 Hpre].
    assert (Hub1 : ub (run ops (init ts)) = false).
    { destruct (ub (run ops (init ts))) eqn:U; auto. pose proof (step_ub sort thp thc thpush thpop FUEL _ o U) as H.
      rewrite E in H. simpl in H. congruence. }
    apply (step_inv T sort (proj1 Hsort) (proj2 Hsort) thp thc thpush thpop FUEL (proj1 Hth) (proj2 Hth)
             _ o s' r (reach_inv ops ts Hok1 Hub1) Hpre E Hub).
  Qed.

  (* (iv) simplify_db / clause::simplify / clause::remove keep the set of models of the database *)
  Lemma lits_after_simplify_step : forall (s : state) c ls c',
    lits_of (set_cls s (upd (cls s) c ls)) c' = if Nat.eqb c c' && Nat.ltb c (length (cls s)) then ls else lits_of s c'.
  Proof.
    intros. unfold lits_of. simpl. rewrite nth_upd. destruct (Nat.eqb c c'); simpl; auto.
  Qed.

  Lemma simplify_loop_models : forall (s0 : state), Inv0 T s0 -> forall cs (s : state) kept,
    assigns s = assigns s0 ->
    forall a, sat_lit a TRUE_lit -> (forall q, In q (trail s0) -> sat_lit a q) ->
    ((forall c, In c (constrs (simplify_loop s cs kept)) -> sat_clause a (lits_of (simplify_loop s cs kept) c)) <->
     (forall c, In c (rev kept ++ cs) -> sat_clause a (lits_of s c))).
  Proof.
    intros s0 I0. induction cs as [|c t IH]; intros s kept Ha a Ha0 Hat; simpl.
    - rewrite app_nil_r. split; intros H c Hc; apply H; exact Hc.
    - destruct (simp_go s (lits_of s c) (lits_of s c) []) as [sat ls] eqn:E.
      assert (Hval : forall x, value_lit s x = value_lit s0 x) by (intros; apply value_lit_assigns; auto).
      assert (Hfalse : forall x, value_lit s x = LF -> ~ sat_lit a x).
      { intros x Hx. rewrite Hval in Hx. destruct (value_lit_false T s0 x I0 Hx) as [H| ->].
        apply sat_lit_neg. apply Hat. exact H. intros H. unfold sat_lit in *. simpl in *. congruence. }
      set (s1 := set_cls s (upd (cls s) c ls)) in *.
      destruct sat.
      + destruct (simp_go_spec s _ _ [] true ls E) as (S1 & _ & S3); auto. intros l [].
        destruct (S3 eq_refl) as [xt [Hxt Hvt]].
        assert (Htrue : forall x, value_lit s x = LT -> sat_lit a x).
        { intros x Hx. rewrite Hval in Hx. destruct (value_lit_true T s0 x I0 Hx) as [H| ->]; auto. }
        pose proof (simp_go_true_keeps s (lits_of s c) [] [] ls E (le_n 0) (fun y (H : In y []) => match H with end)) as Hk.
        set (s2 := clause_remove s1 c) in *. set (s3 := if still_watched s2 c then set_ub s2 else s2) in *.
        assert (W : cls s3 = cls s1 /\ assigns s3 = assigns s).
        { pose proof (clause_remove_same s1 c) as (A1 & A2 & A3 & A4 & A5 & _). fold s2 in A2, A3, A5.
          subst s3. destruct (still_watched s2 c); simpl; repeat split; auto. }
        destruct W as (W1 & W2).
        rewrite (IH s3 kept ltac:(congruence) a Ha0 Hat).
        assert (Hl3 : forall c', lits_of s3 c' = lits_of s1 c') by (intros; unfold lits_of; now rewrite W1).
        assert (Hsc : sat_clause a (lits_of s c)) by (exists xt; auto).
        assert (Hsame : forall c', sat_clause a (lits_of s3 c') <-> sat_clause a (lits_of s c')).
        { intros c'. rewrite Hl3. unfold s1. rewrite lits_after_simplify_step.
          destruct (Nat.eqb_spec c c') as [<-|]; simpl; [|tauto]. destruct (Nat.ltb c (length (cls s))); [|tauto].
          split; intros _; auto. exists xt. split; auto. destruct (Hk xt Hxt) as [Hf|Hin]; auto. congruence. }
        split; intros H c' Hc'.
        * apply in_app_or in Hc'. destruct Hc' as [Hc'|[<-|Hc']]; auto; apply Hsame, H; apply in_or_app; auto.
        * apply Hsame. apply H. apply in_app_or in Hc'. apply in_or_app. simpl. tauto.
      + destruct (simp_go_spec s _ _ [] false ls E) as (S1 & S2 & _); auto. intros l [].
        destruct (S2 eq_refl) as (G1 & _ & _).
        set (s3 := if shrink_ok s c (lits_of s c) ls then s1 else set_ub s1) in *.
        assert (W : cls s3 = cls s1 /\ assigns s3 = assigns s).
        { subst s3. destruct (shrink_ok s c (lits_of s c) ls); simpl; auto. }
        destruct W as (W1 & W2).
        rewrite (IH s3 (c :: kept) ltac:(congruence) a Ha0 Hat).
        assert (Hl3 : forall c', lits_of s3 c' = lits_of s1 c') by (intros; unfold lits_of; now rewrite W1).
        assert (Hsame : forall c', sat_clause a (lits_of s3 c') <-> sat_clause a (lits_of s c')).
        { intros c'. rewrite Hl3. unfold s1. rewrite lits_after_simplify_step.
          destruct (Nat.eqb_spec c c') as [<-|]; simpl; [|tauto]. destruct (Nat.ltb c (length (cls s))); [|tauto].
          split.
          - intros [x [Hx Hs]]. exists x. split; auto.
          - intros [x [Hx Hs]]. destruct (G1 x Hx) as [Hf|Hin]. exfalso. apply (Hfalse x Hf Hs). exists x; auto. }
        simpl rev. rewrite <- app_assoc. simpl.
        split; intros H c' Hc'; [apply Hsame, H|apply Hsame, H]; exact Hc'.
  Qed.

  Lemma models_map : forall A (f : A -> clause) l a, models a (map f l) <-> forall c, In c l -> sat_clause a (f c).
  Proof.
    intros. unfold models. split.
    - intros H c Hc. apply H. now apply in_map.
    - intros H d Hd. apply in_map_iff in Hd. destruct Hd as [c [<- Hc]]. auto.
  Qed.

  Theorem c07_simplify_models : forall ops ts, run_ok ops (init ts) = true -> ub (run ops (init ts)) = false ->
    forall a, models a (db_formula (simplify_loop (run ops (init ts)) (constrs (run ops (init ts))) [])) <->
              models a (db_formula (run ops (init ts))).
  Proof.
    intros ops ts Hok Hub a. pose proof (reach_inv ops ts Hok Hub) as I. set (s1 := run ops (init ts)) in *.
    unfold db_formula. rewrite !models_cons, !models_app, !models_units, !models_map.
    destruct (simplify_loop_same (constrs s1) s1 []) as (_ & _ & -> & _).
    split; intros (H0 & Hc & Ht); (split; [exact H0|split; [|exact Ht]]); apply sat_clause_single in H0;
      pose proof (simplify_loop_models s1 (proj1 I) (constrs s1) s1 [] eq_refl a H0 Ht) as Hiff; simpl in Hiff;
      apply Hiff; exact Hc.
  Qed.
End Thm.

(* non-vacuity: the history of smt/tests/test_sat.cpp:test_no_good (variables b0..b8 are 1..9 here) meets the
   hypotheses of the theorems, runs into a conflict, learns a clause and backjumps; then next() and check() *)
Definition ex_ops : list op :=
  [ONewVar; ONewVar; ONewVar; ONewVar; ONewVar; ONewVar; ONewVar; ONewVar; ONewVar;
   ONewClause [(1, true); (2, true)]; ONewClause [(1, true); (3, true); (7, true)];
   ONewClause [(2, false); (3, false); (4, true)]; ONewClause [(4, false); (5, true); (8, true)];
   ONewClause [(4, false); (6, true); (9, true)]; ONewClause [(5, false); (6, false)];
   OPropagate; OAssume (7, false); OAssume (8, false); OAssume (9, false); OAssume (1, false);
   ONext; OCheck [(2, false)]; OPop; OPop; OSimplify].
Definition ex_run := run (@isort lit) nt_propagate nt_check nt_id nt_id 1000 ex_ops p_init.
Example ex_hypotheses_hold :
  run_ok (@isort lit) nt_propagate nt_check nt_id nt_id 1000 ex_ops p_init = true /\ ub ex_run = false /\
  log_clauses [0] (log ex_run) <> [] /\ nogoods (log ex_run) <> [].
Proof. vm_compute. repeat split; discriminate. Qed.
