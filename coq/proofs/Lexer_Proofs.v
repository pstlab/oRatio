(* Proofs about the lexer model (lang/Lexer.v) and the printer `show` (lang/Printer.v):
     scan_progress   every token / skip step consumes at least one character
     lex_total       with the fuel `lex` supplies the loop never runs out of fuel: the outcome is LOk or LErr   (C18)
     lex_show        reading what `show` writes gives back the tokens                                        (C16) *)
From Coq Require Import List Ascii String NArith Bool Arith Lia.
From ORatio Require Import lang.Token lang.Lexer lang.Printer.
Import ListNotations.

Lemma span_app p cs : forall a b, span p cs = (a, b) -> cs = a ++ b.
Proof.
  induction cs as [|c r IH]; intros a b H; cbn in H.
  - inversion H; reflexivity.
  - destruct (p c).
    + destruct (span p r) as [a' b'] eqn:E. inversion H; subst. cbn. f_equal. apply IH. reflexivity.
    + inversion H; subst. reflexivity.
Qed.

Lemma span_len p cs a b : span p cs = (a, b) -> List.length b <= List.length cs.
Proof. intros H. apply span_app in H. subst. rewrite app_length. lia. Qed.

Lemma snd_span_len p cs : List.length (snd (span p cs)) <= List.length cs.
Proof. destruct (span p cs) as [a b] eqn:E. cbn. eapply span_len; eauto. Qed.

Definition shorter (r : scan_res) (n : nat) : Prop :=
  match r with SToken _ rest => List.length rest < n | SSkip rest => List.length rest < n | _ => True end.
Definition no_longer (r : scan_res) (n : nat) : Prop :=
  match r with SToken _ rest => List.length rest <= n | SSkip rest => List.length rest <= n | _ => True end.

Lemma scan_string_len_aux n : forall cs acc, List.length cs <= n -> shorter (scan_string cs acc) (S (List.length cs)).
Proof.
  induction n as [|n IH]; intros cs acc Hn.
  - destruct cs; [exact I|cbn in Hn; lia].
  - destruct cs as [|c r]; cbn; [exact I|]. cbn in Hn.
    destruct (c_is 34 c); [cbn; lia|].
    destruct (c_is 92 c).
    + destruct r as [|e r']; [exact I|]. cbn in Hn.
      specialize (IH r' (e :: acc) ltac:(lia)).
      destruct (scan_string r' (e :: acc)); cbn in *; try lia; exact I.
    + destruct (is_nl c); [exact I|].
      specialize (IH r (c :: acc) ltac:(lia)). destruct (scan_string r (c :: acc)); cbn in *; try lia; exact I.
Qed.
Lemma scan_string_len cs acc : shorter (scan_string cs acc) (S (List.length cs)).
Proof. eapply scan_string_len_aux. reflexivity. Qed.

Lemma skip_line_len cs : no_longer (skip_line cs) (List.length cs).
Proof.
  induction cs as [|c r IH]; cbn; [exact I|].
  destruct (is_nl c); [cbn; lia|]. destruct (skip_line r); cbn in *; try lia; exact I.
Qed.

Lemma skip_block_len cs : no_longer (skip_block cs) (List.length cs).
Proof.
  induction cs as [|c r IH]; cbn; [exact I|].
  destruct (c_is 42 c).
  - destruct r as [|d r']; [exact I|]. destruct (c_is 47 d); [cbn; lia|].
    destruct (skip_block (d :: r')); cbn in *; try lia; exact I.
  - destruct (skip_block r); cbn in *; try lia; exact I.
Qed.

Lemma mk_int_len ds rest : no_longer (mk_int ds rest) (List.length rest).
Proof. unfold mk_int. destruct (_ <=? _)%N; cbn; [lia|exact I]. Qed.
Lemma mk_real_len ip dp rest : no_longer (mk_real ip dp rest) (List.length rest).
Proof. unfold mk_real. destruct (18 <? _); [exact I|]. destruct (_ <=? _)%N; cbn; [lia|exact I]. Qed.

Lemma no_longer_le r n m : no_longer r n -> n <= m -> no_longer r m.
Proof. destruct r; cbn; intros; try lia; exact I. Qed.
Lemma no_longer_shorter r n : no_longer r n -> shorter r (S n).
Proof. destruct r; cbn; intros; try lia; exact I. Qed.

Lemma scan_decimals_len ip cs : no_longer (scan_decimals ip cs) (List.length cs).
Proof.
  unfold scan_decimals. destruct (span is_digit cs) as [dp r] eqn:E. apply span_len in E.
  destruct r as [|c r']; [eapply no_longer_le; [apply mk_real_len|exact E]|].
  destruct (c_is 46 c); [exact I|]. eapply no_longer_le; [apply mk_real_len|exact E].
Qed.

Lemma span_first p c r : p c = true -> exists a b, span p (c :: r) = (c :: a, b) /\ List.length b <= List.length r.
Proof.
  intros H. cbn. rewrite H. destruct (span p r) as [a b] eqn:E. exists a, b. split; [reflexivity|]. eapply span_len; eauto.
Qed.

Lemma scan_number_len c r : is_digit c = true -> shorter (scan_number (c :: r)) (S (List.length r)).
Proof.
  intros H. unfold scan_number. destruct (span_first is_digit c r H) as (a & b & E & L). rewrite E.
  destruct b as [|d b'].
  - apply no_longer_shorter. eapply no_longer_le; [apply mk_int_len|exact L].
  - destruct (c_is 46 d).
    + apply no_longer_shorter. eapply no_longer_le; [apply scan_decimals_len|cbn in L; lia].
    + apply no_longer_shorter. eapply no_longer_le; [apply mk_int_len|exact L].
Qed.

Lemma scan_word_len c r : is_alpha c = true -> shorter (scan_word (c :: r)) (S (List.length r)).
Proof.
  intros H. unfold scan_word. assert (H' : is_id_part c = true) by (unfold is_id_part; rewrite H; reflexivity).
  destruct (span_first is_id_part c r H') as (a & b & E & L). rewrite E. cbn. lia.
Qed.

Lemma two_len r n t2 t1 : shorter (two r n t2 t1) (S (List.length r)).
Proof. unfold two. destruct r as [|d r']; cbn; [lia|]. destruct (c_is n d); cbn; lia. Qed.

Theorem scan_progress cs : shorter (scan cs) (List.length cs).
Proof.
  destruct cs as [|c r]; [exact I|]. cbn [scan List.length].
  destruct (c_is 34 c); [apply scan_string_len|].
  destruct (c_is 47 c).
  { destruct r as [|d r']; [cbn; lia|]. destruct (c_is 47 d).
    - apply no_longer_shorter. eapply no_longer_le; [apply skip_line_len|cbn; lia].
    - destruct (c_is 42 d); [|cbn; lia]. apply no_longer_shorter. eapply no_longer_le; [apply skip_block_len|cbn; lia]. }
  repeat match goal with
         | |- shorter (if ?b then _ else _) _ => destruct b eqn:?
         | |- shorter (two _ _ _ _) _ => apply two_len
         | |- shorter (SToken _ _) _ => cbn; lia
         | |- shorter (SErr _) _ => exact I
         | |- shorter (scan_number _) _ => apply scan_number_len; assumption
         | |- shorter (scan_word _) _ => apply scan_word_len; assumption
         end.
  - destruct r as [|d r']; [cbn; lia|]. destruct (is_digit d); [|cbn; lia].
    apply no_longer_shorter. apply scan_decimals_len.
  - unfold scan_ws. pose proof (snd_span_len is_ws r) as L.
    destruct (snd (span is_ws r)); [exact I|]. cbn in *. lia.
Qed.

Lemma lex_loop_total fuel : forall cs, List.length cs < fuel -> lex_loop fuel cs <> LHang.
Proof.
  induction fuel as [|f IH]; intros cs H; [lia|]. cbn. pose proof (scan_progress cs) as P.
  destruct (scan cs) as [t r|r| |e]; cbn in P; try discriminate.
  - specialize (IH r ltac:(lia)). destruct (lex_loop f r); congruence.
  - apply IH. lia.
Qed.

Theorem lex_total cs : lex cs <> LHang.
Proof. unfold lex. apply lex_loop_total. lia. Qed.

Lemma span_all p s x rest : Forall (fun c => p c = true) s -> p x = false -> span p (s ++ x :: rest) = (s, x :: rest).
Proof.
  induction 1 as [|c r Hc _ IH]; intros Hx; cbn.
  - rewrite Hx. reflexivity.
  - rewrite Hc, (IH Hx). reflexivity.
Qed.

(* an identifier character is none of the characters `scan` tests for before it looks for digits and letters:
   its code lies in '0'..'9', 'A'..'Z', '_', 'a'..'z' *)
Definition id_code (n : N) : bool :=
  ((((97 <=? n) && (n <=? 122)) || ((65 <=? n) && (n <=? 90)) || (n =? 95)) || ((48 <=? n) && (n <=? 57)))%N.
Lemma idpart_c_is k c : is_id_part c = true -> id_code k = false -> c_is k c = false.
Proof. intros H Hk. unfold c_is. destruct (N.eqb_spec (code c) k) as [E|]; [|reflexivity]. rewrite <- E in Hk. exact (eq_trans (eq_sym H) Hk). Qed.

Lemma digit_idpart c : is_digit c = true -> is_id_part c = true.
Proof. intros H. unfold is_id_part. rewrite H. apply orb_true_r. Qed.
Lemma alpha_idpart c : is_alpha c = true -> is_id_part c = true.
Proof. intros H. unfold is_id_part. rewrite H. reflexivity. Qed.
Lemma alpha_not_digit c : is_alpha c = true -> is_digit c = false.
Proof.
  unfold is_alpha, is_digit. generalize (code c). intros n H. destruct ((48 <=? n) && (n <=? 57))%N eqn:E; [exfalso|reflexivity].
  rewrite !orb_true_iff, !andb_true_iff, !N.leb_le, N.eqb_eq in H. rewrite andb_true_iff, !N.leb_le in E. lia.
Qed.

Lemma digit_dispatch c r : is_digit c = true -> scan (c :: r) = scan_number (c :: r).
Proof. intros H. unfold scan. rewrite !(idpart_c_is _ c (digit_idpart c H)) by reflexivity. rewrite H. reflexivity. Qed.
Lemma alpha_dispatch c r : is_alpha c = true -> scan (c :: r) = scan_word (c :: r).
Proof.
  intros H. unfold scan. rewrite !(idpart_c_is _ c (alpha_idpart c H)) by reflexivity. rewrite (alpha_not_digit c H), H. reflexivity.
Qed.
Lemma digit_not_dot c : is_digit c = true -> c_is 46 c = false.
Proof. intros H. apply idpart_c_is; [exact (digit_idpart c H)|reflexivity]. Qed.
Lemma idpart_not_cr c : is_id_part c = true -> c_is 13 c = false.
Proof. intros H. apply idpart_c_is; [exact H|reflexivity]. Qed.
Lemma idpart_not_ws c : is_id_part c = true -> is_ws c = false.
Proof. intros H. unfold is_ws, is_nl. fold (c_is 32 c) (c_is 9 c) (c_is 13 c) (c_is 10 c). rewrite !(idpart_c_is _ c H) by reflexivity. reflexivity. Qed.

(* no carriage return in what `show` writes, so next_char's "\r\n" rule never applies *)
Lemma norm_nl_id cs : Forall (fun c => c_is 13 c = false) cs -> norm_nl cs = cs.
Proof.
  induction 1 as [|c r Hc Hr IH]; [reflexivity|]. cbn. destruct r as [|d r']; [reflexivity|].
  rewrite Hc. cbn [andb]. f_equal. exact IH.
Qed.

Lemma escape_no_cr s : Forall (fun c => c_is 13 c = false) s -> Forall (fun c => c_is 13 c = false) (escape s).
Proof.
  induction 1 as [|c r Hc _ IH]; cbn; [constructor|].
  destruct (c_is 34 c || c_is 92 c || is_nl c); cbn; repeat constructor; assumption.
Qed.

Lemma show_token_no_cr t : wf_token t -> Forall (fun c => c_is 13 c = false) (show_token t).
Proof.
  destruct t; cbn [show_token wf_token]; intros W; try (repeat constructor).
  - destruct W as (_ & W & _). eapply Forall_impl; [apply idpart_not_cr|exact W].
  - destruct b; repeat constructor.
  - destruct W as (_ & W & _). eapply Forall_impl; [intros c Hc; apply idpart_not_cr, digit_idpart, Hc|exact W].
  - destruct W as (_ & W1 & W2 & _). apply Forall_app. split.
    + eapply Forall_impl; [intros c Hc; apply idpart_not_cr, digit_idpart, Hc|exact W1].
    + constructor; [reflexivity|]. eapply Forall_impl; [intros c Hc; apply idpart_not_cr, digit_idpart, Hc|exact W2].
  - apply Forall_app. split; [apply escape_no_cr; exact W|repeat constructor].
Qed.

Lemma show_no_cr ts : Forall wf_token ts -> Forall (fun c => c_is 13 c = false) (show ts).
Proof.
  induction 1 as [|t r Ht _ IH]; cbn; [constructor|].
  apply Forall_app. split; [|exact IH]. apply Forall_app. split; [apply show_token_no_cr; exact Ht|repeat constructor].
Qed.

Lemma scan_string_escape s : forall acc tail,
  scan_string (escape s ++ ch 34 :: tail) acc = SToken (TStrLit (rev acc ++ s)) tail.
Proof.
  induction s as [|c r IH]; intros acc tail.
  - cbn. rewrite rev_append_rev, !app_nil_r. reflexivity.
  - cbn [escape flat_map]. fold (escape r). destruct (c_is 34 c || c_is 92 c || is_nl c) eqn:E.
    + cbn. rewrite IH. cbn. rewrite <- app_assoc. reflexivity.
    + apply orb_false_elim in E. destruct E as [E E3]. apply orb_false_elim in E. destruct E as [E1 E2].
      cbn. rewrite E1, E2, E3, IH. cbn. rewrite <- app_assoc. reflexivity.
Qed.

Definition sp : ascii := ch 32.

Lemma scan_show_token t rest : wf_token t -> scan (show_token t ++ sp :: rest) = SToken t (sp :: rest).
Proof.
  destruct t; cbn [show_token wf_token]; intros W; try reflexivity.
  - (* identifier *)
    destruct W as ((c & r & -> & Ha) & Hall & Hk).
    change ((c :: r) ++ sp :: rest) with (c :: (r ++ sp :: rest)). rewrite alpha_dispatch by exact Ha.
    unfold scan_word. change (c :: r ++ sp :: rest) with ((c :: r) ++ sp :: rest).
    rewrite span_all; [|exact Hall|reflexivity]. rewrite Hk. reflexivity.
  - destruct b; reflexivity.
  - (* integer *)
    destruct W as (Hne & Hd & Hs & Hr). destruct ds as [|c r]; [congruence|].
    change ((c :: r) ++ sp :: rest) with (c :: (r ++ sp :: rest)). rewrite digit_dispatch by (inversion Hd; assumption).
    unfold scan_number. change (c :: r ++ sp :: rest) with ((c :: r) ++ sp :: rest).
    rewrite span_all; [|exact Hd|reflexivity]. cbn [c_is]. change (c_is 46 sp) with false. cbn iota.
    unfold mk_int. apply N.leb_le in Hr. rewrite Hr, Hs. reflexivity.
  - (* real *)
    destruct W as (Hne & Hi & Hd & Hs & Hl & Hr). destruct ip as [|c r]; [congruence|].
    rewrite <- app_assoc. change ((c :: r) ++ (ch 46 :: dp) ++ sp :: rest) with (c :: (r ++ ch 46 :: dp ++ sp :: rest)).
    rewrite digit_dispatch by (inversion Hi; assumption).
    unfold scan_number. change (c :: r ++ ch 46 :: dp ++ sp :: rest) with ((c :: r) ++ ch 46 :: dp ++ sp :: rest).
    rewrite span_all; [|exact Hi|reflexivity]. change (c_is 46 (ch 46)) with true. cbn iota.
    unfold scan_decimals. rewrite span_all; [|exact Hd|reflexivity]. change (c_is 46 sp) with false. cbn iota.
    unfold mk_real. assert (E : (18 <? List.length dp) = false) by (apply Nat.ltb_ge; exact Hl). rewrite E.
    apply N.leb_le in Hr. rewrite Hr, Hs. reflexivity.
  - (* string *)
    change ((ch 34 :: escape s ++ [ch 34]) ++ sp :: rest) with (ch 34 :: ((escape s ++ [ch 34]) ++ sp :: rest)).
    rewrite <- app_assoc. cbn [scan]. change (c_is 34 (ch 34)) with true. cbn iota.
    change ([ch 34] ++ sp :: rest) with (ch 34 :: sp :: rest). rewrite scan_string_escape. reflexivity.
Qed.

Lemma first_char t : wf_token t -> exists c r, show_token t = c :: r /\ is_ws c = false.
Proof.
  destruct t; cbn [show_token wf_token]; intros W; try (eexists _, _; split; reflexivity).
  - destruct W as ((c & r & -> & Ha) & _). exists c, r. split; [reflexivity|apply idpart_not_ws, alpha_idpart, Ha].
  - destruct b; eexists _, _; split; reflexivity.
  - destruct W as (Hne & Hd & _). destruct ds as [|c r]; [congruence|]. exists c, r. split; [reflexivity|].
    apply idpart_not_ws, digit_idpart. inversion Hd; assumption.
  - destruct W as (Hne & Hd & _). destruct ip as [|c r]; [congruence|]. exists c, (r ++ ch 46 :: dp). split; [reflexivity|].
    apply idpart_not_ws, digit_idpart. inversion Hd; assumption.
Qed.

Lemma show_cons t ts : show (t :: ts) = show_token t ++ sp :: show ts.
Proof. unfold show. cbn [flat_map]. rewrite <- app_assoc. reflexivity. Qed.

(* the space after a token: end of input, or "nothing yet" and the next token starts *)
Lemma scan_space ts : Forall wf_token ts -> scan (sp :: show ts) = match ts with [] => SEof | _ => SSkip (show ts) end.
Proof.
  intros W. destruct ts as [|t r]; [reflexivity|]. inversion W as [|? ? Wt _]; subst.
  destruct (first_char t Wt) as (c & r' & E & Hc). rewrite show_cons, E.
  change (scan (sp :: (c :: r') ++ sp :: show r)) with (scan_ws ((c :: r') ++ sp :: show r)).
  unfold scan_ws. cbn [app span]. rewrite Hc. reflexivity.
Qed.

Lemma show_token_len t : wf_token t -> 1 <= List.length (show_token t).
Proof. intros W. destruct (first_char t W) as (c & r & -> & _). cbn. lia. Qed.

Lemma lex_loop_show ts : Forall wf_token ts -> forall fuel, List.length (show ts) < fuel -> lex_loop fuel (show ts) = LOk ts.
Proof.
  induction 1 as [|t r Wt Wr IH]; intros fuel Hf.
  - destruct fuel; [lia|]. reflexivity.
  - rewrite show_cons in *. rewrite app_length in Hf. cbn [List.length] in Hf. pose proof (show_token_len t Wt) as L1.
    destruct fuel as [|f]; [lia|]. cbn [lex_loop]. rewrite scan_show_token by exact Wt.
    destruct f as [|f']; [lia|]. cbn [lex_loop]. rewrite scan_space by exact Wr.
    destruct r as [|t' r'].
    + reflexivity.
    + rewrite IH by lia. reflexivity.
Qed.

Theorem lex_show ts : Forall wf_token ts -> lex (show ts) = LOk ts.
Proof.
  intros W. unfold lex. rewrite norm_nl_id by (apply show_no_cr; exact W). apply lex_loop_show; [exact W|lia].
Qed.

(* examples: the hypotheses are satisfiable by non-trivial values *)
Example wf_tokens_example :
  Forall wf_token [TVoid; TId (la "voidx"); TId (la "classy"); TId (la "_r2"); TLParen; TRealLit (la "1") (la "50"); TLtEq;
                   TIntLit (la "9223372036854775807"); TImpl; TStrLit (la "a""b\"); TBoolLit true; TRealLit (la "0") (la "5")].
Proof.
  repeat constructor; cbn; try (eexists _, _; split; reflexivity); try discriminate; try (vm_compute; congruence);
    repeat constructor.
Qed.

Example lex_keyword_prefixes :
  lex (la "void voidx vo or tp tpx this true truex 007 1. .5 1.5 /* ** */ // c") =
  LOk [TVoid; TId (la "voidx"); TId (la "vo"); TOr; TTp; TId (la "tpx"); TId (la "this"); TBoolLit true; TId (la "truex");
       TIntLit (la "7"); TRealLit (la "1") []; TRealLit (la "0") (la "5"); TRealLit (la "1") (la "5")].
Proof. vm_compute. reflexivity. Qed.

Example lex_errors :
  lex (la "/* abc") = LErr EUnterminatedComment /\ lex (la """abc") = LErr EUnterminatedString /\
  lex (la "99999999999999999999999") = LErr ENumericRange /\ lex (la "1.5.2") = LErr EInvalidNumeric /\
  lex (la ".0000000000000000001") = LErr ENumericRange /\ lex (la "a # b") = LErr EInvalidToken.
Proof. vm_compute. repeat split; reflexivity. Qed.
