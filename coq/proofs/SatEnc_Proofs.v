(* Proofs about the model coq/smt/SatEnc.v of sat_core's clause encodings (property C13).

   Vocabulary
     models a s      total assignment a satisfies every stored clause of s and agrees with its root values
     exact a s       models a s, and every cached expression literal has exactly the value of its formula under a
                     (at-most-one / exactly-one literals are only implied-by in an arbitrary model: they are one-sided
                     reifications; the exact models are those where they are not needlessly false)
     grows s s'      s' is well-formed, keeps the variables, cache entries and root values of s and has no new model
     ext s s'        grows s s', and every exact model of s extends -- changing fresh variables only -- to an exact
                     model of s': s' is a conservative extension of s
   For (s', x) = new_X s args the results have the shape  ext s s' /\ res s' x [[X]] args  where
     res2 s' x F     x is an existing literal and x = F in every model of s'
     res1 s' x F     x is an existing literal, x -> F in every model of s' and x = F in every exact model of s'.
   Each filtering loop (new_clause / new_disj, new_conj, the cardinality constraints) returns, unless it stops early, the
   unassigned arguments (`kept`); every constraint depends only on its true (a conjunction: false) arguments, so it means
   the same over the kept list.
   Every construct ends by caching its literal: ext_emplace turns "the literal is sound in every model, and the exact
   models of the state before extend to models where it is exact" into ext, and the entry then gives res (cached).
   The statements of Section Enc are for every std::sort and every ceiling root that meet the contract `externals`. *)
From Coq Require Import List Bool Arith Lia Permutation Sorted.
From ORatio Require Import smt.SatEnc.
Import ListNotations.

Lemma lit_eqb_eq : forall p q, lit_eqb p q = true <-> p = q.
Proof.
  intros [v b] [w c]; unfold lit_eqb; cbn. rewrite andb_true_iff, Nat.eqb_eq, eqb_true_iff.
  split; [intros [-> ->]; reflexivity | intros H; inversion H; auto].
Qed.

Lemma lit_eqb_refl : forall p, lit_eqb p p = true.
Proof. intros; apply lit_eqb_eq; reflexivity. Qed.

Lemma lit_eqb_neq : forall p q, lit_eqb p q = false <-> p <> q.
Proof. intros p q; rewrite <- lit_eqb_eq. destruct (lit_eqb p q); split; congruence. Qed.

Lemma lneg_invol : forall p, lneg (lneg p) = p.
Proof. intros [v b]; unfold lneg; cbn; rewrite negb_involutive; reflexivity. Qed.

Lemma lneg_neq : forall p, lneg p <> p.
Proof. intros [v []] H; inversion H. Qed.

Lemma eval_lneg : forall a p, eval a (lneg p) = negb (eval a p).
Proof. intros a [v []]; unfold eval, lneg; cbn; [reflexivity | rewrite negb_involutive; reflexivity]. Qed.

Lemma lit_idx_inj : forall p q, lit_idx p = lit_idx q -> p = q.
Proof.
  intros [v b] [w c]; unfold lit_idx; cbn; intros H.
  destruct b, c; try (assert (v = w) by lia; subst; reflexivity); exfalso; lia.
Qed.

Lemma lit_pos_eq : forall u u', lsign u = true -> lsign u' = true -> lvar u = lvar u' -> u = u'.
Proof. intros [v b] [v' b']; cbn; intros; subst; reflexivity. Qed.

Lemma lits_eqb_eq : forall l m, lits_eqb l m = true <-> l = m.
Proof.
  induction l as [|x l IH]; destruct m as [|y m]; cbn; try (split; discriminate); [tauto|].
  rewrite andb_true_iff, lit_eqb_eq, IH. split; [intros [-> ->]; reflexivity | intros H; inversion H; auto].
Qed.

Lemma key_eqb_eq : forall k k', key_eqb k k' = true <-> k = k'.
Proof.
  intros k k'; destruct k, k'; cbn; try (split; discriminate);
    rewrite ?andb_true_iff, ?Nat.eqb_eq, ?lit_eqb_eq, ?lits_eqb_eq;
    (split; [intuition congruence | intros H; inversion H; auto]).
Qed.

Lemma lookup_in : forall k m c, lookup k m = Some c -> In (k, c) m.
Proof.
  induction m as [|[k' c'] m IH]; cbn; intros c H; [discriminate|].
  destruct (key_eqb k k') eqn:E.
  - apply key_eqb_eq in E. inversion H; subst. left; reflexivity.
  - right; apply IH; exact H.
Qed.

Lemma lbool_eqb_eq : forall x y, lbool_eqb x y = true <-> x = y.
Proof. intros [] []; cbn; split; intros; try discriminate; reflexivity. Qed.

Definition lit_below (n : nat) (p : lit) : Prop := lvar p < n.

Definition key_below (n : nat) (k : key) : Prop :=
  match k with
  | KVar v => v < n
  | KEq x y => lit_below n x /\ lit_below n y
  | KConj l | KDisj l | KAmo l | KExct l => Forall (lit_below n) l
  end.

(* what holds of a cached literal in EVERY model *)
Definition key_sound (a : asg) (k : key) (c : lit) : Prop :=
  match k with
  | KVar _ => True
  | KEq x y => eval a c = eq_sem a x y
  | KConj l => eval a c = conj_sem a l
  | KDisj l => eval a c = disj_sem a l
  | KAmo l => eval a c = true -> amo_sem a l = true
  | KExct l => eval a c = true -> exct_sem a l = true
  end.

(* what holds in an exact model *)
Definition key_exact (a : asg) (k : key) (c : lit) : Prop :=
  match k with
  | KVar _ => True
  | KEq x y => eval a c = eq_sem a x y
  | KConj l => eval a c = conj_sem a l
  | KDisj l => eval a c = disj_sem a l
  | KAmo l => eval a c = amo_sem a l
  | KExct l => eval a c = exct_sem a l
  end.

Record wf (s : state) : Prop := mkWf {
  wf_root0 : root s 0 = LFalse;
  wf_nv : 0 < nvars s;
  wf_root : forall v, nvars s <= v -> root s v = LUndef;
  wf_clauses : forall c p, In c (clauses s) -> In p c -> lit_below (nvars s) p;
  wf_exprs : forall k c, In (k, c) (exprs s) -> key_below (nvars s) k /\ lit_below (nvars s) c;
  wf_sound : forall a, models a s -> forall k c, In (k, c) (exprs s) -> key_sound a k c }.

Definition exact (a : asg) (s : state) : Prop :=
  models a s /\ forall k c, In (k, c) (exprs s) -> key_exact a k c.

Definition agree_below (n : nat) (a a' : asg) : Prop := forall v, v < n -> a v = a' v.

Record grows (s s' : state) : Prop := mkGrows {
  g_wf : wf s';
  g_nv : nvars s <= nvars s';
  g_mono : forall a, models a s' -> models a s;
  g_exprs : incl (exprs s) (exprs s');
  g_root : root s' = root s }.          (* requesting a literal assigns nothing at root level *)

Record ext (s s' : state) : Prop := mkExt {
  ext_grows : grows s s';
  ext_cons : forall a, exact a s -> exists a', agree_below (nvars s) a a' /\ exact a' s' }.

Definition ext_wf s s' (E : ext s s') := g_wf _ _ (ext_grows _ _ E).
Definition ext_nv s s' (E : ext s s') := g_nv _ _ (ext_grows _ _ E).
Definition ext_mono s s' (E : ext s s') := g_mono _ _ (ext_grows _ _ E).
Definition ext_exprs s s' (E : ext s s') := g_exprs _ _ (ext_grows _ _ E).
Definition ext_root s s' (E : ext s s') := g_root _ _ (ext_grows _ _ E).

Lemma grows_trans : forall s1 s2 s3, grows s1 s2 -> grows s2 s3 -> grows s1 s3.
Proof.
  intros s1 s2 s3 A B; constructor.
  - apply (g_wf _ _ B).
  - pose proof (g_nv _ _ A); pose proof (g_nv _ _ B); lia.
  - intros a M; apply (g_mono _ _ A), (g_mono _ _ B), M.
  - eapply incl_tran; [apply (g_exprs _ _ A) | apply (g_exprs _ _ B)].
  - rewrite (g_root _ _ B); apply (g_root _ _ A).
Qed.

Lemma agree_below_refl : forall n a, agree_below n a a.
Proof. intros n a v _; reflexivity. Qed.

Lemma agree_below_trans : forall n m a b c, n <= m -> agree_below n a b -> agree_below m b c -> agree_below n a c.
Proof. intros n m a b c L H1 H2 v Hv. rewrite H1 by exact Hv. apply H2; lia. Qed.

Lemma agree_below_le : forall n m a b, n <= m -> agree_below m a b -> agree_below n a b.
Proof. intros n m a b L H v Hv; apply H; lia. Qed.

Lemma eval_agree : forall n a a' p, agree_below n a a' -> lit_below n p -> eval a p = eval a' p.
Proof. intros n a a' p H L; unfold eval; rewrite (H _ L); reflexivity. Qed.

Lemma lit_below_le : forall n m p, n <= m -> lit_below n p -> lit_below m p.
Proof. unfold lit_below; intros; lia. Qed.

Lemma Forall_below_le : forall n m l, n <= m -> Forall (lit_below n) l -> Forall (lit_below m) l.
Proof. intros n m l L H; eapply Forall_impl; [|exact H]; intros p; apply lit_below_le; exact L. Qed.

Lemma key_below_le : forall n m k, n <= m -> key_below n k -> key_below m k.
Proof.
  intros n m k L; destruct k; cbn; try (apply Forall_below_le; exact L).
  - lia.
  - intros [H1 H2]; split; eapply lit_below_le; eauto.
Qed.

Lemma forallb_agree : forall n a a' l, agree_below n a a' -> Forall (lit_below n) l -> forallb (eval a) l = forallb (eval a') l.
Proof.
  intros n a a' l H F; induction F as [|p l Hp F IH]; cbn; [reflexivity|].
  rewrite (eval_agree _ _ _ _ H Hp), IH; reflexivity.
Qed.

Lemma existsb_agree : forall n a a' l, agree_below n a a' -> Forall (lit_below n) l -> existsb (eval a) l = existsb (eval a') l.
Proof.
  intros n a a' l H F; induction F as [|p l Hp F IH]; cbn; [reflexivity|].
  rewrite (eval_agree _ _ _ _ H Hp), IH; reflexivity.
Qed.

Lemma count_true_agree : forall n a a' l, agree_below n a a' -> Forall (lit_below n) l -> count_true a l = count_true a' l.
Proof.
  intros n a a' l H F; unfold count_true. f_equal. apply filter_ext_in. intros p Hp.
  rewrite Forall_forall in F. apply (eval_agree _ _ _ _ H), F. apply nodup_In in Hp; exact Hp.
Qed.

Lemma amo_sem_agree : forall n a a' l, agree_below n a a' -> Forall (lit_below n) l -> amo_sem a l = amo_sem a' l.
Proof. intros; unfold amo_sem; erewrite count_true_agree; eauto. Qed.

Lemma exct_sem_agree : forall n a a' l, agree_below n a a' -> Forall (lit_below n) l -> exct_sem a l = exct_sem a' l.
Proof. intros; unfold exct_sem; erewrite count_true_agree; eauto. Qed.

Lemma key_exact_agree : forall n a a' k c, agree_below n a a' -> key_below n k -> lit_below n c ->
  key_exact a k c -> key_exact a' k c.
Proof.
  intros n a a' k c H Kb Cb; destruct k; cbn in *; auto; rewrite <- (eval_agree _ _ _ _ H Cb).
  - destruct Kb as [K1 K2]; unfold eq_sem; rewrite <- (eval_agree _ _ _ _ H K1), <- (eval_agree _ _ _ _ H K2); auto.
  - unfold conj_sem; rewrite <- (forallb_agree _ _ _ _ H Kb); auto.
  - unfold disj_sem; rewrite <- (existsb_agree _ _ _ _ H Kb); auto.
  - rewrite <- (amo_sem_agree _ _ _ _ H Kb); auto.
  - rewrite <- (exct_sem_agree _ _ _ _ H Kb); auto.
Qed.

Lemma models_agree : forall s a a', wf s -> agree_below (nvars s) a a' -> models a s -> models a' s.
Proof.
  intros s a a' W H [Ha Hc]; split.
  - intros v; specialize (Ha v). destruct (le_lt_dec (nvars s) v) as [L|L].
    + rewrite (wf_root _ W v L); exact I.
    + rewrite <- (H v L); exact Ha.
  - intros c Hin. unfold sat_clause. rewrite <- (existsb_agree (nvars s) a a' c H); [apply Hc; exact Hin|].
    apply Forall_forall; intros p Hp; eapply wf_clauses; eauto.
Qed.

Lemma exact_agree : forall s a a', wf s -> agree_below (nvars s) a a' -> exact a s -> exact a' s.
Proof.
  intros s a a' W H [M E]; split; [eapply models_agree; eauto|].
  intros k c Hin. destruct (wf_exprs _ W _ _ Hin) as [Kb Cb]. eapply key_exact_agree; eauto.
Qed.

Lemma exact_models : forall a s, exact a s -> models a s.
Proof. intros a s [M _]; exact M. Qed.

Lemma ext_refl : forall s, wf s -> ext s s.
Proof.
  intros s W; constructor.
  - constructor; auto. apply incl_refl.
  - intros a E; exists a; split; [apply agree_below_refl | exact E].
Qed.

Lemma ext_trans : forall s1 s2 s3, ext s1 s2 -> ext s2 s3 -> ext s1 s3.
Proof.
  intros s1 s2 s3 A B. constructor; [apply (grows_trans _ _ _ (ext_grows _ _ A) (ext_grows _ _ B))|].
  intros a E. destruct (ext_cons _ _ A a E) as [a2 [G2 E2]]. destruct (ext_cons _ _ B a2 E2) as [a3 [G3 E3]].
  exists a3; split; [|exact E3]. eapply agree_below_trans; [apply (ext_nv _ _ A) | exact G2 | exact G3].
Qed.

Lemma exact_restrict : forall s s' a, ext s s' -> exact a s' -> exact a s.
Proof.
  intros s s' a X [M E]; split; [apply (ext_mono _ _ X), M|].
  intros k c Hin; apply E, (ext_exprs _ _ X), Hin.
Qed.

(* two-sided: the literal equals its formula in every model *)
Definition res2 (s : state) (x : lit) (F : asg -> bool) : Prop :=
  lit_below (nvars s) x /\ forall a, models a s -> eval a x = F a.
(* one-sided: the literal implies its formula in every model and equals it in every exact model *)
Definition res1 (s : state) (x : lit) (F : asg -> bool) : Prop :=
  lit_below (nvars s) x /\ (forall a, models a s -> eval a x = true -> F a = true) /\ (forall a, exact a s -> eval a x = F a).

Lemma res2_ext : forall s s' x F, ext s s' -> res2 s x F -> res2 s' x F.
Proof.
  intros s s' x F X [B M]; split; [eapply lit_below_le; [apply (ext_nv _ _ X) | exact B]|].
  intros a Ma; apply M, (ext_mono _ _ X), Ma.
Qed.

Lemma res1_ext : forall s s' x F, ext s s' -> res1 s x F -> res1 s' x F.
Proof.
  intros s s' x F X [B [M E]]; split; [eapply lit_below_le; [apply (ext_nv _ _ X) | exact B]|]. split.
  - intros a Ma; apply M, (ext_mono _ _ X), Ma.
  - intros a Ea; apply E. eapply exact_restrict; eauto.
Qed.

Lemma res2_res1 : forall s x F, res2 s x F -> res1 s x F.
Proof.
  intros s x F [B M]; split; [exact B|]; split.
  - intros a Ma Ex; rewrite <- (M a Ma); exact Ex.
  - intros a [Ma _]; apply M, Ma.
Qed.

Lemma res2_eq : forall s x F G, (forall a, models a s -> F a = G a) -> res2 s x F -> res2 s x G.
Proof. intros s x F G H [B M]; split; [exact B|]. intros a Ma; rewrite (M a Ma); apply H, Ma. Qed.

Lemma res1_eq : forall s x F G, (forall a, models a s -> F a = G a) -> res1 s x F -> res1 s x G.
Proof.
  intros s x F G H [B [M E]]; split; [exact B|]; split.
  - intros a Ma Ex; rewrite <- (H a Ma); apply M; assumption.
  - intros a Ea; rewrite (E a Ea); apply H, Ea.
Qed.

(* what the user of a one-sided literal gets: when true it forces its formula, and it excludes no assignment that satisfies it *)
Lemma res1_not_excluded : forall s s' x F, ext s s' -> res1 s' x F -> (forall a a', agree_below (nvars s) a a' -> F a = F a') ->
  lit_below (nvars s') x /\ (forall a, models a s' -> eval a x = true -> F a = true) /\
  (forall a, exact a s -> F a = true -> exists a', agree_below (nvars s) a a' /\ exact a' s' /\ eval a' x = true).
Proof.
  intros s s' x F X [B [M R]] Inv. split; [exact B|]. split; [exact M|]. intros a E C. destruct (ext_cons _ _ X a E) as [a' [A E']].
  exists a'. split; [exact A|]. split; [exact E'|]. rewrite (R a' E'), <- (Inv a a' A). exact C.
Qed.

Lemma cached : forall s k c, wf s -> In (k, c) (exprs s) ->
  lit_below (nvars s) c /\ (forall a, models a s -> key_sound a k c) /\ (forall a, exact a s -> key_exact a k c).
Proof.
  intros s k c W Hin. split; [apply (wf_exprs _ W _ _ Hin)|]. split.
  - intros a M. apply (wf_sound _ W a M _ _ Hin).
  - intros a [_ E]. apply (E _ _ Hin).
Qed.

(* the keys of the two-sided constructs *)
Definition reifies (k : key) (F : asg -> bool) : Prop :=
  forall a c, (key_sound a k c <-> eval a c = F a) /\ (key_exact a k c <-> eval a c = F a).

Lemma cached_res2 : forall s k F c, wf s -> reifies k F -> In (k, c) (exprs s) -> res2 s c F.
Proof. intros s k F c W R Hin. destruct (cached s k c W Hin) as [B [M _]]. split; [exact B|]. intros a Ma. apply (proj1 (R a c)), M, Ma. Qed.

Lemma value_true_eval : forall s a p, agrees a s -> value s p = LTrue -> eval a p = true.
Proof.
  intros s a [v b] Ha H; unfold value in H; cbn in H; specialize (Ha v); unfold eval; cbn.
  destruct (root s v), b; try discriminate; rewrite Ha; reflexivity.
Qed.

Lemma value_false_eval : forall s a p, agrees a s -> value s p = LFalse -> eval a p = false.
Proof.
  intros s a [v b] Ha H; unfold value in H; cbn in H; specialize (Ha v); unfold eval; cbn.
  destruct (root s v), b; try discriminate; rewrite Ha; reflexivity.
Qed.

Lemma value_lneg_undef : forall s p, value s (lneg p) = LUndef <-> value s p = LUndef.
Proof. intros s [v b]; unfold value, lneg; cbn; destruct (root s v), b; cbn; split; intros; try discriminate; reflexivity. Qed.

Lemma value_undef_root : forall s p, value s p = LUndef <-> root s (lvar p) = LUndef.
Proof. intros s [v b]; unfold value; cbn; destruct (root s v), b; split; intros; try discriminate; reflexivity. Qed.

Lemma eval_TRUE : forall s a, wf s -> agrees a s -> eval a TRUE_lit = true.
Proof. intros s a W Ha; unfold eval, TRUE_lit; cbn. specialize (Ha 0). rewrite (wf_root0 _ W) in Ha. rewrite Ha; reflexivity. Qed.

Lemma eval_FALSE : forall s a, wf s -> agrees a s -> eval a FALSE_lit = false.
Proof. intros s a W Ha; unfold eval, FALSE_lit; cbn. specialize (Ha 0). rewrite (wf_root0 _ W) in Ha. exact Ha. Qed.

Lemma res2_TRUE : forall s, wf s -> res2 s TRUE_lit (fun _ => true).
Proof. intros s W; split; [apply (wf_nv _ W) | intros a [Ha _]; apply (eval_TRUE _ _ W Ha)]. Qed.

Lemma res2_FALSE : forall s, wf s -> res2 s FALSE_lit (fun _ => false).
Proof. intros s W; split; [apply (wf_nv _ W) | intros a [Ha _]; apply (eval_FALSE _ _ W Ha)]. Qed.

Lemma res2_lit : forall s x, lit_below (nvars s) x -> res2 s x (fun a => eval a x).
Proof. intros s x B; split; [exact B | reflexivity]. Qed.

Lemma agrees_set_root : forall s a x, value s x = LUndef ->
  (agrees a (set_root s (lvar x) (lsign x)) <-> agrees a s /\ eval a x = true).
Proof.
  intros s a x U. apply value_undef_root in U. unfold agrees, set_root; cbn. split.
  - intros H; split.
    + intros v; specialize (H v). destruct (Nat.eqb v (lvar x)) eqn:E; [apply Nat.eqb_eq in E; subst; rewrite U; exact I | exact H].
    + specialize (H (lvar x)). rewrite Nat.eqb_refl in H. unfold eval. destruct (lsign x); [exact H | rewrite H; reflexivity].
  - intros [H E] v. destruct (Nat.eqb v (lvar x)) eqn:V; [|apply H]. apply Nat.eqb_eq in V; subst.
    unfold eval in E. destruct (lsign x); [exact E | apply negb_true_iff in E; exact E].
Qed.

(* enqueueing an unassigned literal at root level *)
Lemma set_root_spec : forall s p, wf s -> value s p = LUndef -> lit_below (nvars s) p ->
  wf (set_root s (lvar p) (lsign p)) /\ forall a, models a (set_root s (lvar p) (lsign p)) <-> models a s /\ eval a p = true.
Proof.
  intros s p W U B.
  assert (P0 : lvar p <> 0) by (intros E0; apply value_undef_root in U; rewrite E0, (wf_root0 _ W) in U; discriminate).
  assert (MM : forall a, models a (set_root s (lvar p) (lsign p)) <-> models a s /\ eval a p = true).
  { intros a. unfold models. rewrite (agrees_set_root s a p U). cbn [clauses set_root]. tauto. }
  split; [|exact MM]. constructor; unfold set_root; cbn [root nvars clauses exprs].
  - destruct (Nat.eqb 0 (lvar p)) eqn:E; [apply Nat.eqb_eq in E; congruence | apply (wf_root0 _ W)].
  - apply (wf_nv _ W).
  - intros v L. destruct (Nat.eqb v (lvar p)) eqn:E; [apply Nat.eqb_eq in E; unfold lit_below in B; lia | apply (wf_root _ W), L].
  - apply (wf_clauses _ W).
  - apply (wf_exprs _ W).
  - intros a M. apply (wf_sound _ W), MM, M.
Qed.

Definition AMO (a : asg) (l : list lit) : Prop :=
  forall p q, In p l -> In q l -> eval a p = true -> eval a q = true -> p = q.

Lemma nodup_le1 : forall m : list lit, NoDup m -> (length m <= 1 <-> forall p q, In p m -> In q m -> p = q).
Proof.
  intros m ND. destruct m as [|x [|y m]]; cbn.
  - split; [intros _ p q [] | lia].
  - split; [intros _ p q [<-|[]] [<-|[]]; reflexivity | lia].
  - split; [lia|]. intros H. exfalso. inversion ND as [|? ? N _]; subst. apply N. left. apply H; auto.
Qed.

Lemma amo_sem_AMO : forall a l, amo_sem a l = true <-> AMO a l.
Proof.
  intros a l; unfold amo_sem, count_true.
  rewrite Nat.leb_le, (nodup_le1 _ (NoDup_filter (eval a) (NoDup_nodup lit_eq_dec l))). unfold AMO; split; intros H p q.
  - intros Hp Hq Ep Eq. apply H; apply filter_In; (split; [apply nodup_In|]; assumption).
  - intros Hp Hq. apply filter_In in Hp as [Hp Ep], Hq as [Hq Eq]. apply nodup_In in Hp, Hq. apply H; assumption.
Qed.

Lemma count_true_pos : forall a l, 1 <= count_true a l <-> exists p, In p l /\ eval a p = true.
Proof.
  intros a l; unfold count_true; split.
  - intros H. destruct (filter (eval a) (nodup lit_eq_dec l)) as [|p r] eqn:E; [cbn in H; lia|].
    assert (Hp : In p (filter (eval a) (nodup lit_eq_dec l))) by (rewrite E; left; reflexivity).
    apply filter_In in Hp as [Hp Fp]. apply nodup_In in Hp. eauto.
  - intros [p [Hp Fp]]. assert (In p (filter (eval a) (nodup lit_eq_dec l))) by (apply filter_In; split; [apply nodup_In|]; auto).
    destruct (filter (eval a) (nodup lit_eq_dec l)); [contradiction | cbn; lia].
Qed.

Lemma disj_sem_ex : forall a l, disj_sem a l = true <-> exists p, In p l /\ eval a p = true.
Proof. intros; unfold disj_sem; apply existsb_exists. Qed.

Lemma exct_sem_split : forall a l, exct_sem a l = amo_sem a l && disj_sem a l.
Proof.
  intros a l. apply eq_iff_eq_true. unfold exct_sem, amo_sem.
  rewrite andb_true_iff, Nat.eqb_eq, Nat.leb_le, disj_sem_ex, <- count_true_pos. lia.
Qed.

(* the distinct-literal semantics of exactly-one, characterised (at-most-one: amo_sem_AMO) *)
Lemma P_exct_sem : forall a ls, exct_sem a ls = true <->
  (exists p, In p ls /\ eval a p = true) /\ (forall p q, In p ls -> In q ls -> eval a p = true -> eval a q = true -> p = q).
Proof.
  intros a ls. rewrite exct_sem_split, andb_true_iff, amo_sem_AMO, disj_sem_ex. unfold AMO. tauto.
Qed.

Lemma AMO_incl : forall a l k, incl k l -> AMO a l -> AMO a k.
Proof. intros a l k I H p q Hp Hq; apply H; auto. Qed.

(* each constraint depends only on the set of its true (a conjunction: false) arguments *)
Lemma disj_sem_same : forall a l k, (forall y, eval a y = true -> (In y l <-> In y k)) -> disj_sem a l = disj_sem a k.
Proof.
  intros a l k H. apply eq_iff_eq_true. rewrite !disj_sem_ex.
  split; intros [p [Hp Ep]]; exists p; (split; [apply (H p Ep), Hp | exact Ep]).
Qed.

Lemma conj_sem_same : forall a l k, (forall y, eval a y = false -> (In y l <-> In y k)) -> conj_sem a l = conj_sem a k.
Proof.
  intros a l k H. apply eq_iff_eq_true. unfold conj_sem. rewrite !forallb_forall.
  split; intros F y Hy; destruct (eval a y) eqn:E; try reflexivity; apply (H y E) in Hy; rewrite <- E; apply F, Hy.
Qed.

Lemma amo_sem_same : forall a l k, (forall y, eval a y = true -> (In y l <-> In y k)) -> amo_sem a l = amo_sem a k.
Proof.
  intros a l k H. apply eq_iff_eq_true. rewrite !amo_sem_AMO.
  split; intros A p q Hp Hq Ep Eq; apply A; try assumption; first [apply (H p Ep), Hp | apply (H q Eq), Hq].
Qed.

Lemma exct_sem_same : forall a l k, (forall y, eval a y = true -> (In y l <-> In y k)) -> exct_sem a l = exct_sem a k.
Proof. intros; rewrite !exct_sem_split; f_equal; [apply amo_sem_same | apply disj_sem_same]; assumption. Qed.

Lemma perm_in_iff : forall (A : Type) (l l' : list A), Permutation l l' -> forall y, In y l <-> In y l'.
Proof. intros A l l' P y; split; apply Permutation_in; [|apply Permutation_sym]; exact P. Qed.

(* one argument true: the constraint says that every other (distinct) argument is false *)
Lemma amo_sem_one_true : forall a l x, In x l -> eval a x = true ->
  (amo_sem a l = true <-> forall y, In y l -> y <> x -> eval a y = false).
Proof.
  intros a l x Hx Fx; rewrite amo_sem_AMO; split.
  - intros H y Hy Ne. destruct (eval a y) eqn:Fy; [|reflexivity]. exfalso; apply Ne; apply H; auto.
  - intros H p q Hp Hq Fp Fq. destruct (lit_eq_dec p x) as [->|Np]; [|rewrite (H p Hp Np) in Fp; discriminate].
    destruct (lit_eq_dec q x) as [->|Nq]; [reflexivity | rewrite (H q Hq Nq) in Fq; discriminate].
Qed.

Lemma exct_sem_one_true : forall a l x, In x l -> eval a x = true -> exct_sem a l = amo_sem a l.
Proof.
  intros a l x Hx Fx; rewrite exct_sem_split. assert (disj_sem a l = true) by (apply disj_sem_ex; eauto).
  rewrite H, andb_true_r; reflexivity.
Qed.

Lemma existsb_lneg : forall a k, existsb (eval a) (map lneg k) = negb (forallb (eval a) k).
Proof. intros a; induction k as [|x k IH]; cbn; [reflexivity|]. rewrite eval_lneg, IH. destruct (eval a x); reflexivity. Qed.

(* Unless it stops early, each loop keeps the arguments that pass a test on their root value and differ from the last
   one kept. *)
Fixpoint keep (f : lit -> bool) (p : option lit) (ls : list lit) : list lit :=
  match ls with
  | [] => []
  | x :: r => if f x && negb (is_last x p) then x :: keep f (Some x) r else keep f p r
  end.

Lemma is_last_true : forall x p, is_last x p = true -> p = Some x.
Proof. intros x [q|]; cbn; intros H; [apply lit_eqb_eq in H; subst; reflexivity | discriminate]. Qed.

Lemma is_neg_last_true : forall x p, is_neg_last x p = true -> exists q, p = Some q /\ x = lneg q.
Proof. intros x [q|]; cbn; intros H; [apply lit_eqb_eq in H; eauto | discriminate]. Qed.

Lemma keep_in : forall f ls p y, In y (keep f p ls) -> In y ls /\ f y = true.
Proof.
  intros f; induction ls as [|x r IH]; intros p y H; cbn in H; [contradiction|].
  destruct (f x && negb (is_last x p)) eqn:E.
  - apply andb_true_iff in E as [E _]. destruct H as [<-|H]; [split; [left; reflexivity | exact E]|].
    apply IH in H as [H Fy]. split; [right; exact H | exact Fy].
  - apply IH in H as [H Fy]. split; [right; exact H | exact Fy].
Qed.

Lemma keep_cover : forall f ls p y, In y ls -> f y = true -> p <> Some y -> In y (keep f p ls).
Proof.
  intros f; induction ls as [|x r IH]; intros p y Hy Fy Np; [contradiction|]. cbn.
  destruct (lit_eq_dec x y) as [->|Ne].
  - rewrite Fy. destruct (is_last y p) eqn:E; [apply is_last_true in E; contradiction | left; reflexivity].
  - destruct Hy as [->|Hy]; [contradiction|]. destruct (f x && negb (is_last x p)); [right|]; apply IH; auto; congruence.
Qed.

Lemma keep_length : forall f ls p, length (keep f p ls) <= length ls.
Proof.
  intros f; induction ls as [|x r IH]; intros p; cbn; [lia|].
  destruct (f x && negb (is_last x p)); [specialize (IH (Some x)) | specialize (IH p)]; cbn; lia.
Qed.

(* sorted by lit::operator< (what std::sort gives), and strictly sorted *)
Definition lsorted : list lit -> Prop := StronglySorted (fun x y => lit_idx x <= lit_idx y).
Definition ssorted : list lit -> Prop := StronglySorted (fun x y => lit_idx x < lit_idx y).

Lemma ssorted_nodup : forall l, ssorted l -> NoDup l.
Proof.
  induction 1 as [|x l S IH F]; constructor; [|exact IH].
  intros Hin. rewrite Forall_forall in F. specialize (F x Hin). lia.
Qed.

(* on a list sorted by lit::operator< the comparison with the last literal kept removes every repetition *)
Lemma keep_sorted : forall f ls p, lsorted ls ->
  (forall q, p = Some q -> Forall (fun y => lit_idx q <= lit_idx y) ls) ->
  ssorted (keep f p ls) /\ (forall q, p = Some q -> Forall (fun y => lit_idx q < lit_idx y) (keep f p ls)).
Proof.
  intros f; induction ls as [|x r IH]; intros p SS Hp; cbn.
  - split; [constructor|]. intros; constructor.
  - inversion SS as [|? ? SSr Fx]; subst. destruct (f x && negb (is_last x p)) eqn:E.
    + apply andb_true_iff in E as [_ E]. apply negb_true_iff in E.
      destruct (IH (Some x) SSr) as [S' F']; [intros q Eq; inversion Eq; subst; exact Fx|].
      specialize (F' x eq_refl). split; [constructor; assumption|].
      intros q Eq. specialize (Hp q Eq). inversion Hp as [|? ? Hqx _]; subst.
      assert (Lt : lit_idx q < lit_idx x).
      { destruct (Nat.eq_dec (lit_idx q) (lit_idx x)) as [Ei|Ei]; [|lia]. apply lit_idx_inj in Ei. subst q.
        cbn in E. rewrite lit_eqb_refl in E. discriminate. }
      constructor; [exact Lt|]. apply (Forall_impl _ (fun y Hy => Nat.lt_trans _ _ _ Lt Hy) F').
    + apply (IH p SSr). intros q Eq. specialize (Hp q Eq). inversion Hp; assumption.
Qed.

(* what the loops leave of an argument list l none of whose literals has the root value t: its unassigned literals *)
Definition kept (s : state) (t : lbool) (l k : list lit) : Prop :=
  (forall x, In x k <-> In x l /\ value s x = LUndef) /\ (forall x, In x l -> value s x <> t).

Lemma kept_incl : forall s t l k, kept s t l k -> incl k l.
Proof. intros s t l k [K _] x Hx. apply K, Hx. Qed.

Lemma kept_undef : forall s t l k, kept s t l k -> Forall (fun x => value s x = LUndef) k.
Proof. intros s t l k [K _]. apply Forall_forall. intros x Hx. apply K, Hx. Qed.

(* among the literals with value b (b = true for clauses and cardinality constraints, false for conjunctions) *)
Lemma kept_args : forall s (b : bool) l k a, kept s (if b then LTrue else LFalse) l k -> agrees a s ->
  forall y, eval a y = b -> (In y l <-> In y k).
Proof.
  intros s b l k a [K N] Ha y Ey; split; [|intros Hy; apply K, Hy].
  intros Hy. apply K; split; [exact Hy|]. specialize (N y Hy).
  destruct (value s y) eqn:V; [rewrite (value_false_eval _ _ _ Ha V) in Ey | rewrite (value_true_eval _ _ _ Ha V) in Ey | reflexivity];
    subst b; contradiction.
Qed.

Lemma keep_kept : forall s (b : bool) ls l, Permutation ls l ->
  Forall (fun x => value s x <> (if b then LTrue else LFalse)) ls ->
  kept s (if b then LTrue else LFalse) l (keep (fun x => negb (lbool_eqb (value s x) (if b then LFalse else LTrue))) None ls).
Proof.
  intros s b ls l P F. rewrite Forall_forall in F. split.
  - intros x. rewrite <- (perm_in_iff _ _ _ P x). split.
    + intros Hx. apply keep_in in Hx as [Hx Fx]. split; [exact Hx|]. specialize (F x Hx).
      destruct b, (value s x); cbn in Fx; congruence.
    + intros [Hx Ux]. apply keep_cover; [exact Hx | rewrite Ux; destruct b; reflexivity | discriminate].
  - intros x Hx. apply F, (perm_in_iff _ _ _ P x), Hx.
Qed.

Lemma clause_filter_keep : forall s ls p k, clause_filter s p ls = Some k ->
  k = keep (fun x => negb (lbool_eqb (value s x) LFalse)) p ls /\ Forall (fun x => value s x <> LTrue) ls.
Proof.
  intros s; induction ls as [|x r IH]; intros p k H; cbn in H |- *; [injection H as <-; auto|].
  destruct (lbool_eqb (value s x) LTrue || is_neg_last x p) eqn:E1; [discriminate|]. apply orb_false_iff in E1 as [E1 _].
  assert (N : value s x <> LTrue) by (intros V; rewrite V in E1; discriminate).
  destruct (negb (lbool_eqb (value s x) LFalse) && negb (is_last x p)).
  - destruct (clause_filter s (Some x) r) as [k'|] eqn:E3; [|discriminate]. injection H as <-.
    destruct (IH _ _ E3) as [-> Fr]. auto.
  - destruct (IH _ _ H) as [-> Fr]. auto.
Qed.

Lemma conj_filter_keep : forall s ls p k, conj_filter s p ls = Some k ->
  k = keep (fun x => negb (lbool_eqb (value s x) LTrue)) p ls /\ Forall (fun x => value s x <> LFalse) ls.
Proof.
  intros s; induction ls as [|x r IH]; intros p k H; cbn in H |- *; [injection H as <-; auto|].
  destruct (lbool_eqb (value s x) LFalse || is_neg_last x p) eqn:E1; [discriminate|]. apply orb_false_iff in E1 as [E1 _].
  assert (N : value s x <> LFalse) by (intros V; rewrite V in E1; discriminate).
  destruct (negb (lbool_eqb (value s x) LTrue) && negb (is_last x p)).
  - destruct (conj_filter s (Some x) r) as [k'|] eqn:E3; [|discriminate]. injection H as <-.
    destruct (IH _ _ E3) as [-> Fr]. auto.
  - destruct (IH _ _ H) as [-> Fr]. auto.
Qed.

(* the loop of the cardinality constraints stops at the first argument x that is true at root, with the negations of the
   arguments kept so far and of all later arguments other than x *)
Lemma amo_scan_spec : forall s ls p acc,
  match amo_scan s p acc ls with
  | ScanList k => k = rev acc ++ keep (fun x => negb (lbool_eqb (value s x) LFalse)) p ls /\ Forall (fun x => value s x <> LTrue) ls
  | ScanConj o => exists pre x post, ls = pre ++ x :: post /\ value s x = LTrue /\ Forall (fun y => value s y <> LTrue) pre /\
      o = map lneg (rev acc ++ keep (fun x => negb (lbool_eqb (value s x) LFalse)) p pre) ++ map lneg (filter (fun y => negb (lit_eqb y x)) post)
  end.
Proof.
  intros s; induction ls as [|x r IH]; intros p acc; cbn.
  - rewrite app_nil_r; auto.
  - destruct (lbool_eqb (value s x) LTrue) eqn:E1.
    + apply lbool_eqb_eq in E1. exists [], x, r. cbn. rewrite app_nil_r. auto.
    + assert (N : value s x <> LTrue) by (intros V; rewrite V in E1; discriminate).
      destruct (negb (lbool_eqb (value s x) LFalse) && negb (is_last x p)) eqn:E2.
      * specialize (IH (Some x) (x :: acc)). cbn [rev] in IH. destruct (amo_scan s (Some x) (x :: acc) r).
        -- destruct IH as [pre [y [post [-> [V [Fp ->]]]]]]. exists (x :: pre), y, post. cbn [keep]. rewrite E2, <- !app_assoc. auto.
        -- destruct IH as [-> Fr]. rewrite <- app_assoc. auto.
      * specialize (IH p acc). destruct (amo_scan s p acc r).
        -- destruct IH as [pre [y [post [-> [V [Fp ->]]]]]]. exists (x :: pre), y, post. cbn [keep]. rewrite E2. auto.
        -- destruct IH as [-> Fr]. auto.
Qed.

Definition optl (p : option lit) : list lit := match p with Some q => [q] | None => [] end.

Lemma clause_filter_none : forall s ls p, clause_filter s p ls = None ->
  forall a, agrees a s -> existsb (eval a) (optl p ++ ls) = true.
Proof.
  intros s; induction ls as [|x r IH]; intros p H a Ha; cbn in H; [discriminate|].
  destruct (lbool_eqb (value s x) LTrue || is_neg_last x p) eqn:E1.
  - apply orb_true_iff in E1 as [E|E].
    + apply lbool_eqb_eq in E. rewrite existsb_app; cbn. rewrite (value_true_eval _ _ _ Ha E). rewrite orb_true_r; reflexivity.
    + apply is_neg_last_true in E as [q [-> ->]]. cbn. rewrite eval_lneg. destruct (eval a q); reflexivity.
  - destruct (negb (lbool_eqb (value s x) LFalse) && negb (is_last x p)) eqn:E2.
    + destruct (clause_filter s (Some x) r) eqn:E3; [discriminate|].
      specialize (IH _ E3 a Ha). cbn in IH. rewrite existsb_app; cbn. rewrite IH. rewrite orb_true_r; reflexivity.
    + specialize (IH _ H a Ha). rewrite existsb_app in *. cbn. apply orb_true_iff in IH as [IH|IH]; rewrite IH; rewrite ?orb_true_r; reflexivity.
Qed.

Lemma conj_filter_none : forall s ls p, conj_filter s p ls = None ->
  forall a, agrees a s -> forallb (eval a) (optl p ++ ls) = false.
Proof.
  intros s; induction ls as [|x r IH]; intros p H a Ha; cbn in H; [discriminate|].
  destruct (lbool_eqb (value s x) LFalse || is_neg_last x p) eqn:E1.
  - apply orb_true_iff in E1 as [E|E].
    + apply lbool_eqb_eq in E. rewrite forallb_app; cbn. rewrite (value_false_eval _ _ _ Ha E). rewrite andb_false_r; reflexivity.
    + apply is_neg_last_true in E as [q [-> ->]]. cbn. rewrite eval_lneg. destruct (eval a q); reflexivity.
  - destruct (negb (lbool_eqb (value s x) LTrue) && negb (is_last x p)) eqn:E2.
    + destruct (conj_filter s (Some x) r) eqn:E3; [discriminate|].
      specialize (IH _ E3 a Ha). cbn in IH. rewrite forallb_app; cbn. rewrite IH. rewrite andb_false_r; reflexivity.
    + specialize (IH _ H a Ha). rewrite forallb_app in *. cbn. apply andb_false_iff in IH as [IH|IH]; rewrite IH; rewrite ?andb_false_r; reflexivity.
Qed.

(* the loops run on a permutation ls (the sorted copy) of the argument list l *)
Lemma clause_filter_taut : forall s ls l, Permutation ls l -> clause_filter s None ls = None ->
  forall a, agrees a s -> disj_sem a l = true.
Proof.
  intros s ls l P F a Ha. rewrite <- (disj_sem_same a ls l (fun y _ => perm_in_iff _ _ _ P y)).
  apply (clause_filter_none _ _ _ F a Ha).
Qed.

Lemma clause_filter_kept : forall s ls l k, Permutation ls l -> clause_filter s None ls = Some k -> kept s LTrue l k.
Proof. intros s ls l k P F. destruct (clause_filter_keep _ _ _ _ F) as [-> N]. exact (keep_kept s true ls l P N). Qed.

Lemma conj_filter_contra : forall s ls l, Permutation ls l -> conj_filter s None ls = None ->
  forall a, agrees a s -> conj_sem a l = false.
Proof.
  intros s ls l P F a Ha. rewrite <- (conj_sem_same a ls l (fun y _ => perm_in_iff _ _ _ P y)).
  apply (conj_filter_none _ _ _ F a Ha).
Qed.

Lemma conj_filter_kept : forall s ls l k, Permutation ls l -> conj_filter s None ls = Some k -> kept s LFalse l k.
Proof. intros s ls l k P F. destruct (conj_filter_keep _ _ _ _ F) as [-> N]. exact (keep_kept s false ls l P N). Qed.

Lemma scan_list_kept : forall s ls l k, Permutation ls l -> lsorted ls ->
  amo_scan s None [] ls = ScanList k -> kept s LTrue l k /\ NoDup k /\ length k <= length l.
Proof.
  intros s ls l k P SS H. pose proof (amo_scan_spec s ls None []) as Sp. rewrite H in Sp. destruct Sp as [-> N]. cbn [rev app].
  split; [exact (keep_kept s true ls l P N)|]. split; [|rewrite <- (Permutation_length P); apply keep_length].
  apply ssorted_nodup, (keep_sorted _ ls None SS). intros q E; discriminate.
Qed.

(* an argument x is true at root: both cardinality constraints say that every other argument is false *)
Lemma scan_conj_sem : forall s ls l o, Permutation ls l -> amo_scan s None [] ls = ScanConj o ->
  (forall z, In z o -> exists y, In y l /\ z = lneg y) /\
  forall a, agrees a s -> amo_sem a l = conj_sem a o /\ exct_sem a l = conj_sem a o.
Proof.
  intros s ls l o P H. pose proof (amo_scan_spec s ls None []) as Sp. rewrite H in Sp.
  destruct Sp as [pre [x [post [E [Vx [Np ->]]]]]]. cbn [rev app]. rewrite Forall_forall in Np.
  set (kp := keep _ None pre).
  assert (Mem : forall z, In z (map lneg kp ++ map lneg (filter (fun y => negb (lit_eqb y x)) post)) <->
                          exists y, z = lneg y /\ (In y kp \/ In y post /\ y <> x)).
  { intros z. rewrite in_app_iff, !in_map_iff. split.
    - intros [[y [<- Hy]]|[y [<- Hy]]]; exists y; (split; [reflexivity|]); [left; exact Hy | right].
      apply filter_In in Hy as [Hy Ne]. apply negb_true_iff, lit_eqb_neq in Ne. auto.
    - intros [y [-> [Hy|[Hy Ne]]]]; [left | right]; exists y; (split; [reflexivity|]); [exact Hy|].
      apply filter_In. split; [exact Hy | apply negb_true_iff, lit_eqb_neq, Ne]. }
  assert (Sub : forall y, In y kp \/ In y post /\ y <> x -> In y ls /\ y <> x).
  { intros y [Hy|[Hy Ne]]; (split; [rewrite E; apply in_or_app|]); [left | | right; right; exact Hy | exact Ne].
    - apply (keep_in _ _ _ _ Hy).
    - intros ->. apply keep_in in Hy as [Hy _]. apply (Np x Hy), Vx. }
  assert (Hx : In x ls) by (rewrite E; apply in_elt).
  split.
  - intros z Hz. apply Mem in Hz as [y [-> Hy]]. exists y. split; [apply (perm_in_iff _ _ _ P), Sub, Hy | reflexivity].
  - intros a Ha. pose proof (value_true_eval _ _ _ Ha Vx) as Ex.
    rewrite <- (amo_sem_same a ls l), <- (exct_sem_same a ls l) by (intros y _; apply perm_in_iff, P).
    rewrite (exct_sem_one_true a ls x Hx Ex).
    cut (amo_sem a ls = conj_sem a (map lneg kp ++ map lneg (filter (fun y => negb (lit_eqb y x)) post))); [auto|].
    apply eq_iff_eq_true. rewrite (amo_sem_one_true a ls x Hx Ex). unfold conj_sem. rewrite forallb_forall. split.
    + intros F z Hz. apply Mem in Hz as [y [-> Hy]]. apply Sub in Hy as [Hy Ne]. rewrite eval_lneg, (F y Hy Ne). reflexivity.
    + intros F y Hy Ne.
      assert (Fo : forall y0, In y0 kp \/ In y0 post /\ y0 <> x -> eval a y0 = false).
      { intros y0 Hy0. apply negb_true_iff. rewrite <- eval_lneg. apply F, Mem. exists y0; auto. }
      rewrite E in Hy. apply in_app_or in Hy as [Hy|[Hy|Hy]]; [| congruence | apply Fo; auto].
      destruct (value s y) eqn:Vy; [apply (value_false_eval _ _ _ Ha Vy) | destruct (Np y Hy Vy) |].
      apply Fo; left. apply keep_cover; [exact Hy | rewrite Vy; reflexivity | discriminate].
Qed.

Definition upd (a : asg) (v : nat) (b : bool) : asg := fun w => if Nat.eqb w v then b else a w.

Lemma agree_upd : forall n a v b, n <= v -> agree_below n a (upd a v b).
Proof. intros n a v b L w Hw; unfold upd. destruct (Nat.eqb w v) eqn:E; [apply Nat.eqb_eq in E; lia | reflexivity]. Qed.

Lemma eval_upd_ctr : forall a n b, eval (upd a n b) (L n true) = b.
Proof. intros; unfold eval, upd; cbn. rewrite Nat.eqb_refl; reflexivity. Qed.

Lemma new_var_eq : forall s, new_var s = (fst (new_var s), nvars s).
Proof. reflexivity. Qed.

Lemma new_var_wf : forall s, wf s -> wf (fst (new_var s)).
Proof.
  intros s W; constructor; cbn; try apply W.
  - pose proof (wf_nv _ W); lia.
  - intros v L; apply (wf_root _ W); lia.
  - intros c p Hc Hp. eapply lit_below_le; [|eapply wf_clauses; eauto]. lia.
  - intros k c [E|Hin].
    + inversion E; subst; cbn; unfold lit_below; cbn; lia.
    + destruct (wf_exprs _ W _ _ Hin) as [K C]. split; [eapply key_below_le; [|exact K] | eapply lit_below_le; [|exact C]]; lia.
  - intros a M k c [E|Hin]; [inversion E; subst; exact I|]. apply (wf_sound _ W a); [exact M | exact Hin].
Qed.

Lemma new_var_models : forall s a, models a (fst (new_var s)) <-> models a s.
Proof. intros; unfold models, agrees; cbn; tauto. Qed.

Lemma new_var_exact : forall s a, exact a (fst (new_var s)) <-> exact a s.
Proof.
  intros s a; unfold exact; rewrite new_var_models; cbn; split; intros [M E]; (split; [exact M|]).
  - intros k c Hin; apply E; right; exact Hin.
  - intros k c [Eq|Hin]; [inversion Eq; subst; exact I | apply E; exact Hin].
Qed.

Lemma new_var_ext : forall s, wf s -> ext s (fst (new_var s)).
Proof.
  intros s W; constructor; [constructor|].
  - apply new_var_wf, W.
  - cbn; lia.
  - intros a; apply new_var_models.
  - cbn; intros x Hx; right; exact Hx.
  - reflexivity.
  - intros a E; exists a; split; [apply agree_below_refl | apply new_var_exact, E].
Qed.

Lemma exact_emplace : forall s k c a, exact a (emplace s k c) <-> exact a s /\ key_exact a k c.
Proof.
  intros s k c a. unfold exact. cbn [exprs emplace]. split.
  - intros [M E]. split; [split; [exact M|] | apply E; left; reflexivity]. intros k0 c0 Hin; apply E; right; exact Hin.
  - intros [[M E] Ke]. split; [exact M|]. intros k0 c0 [Eq|Hin]; [inversion Eq; subst; exact Ke | apply E, Hin].
Qed.

(* Caching c under k once c is sound for k in every model. If moreover the exact models of an earlier state s0 extend
   to exact models in which c is exact for k, the result is a conservative extension of s0. *)
Lemma ext_emplace : forall s0 s k c, grows s0 s -> key_below (nvars s) k -> lit_below (nvars s) c ->
  (forall a, models a s -> key_sound a k c) ->
  (forall a, exact a s0 -> exists a', agree_below (nvars s0) a a' /\ exact a' s /\ key_exact a' k c) ->
  ext s0 (emplace s k c).
Proof.
  intros s0 s k c G Kb Cb Snd Cons. pose proof (g_wf _ _ G) as W. constructor; [constructor|].
  - constructor; cbn; try apply W.
    + intros k0 c0 [E|Hin]; [inversion E; subst; auto | apply (wf_exprs _ W), Hin].
    + intros a M k0 c0 [E|Hin]; [inversion E; subst; apply Snd, M | apply (wf_sound _ W a M), Hin].
  - apply (g_nv _ _ G).
  - apply (g_mono _ _ G).
  - intros e He; right; apply (g_exprs _ _ G), He.
  - apply (g_root _ _ G).
  - intros a E. destruct (Cons a E) as [a' [A [E' Ke]]]. exists a'. split; [exact A|]. apply exact_emplace; auto.
Qed.

(* a fresh variable constrained by the clauses cs: an exact model extends as soon as some value of the variable satisfies cs *)
Lemma exact_upd : forall s s2 cs a b, wf s -> exprs s2 = exprs (fst (new_var s)) ->
  (forall a, models a s2 <-> models a s /\ forall c, In c cs -> sat_clause a c = true) ->
  exact a s -> (forall c, In c cs -> sat_clause (upd a (nvars s) b) c = true) -> exact (upd a (nvars s) b) s2.
Proof.
  intros s s2 cs a b W X MM E Hc.
  assert (E' : exact (upd a (nvars s) b) s) by (eapply exact_agree; [exact W | apply agree_upd; lia | exact E]).
  split; [apply MM; split; [apply E' | exact Hc]|]. rewrite X. apply new_var_exact, E'.
Qed.

(* the contract assumed of the external functions: std::sort (two comparators) and ceil(sqrt((double) n)) *)
Record externals (sortv sortl : list lit -> list lit) (csqrt : nat -> nat) : Prop := mkExternals {
  x_sortv_perm : forall l, Permutation (sortv l) l;
  x_sortl_perm : forall l, Permutation (sortl l) l;
  x_sortl_sorted : forall l, StronglySorted (fun x y => lit_idx x <= lit_idx y) (sortl l);
  x_csqrt : forall n, 4 <= n -> 2 <= csqrt n < n }.

(* every clause our constructs add contains two unassigned literals over different variables: it is stored (or a
   tautology) and never changes the root assignment *)
Definition two_undef (s : state) (c : list lit) : Prop :=
  exists x y, In x c /\ In y c /\ lvar x <> lvar y /\ value s x = LUndef /\ value s y = LUndef.

Lemma two_undef_root : forall s s' c, root s' = root s -> two_undef s c -> two_undef s' c.
Proof. intros s s' c R [x [y H]]; exists x, y; unfold value in *; rewrite R; exact H. Qed.

(* the clauses that define a fresh control variable: over it and older literals, one of them unassigned *)
Definition fresh_clause (s : state) (c : list lit) : Prop :=
  Forall (lit_below (S (nvars s))) c /\
  exists x y, In x c /\ In y c /\ lvar x = nvars s /\ lit_below (nvars s) y /\ value s y = LUndef.

Lemma fresh_clause_intro : forall s c x y, In x c -> In y c -> lvar x = nvars s -> lit_below (nvars s) y -> value s y = LUndef ->
  Forall (fun p => lvar p <= nvars s) c -> fresh_clause s c.
Proof.
  intros s c x y Hx Hy Vx By Uy F. split; [|exists x, y; auto].
  eapply Forall_impl; [|exact F]. intros p Hp. apply Nat.lt_succ_r, Hp.
Qed.

Lemma fresh_clause_two_undef : forall s c, wf s -> fresh_clause s c ->
  Forall (lit_below (nvars (fst (new_var s)))) c /\ two_undef (fst (new_var s)) c.
Proof.
  intros s c W [B [x [y [Hx [Hy [Vx [By Uy]]]]]]]. split; [exact B|]. exists x, y. repeat split; auto.
  - unfold lit_below in By; lia.
  - apply value_undef_root. rewrite Vx. apply (wf_root _ W); lia.
Qed.

Lemma init_wf : wf init_state.
Proof.
  constructor; cbn; auto.
  - intros v L. destruct v; [lia | reflexivity].
  - intros c p [].
  - intros k c [E|[]]. inversion E; subst. cbn. unfold lit_below; cbn. lia.
  - intros a _ k c [E|[]]. inversion E; subst. exact I.
Qed.

Lemma init_exact : exact (fun _ => false) init_state.
Proof.
  split; [split|].
  - intros v; cbn. destruct (Nat.eqb v 0); [reflexivity | exact I].
  - intros c [].
  - intros k c [E|[]]. inversion E; subst. exact I.
Qed.

Lemma eq_sem_sym : forall a l r, eq_sem a l r = eq_sem a r l.
Proof. intros; unfold eq_sem; destruct (eval a l), (eval a r); reflexivity. Qed.

Lemma reifies_eq : forall l r, reifies (if lit_ltb l r then KEq l r else KEq r l) (fun a => eq_sem a l r).
Proof. intros l r. destruct (lit_ltb l r); intros a c; cbn; [|rewrite (eq_sem_sym a r l)]; split; reflexivity. Qed.

Lemma eq_clauses_sem : forall a l r ctr,
  (forall c, In c (eq_clauses l r ctr) -> sat_clause a c = true) <-> eval a ctr = eq_sem a l r.
Proof.
  intros a l r ctr; unfold eq_clauses, eq_sem; split.
  - intros H.
    pose proof (H _ (or_introl eq_refl)) as H1.
    pose proof (H _ (or_intror (or_introl eq_refl))) as H2.
    pose proof (H _ (or_intror (or_intror (or_introl eq_refl)))) as H3.
    pose proof (H _ (or_intror (or_intror (or_intror (or_introl eq_refl))))) as H4.
    unfold sat_clause in *; cbn in *. rewrite ?eval_lneg in *.
    destruct (eval a ctr), (eval a l), (eval a r); cbn in *; try reflexivity; discriminate.
  - intros E c Hc. unfold sat_clause. cbn in Hc.
    destruct Hc as [<-|[<-|[<-|[<-|[]]]]]; cbn; rewrite ?eval_lneg, E; destruct (eval a l), (eval a r); reflexivity.
Qed.

Lemma conj_clauses_sem : forall a k ctr,
  (forall c, In c (conj_clauses k ctr) -> sat_clause a c = true) <-> eval a ctr = conj_sem a k.
Proof.
  intros a k ctr; unfold conj_clauses, conj_sem; split.
  - intros H. destruct (eval a ctr) eqn:Ec.
    + symmetry; apply forallb_forall. intros l Hl.
      assert (S : sat_clause a [lneg ctr; l] = true) by (apply H, in_or_app; left; apply in_map_iff; eauto).
      unfold sat_clause in S; cbn in S. rewrite eval_lneg, Ec in S. cbn in S. rewrite orb_false_r in S; exact S.
    + assert (S : sat_clause a (ctr :: map lneg k) = true) by (apply H, in_or_app; right; left; reflexivity).
      unfold sat_clause in S; cbn in S. rewrite Ec, existsb_lneg in S. cbn in S. apply negb_true_iff in S. congruence.
  - intros E c Hc. apply in_app_or in Hc as [Hc|[<-|[]]].
    + apply in_map_iff in Hc as [l [<- Hl]]. unfold sat_clause; cbn. rewrite eval_lneg, E.
      destruct (forallb (eval a) k) eqn:F; [|reflexivity]. rewrite forallb_forall in F. rewrite (F l Hl); reflexivity.
    + unfold sat_clause; cbn. rewrite existsb_lneg, E. destruct (forallb (eval a) k); reflexivity.
Qed.

Lemma disj_clauses_sem : forall a k ctr,
  (forall c, In c (disj_clauses k ctr) -> sat_clause a c = true) <-> eval a ctr = disj_sem a k.
Proof.
  intros a k ctr; unfold disj_clauses, disj_sem; split.
  - intros H. destruct (eval a ctr) eqn:Ec.
    + assert (S : sat_clause a (lneg ctr :: k) = true) by (apply H, in_or_app; right; left; reflexivity).
      unfold sat_clause in S; cbn in S. rewrite eval_lneg, Ec in S. cbn in S. congruence.
    + symmetry. destruct (existsb (eval a) k) eqn:F; [|reflexivity]. apply existsb_exists in F as [l [Hl Fl]].
      assert (S : sat_clause a [lneg l; ctr] = true) by (apply H, in_or_app; left; apply in_map_iff; eauto).
      unfold sat_clause in S; cbn in S. rewrite eval_lneg, Ec, Fl in S. discriminate.
  - intros E c Hc. apply in_app_or in Hc as [Hc|[<-|[]]].
    + apply in_map_iff in Hc as [l [<- Hl]]. unfold sat_clause; cbn. rewrite eval_lneg, E.
      destruct (eval a l) eqn:Fl; [|reflexivity]. cbn. rewrite orb_false_r. apply existsb_exists; eauto.
    + unfold sat_clause; cbn. rewrite eval_lneg, E. destruct (existsb (eval a) k); reflexivity.
Qed.

Lemma pair_clauses_in : forall ctr k c, In c (pair_clauses ctr k) ->
  exists y z, c = [lneg y; lneg z; lneg ctr] /\ In y k /\ In z k.
Proof.
  intros ctr; induction k as [|w r IH]; intros c Hc; cbn in Hc; [contradiction|]. apply in_app_or in Hc as [Hc|Hc].
  - apply in_map_iff in Hc as [z [<- Hz]]. exists w, z. split; [reflexivity|]. split; [left; reflexivity | right; exact Hz].
  - destruct (IH c Hc) as [y [z [E [Hy Hz]]]]. exists y, z. split; [exact E|]. split; right; assumption.
Qed.

Lemma pair_clauses_sem : forall a ctr k, NoDup k ->
  ((forall c, In c (pair_clauses ctr k) -> sat_clause a c = true) <-> (eval a ctr = true -> AMO a k)).
Proof.
  intros a ctr; induction k as [|x r IH]; intros ND; cbn [pair_clauses].
  - split; [intros _ _ p q [] | intros _ c []].
  - inversion ND as [|? ? Nx NDr]; subst. specialize (IH NDr). split.
    + intros H Ec. assert (Hr : AMO a r).
      { apply IH; [|exact Ec]. intros c Hc; apply H, in_or_app; right; exact Hc. }
      assert (Hx : forall y, In y r -> eval a x = true -> eval a y = true -> False).
      { intros y Hy Ex Ey. assert (S : sat_clause a [lneg x; lneg y; lneg ctr] = true).
        { apply H, in_or_app; left. apply in_map_iff. exists y; auto. }
        unfold sat_clause in S; cbn in S. rewrite !eval_lneg, Ex, Ey, Ec in S. discriminate. }
      intros p q [<-|Hp] [<-|Hq] Ep Eq; auto; try (exfalso; eauto; fail).
    + intros H c Hc. apply in_app_or in Hc as [Hc|Hc].
      * apply in_map_iff in Hc as [y [<- Hy]]. unfold sat_clause; cbn. rewrite !eval_lneg.
        destruct (eval a x) eqn:Ex, (eval a y) eqn:Ey, (eval a ctr) eqn:Ec; try reflexivity. exfalso.
        assert (x = y) by (apply (H eq_refl); [left; reflexivity | right; exact Hy | exact Ex | exact Ey]). subst; contradiction.
      * apply IH; [|exact Hc]. intros Ec. eapply AMO_incl; [|apply H, Ec]. intros y Hy; right; exact Hy.
Qed.

Lemma fresh_vars_length : forall n s, length (snd (fresh_vars n s)) = n.
Proof.
  induction n as [|n IH]; intros s; cbn [fresh_vars]; [reflexivity|].
  rewrite new_var_eq. specialize (IH (fst (new_var s))). destruct (fresh_vars n (fst (new_var s))) as [s2 r]. cbn in *. lia.
Qed.

Lemma fresh_vars_spec : forall n s s' us, wf s -> fresh_vars n s = (s', us) ->
  ext s s' /\ nvars s' = nvars s + n /\ NoDup us /\
  Forall (fun u => lsign u = true /\ nvars s <= lvar u < nvars s + n) us /\
  (forall a, exact a s' <-> exact a s).
Proof.
  induction n as [|n IH]; intros s s' us W H; cbn [fresh_vars] in H.
  - injection H as <- <-. split; [apply ext_refl, W|]. split; [lia|].
    split; [constructor|]. split; [constructor | reflexivity].
  - rewrite new_var_eq in H. destruct (fresh_vars n (fst (new_var s))) as [s2 r] eqn:FV. injection H as <- <-.
    destruct (IH _ _ _ (new_var_wf s W) FV) as [E [N [ND [F Ex]]]]. cbn [nvars new_var fst] in N, F.
    split; [eapply ext_trans; [apply new_var_ext, W | exact E]|].
    split; [lia|]. split; [|split].
    + constructor; [|exact ND]. intros Hin. rewrite Forall_forall in F. destruct (F _ Hin) as [_ Lu]. cbn in Lu. lia.
    + constructor; [cbn; split; [reflexivity | lia]|]. eapply Forall_impl; [|exact F]. cbn; intros u [Su Lu]; split; [exact Su | lia].
    + intros a. rewrite Ex. apply new_var_exact.
Qed.

(* every argument sits in one cell (row, column), and no two arguments share a cell *)
Record is_grid (cells : list (lit * lit * lit)) (k us vs : list lit) : Prop := mkGrid {
  gr_cover : forall z, In z k -> exists u v, In (z, u, v) cells;
  gr_in : forall z u v, In (z, u, v) cells -> In z k /\ In u us /\ In v vs;
  gr_cell : forall z z' u v, In (z, u, v) cells -> In (z', u, v) cells -> z = z';
  gr_arg : forall z u v u' v', In (z, u, v) cells -> In (z, u', v') cells -> u = u' /\ v = v' }.

Lemma row_cells_in : forall u row vs z u' v, In (z, u', v) (row_cells u row vs) -> u' = u /\ In z row /\ In v vs.
Proof.
  intros u; induction row as [|x row IH]; intros [|w vs] z u' v H; cbn in H; try contradiction.
  destruct H as [E|H]; [inversion E; subst; cbn; auto|]. destruct (IH _ _ _ _ H) as [E [Hz Hv]]. cbn; auto.
Qed.

Lemma row_cells_cover : forall u row vs z, length row <= length vs -> In z row -> exists v, In (z, u, v) (row_cells u row vs).
Proof.
  intros u; induction row as [|x row IH]; intros [|w vs] z Ln Hz; cbn in *; try contradiction; try lia.
  destruct Hz as [<-|Hz]; [exists w; left; reflexivity|]. destruct (IH vs z) as [v Hv]; [lia | exact Hz|]. exists v; right; exact Hv.
Qed.

Lemma row_cells_inj_v : forall u row vs z z' v, NoDup vs -> In (z, u, v) (row_cells u row vs) -> In (z', u, v) (row_cells u row vs) -> z = z'.
Proof.
  intros u; induction row as [|x row IH]; intros [|w vs] z z' v ND H1 H2; cbn in *; try contradiction.
  inversion ND as [|? ? Nw NDv]; subst.
  destruct H1 as [E1|H1], H2 as [E2|H2].
  - inversion E1; inversion E2; subst; reflexivity.
  - inversion E1; subst. apply row_cells_in in H2 as [_ [_ Hv]]. contradiction.
  - inversion E2; subst. apply row_cells_in in H1 as [_ [_ Hv]]. contradiction.
  - eapply IH; eauto.
Qed.

Lemma row_cells_inj_z : forall u row vs z v v', NoDup row -> In (z, u, v) (row_cells u row vs) -> In (z, u, v') (row_cells u row vs) -> v = v'.
Proof.
  intros u; induction row as [|x row IH]; intros [|w vs] z v v' ND H1 H2; cbn in *; try contradiction.
  inversion ND as [|? ? Nx NDr]; subst.
  destruct H1 as [E1|H1], H2 as [E2|H2].
  - inversion E1; inversion E2; subst; reflexivity.
  - inversion E1; subst. apply row_cells_in in H2 as [_ [Hz _]]. contradiction.
  - inversion E2; subst. apply row_cells_in in H1 as [_ [Hz _]]. contradiction.
  - eapply IH; eauto.
Qed.

Lemma nodup_app : forall (A : Type) (l1 l2 : list A), NoDup (l1 ++ l2) ->
  NoDup l1 /\ NoDup l2 /\ forall x, In x l1 -> In x l2 -> False.
Proof.
  intros A; induction l1 as [|y l1 IH]; intros l2 ND; cbn in ND; [split; [constructor | split; [exact ND | intros x []]]|].
  inversion ND as [|? ? Ny NDr]; subst. destruct (IH _ NDr) as [N1 [N2 D]]. split; [|split; [exact N2|]].
  - constructor; [intros H; apply Ny, in_or_app; left; exact H | exact N1].
  - intros x [<-|H1] H2; [apply Ny, in_or_app; right; exact H2 | eapply D; eauto].
Qed.

Lemma grid_cells_in : forall q vs us k z u v, In (z, u, v) (grid_cells q k us vs) -> In z k /\ In u us /\ In v vs.
Proof.
  intros q vs; induction us as [|u0 us IH]; intros k z u v H; cbn in H; [contradiction|].
  rewrite <- (firstn_skipn q k) at 1. rewrite in_app_iff. apply in_app_or in H as [H|H].
  - apply row_cells_in in H as [-> [Hz Hv]]. cbn; auto.
  - apply IH in H as [Hz [Hu Hv]]. cbn; auto.
Qed.

Lemma grid_cells_grid : forall q k us vs, length vs = q -> length k <= length us * q ->
  NoDup k -> NoDup us -> NoDup vs -> is_grid (grid_cells q k us vs) k us vs.
Proof.
  intros q k us vs Lv. revert k. induction us as [|u0 us IH]; intros k Ln NDk NDu NDv.
  - destruct k; [|cbn in Ln; lia]. constructor; cbn; intros; contradiction.
  - apply NoDup_cons_iff in NDu as [Nu NDu']. rewrite <- (firstn_skipn q k) in NDk. destruct (nodup_app _ _ _ NDk) as [ND1 [ND2 Dj]].
    destruct (IH (skipn q k)) as [C I G A]; [rewrite skipn_length; cbn in Ln; lia | assumption..|].
    constructor; [| apply grid_cells_in | |]; cbn [grid_cells].
    + intros z Hz. rewrite <- (firstn_skipn q k) in Hz. apply in_app_or in Hz as [Hz|Hz].
      * destruct (row_cells_cover u0 (firstn q k) vs z) as [v Hv]; [rewrite firstn_length; lia | exact Hz|].
        exists u0, v. apply in_or_app; left; exact Hv.
      * destruct (C z Hz) as [u [v Hv]]. exists u, v. apply in_or_app; right; exact Hv.
    + intros z z' u v H1 H2. apply in_app_or in H1 as [H1|H1]; apply in_app_or in H2 as [H2|H2].
      * pose proof (row_cells_in _ _ _ _ _ _ H1) as [-> _]. exact (row_cells_inj_v u0 _ vs z z' v NDv H1 H2).
      * pose proof (row_cells_in _ _ _ _ _ _ H1) as [-> _]. apply I in H2 as [_ [Hu _]]. contradiction.
      * pose proof (row_cells_in _ _ _ _ _ _ H2) as [-> _]. apply I in H1 as [_ [Hu _]]. contradiction.
      * eapply G; eauto.
    + intros z u v u' v' H1 H2. apply in_app_or in H1 as [H1|H1]; apply in_app_or in H2 as [H2|H2].
      * pose proof (row_cells_in _ _ _ _ _ _ H1) as [-> _]. pose proof (row_cells_in _ _ _ _ _ _ H2) as [-> _].
        split; [reflexivity | exact (row_cells_inj_z u0 _ vs z v v' ND1 H1 H2)].
      * exfalso. apply row_cells_in in H1 as [_ [Hz1 _]]. apply I in H2 as [Hz2 _]. eapply Dj; eauto.
      * exfalso. apply row_cells_in in H2 as [_ [Hz2 _]]. apply I in H1 as [Hz1 _]. eapply Dj; eauto.
      * eapply A; eauto.
Qed.

(* at most one row and at most one column -> at most one argument, when a true argument makes its row and column true;
   the converse (grid_amo_complete) when a true row / column has a true cell *)
Lemma grid_amo_sound : forall g cells k us vs, is_grid cells k us vs ->
  (forall z u v, In (z, u, v) cells -> eval g z = true -> eval g u = true /\ eval g v = true) ->
  AMO g us -> AMO g vs -> AMO g k.
Proof.
  intros g cells k us vs [G1 G2 G3 _] Fwd Au Av z z' Hz Hz' Ez Ez'.
  destruct (G1 z Hz) as [u [v C]]. destruct (G1 z' Hz') as [u' [v' C']].
  destruct (Fwd _ _ _ C Ez) as [Eu Ev]. destruct (Fwd _ _ _ C' Ez') as [Eu' Ev'].
  destruct (G2 _ _ _ C) as [_ [Hu Hv]]. destruct (G2 _ _ _ C') as [_ [Hu' Hv']].
  assert (u = u') by (apply Au; assumption). assert (v = v') by (apply Av; assumption). subst.
  eapply G3; eauto.
Qed.

Lemma grid_amo_complete : forall g cells k us vs, is_grid cells k us vs ->
  (forall u, In u us -> eval g u = true -> exists z v, In (z, u, v) cells /\ eval g z = true) ->
  (forall v, In v vs -> eval g v = true -> exists z u, In (z, u, v) cells /\ eval g z = true) ->
  AMO g k -> AMO g us /\ AMO g vs.
Proof.
  intros g cells k us vs [_ G2 _ G4] Bu Bv Ak; split.
  - intros u u' Hu Hu' Eu Eu'. destruct (Bu u Hu Eu) as [z [v [C Ez]]]. destruct (Bu u' Hu' Eu') as [z' [v' [C' Ez']]].
    assert (z = z') by (apply Ak; [apply (G2 _ _ _ C) | apply (G2 _ _ _ C') | exact Ez | exact Ez']). subst z'.
    apply (G4 _ _ _ _ _ C C').
  - intros v v' Hv Hv' Ev Ev'. destruct (Bv v Hv Ev) as [z [u [C Ez]]]. destruct (Bv v' Hv' Ev') as [z' [u' [C' Ez']]].
    assert (z = z') by (apply Ak; [apply (G2 _ _ _ C) | apply (G2 _ _ _ C') | exact Ez | exact Ez']). subst z'.
    apply (G4 _ _ _ _ _ C C').
Qed.

(* the assignment of the fresh row / column variables: the OR of the cells of the row / column *)
Definition cell_or (a : asg) (cells : list (lit * lit * lit)) (w : nat) : bool :=
  existsb (fun c => let '(z, u, v) := c in (Nat.eqb (lvar u) w || Nat.eqb (lvar v) w) && eval a z) cells.
Definition grid_asg (a : asg) (n0 : nat) (cells : list (lit * lit * lit)) : asg :=
  fun w => if w <? n0 then a w else cell_or a cells w.

Lemma grid_asg_agree : forall a n0 cells, agree_below n0 a (grid_asg a n0 cells).
Proof. intros a n0 cells w Hw; unfold grid_asg. apply Nat.ltb_lt in Hw. rewrite Hw; reflexivity. Qed.

Lemma cell_or_true : forall a cells w, cell_or a cells w = true <->
  exists z u v, In (z, u, v) cells /\ (lvar u = w \/ lvar v = w) /\ eval a z = true.
Proof.
  intros a cells w; unfold cell_or; rewrite existsb_exists; split.
  - intros [[[z u] v] [Hin H]]. apply andb_true_iff in H as [H1 H2]. apply orb_true_iff in H1.
    exists z, u, v. split; [exact Hin|]. split; [|exact H2]. destruct H1 as [H1|H1]; apply Nat.eqb_eq in H1; auto.
  - intros [z [u [v [Hin [H1 H2]]]]]. exists (z, u, v). split; [exact Hin|]. rewrite H2, andb_true_r. apply orb_true_iff.
    destruct H1 as [H1|H1]; [left | right]; apply Nat.eqb_eq; exact H1.
Qed.

(* with positive row literals over [n, m) and positive column literals from m on, and the arguments below n *)
Lemma grid_asg_amo : forall a n m cells k us vs, is_grid cells k us vs -> n <= m ->
  Forall (lit_below n) k ->
  Forall (fun u => lsign u = true /\ n <= lvar u < m) us -> Forall (fun v => lsign v = true /\ m <= lvar v) vs ->
  let g := grid_asg a n cells in
  (forall z u v, In (z, u, v) cells -> eval g z = true -> eval g u = true /\ eval g v = true) /\
  amo_sem g us && amo_sem g vs = amo_sem g k.
Proof.
  intros a n m cells k us vs G Lnm Bk Fu Fv g. pose proof (gr_in _ _ _ _ G) as G2. rewrite Forall_forall in Bk, Fu, Fv.
  assert (Zg : forall z, In z k -> eval g z = eval a z).
  { intros z Hz. symmetry. apply (eval_agree n), Bk, Hz. apply grid_asg_agree. }
  assert (Ug : forall w, lsign w = true -> n <= lvar w -> eval g w = cell_or a cells (lvar w)).
  { intros w Sw Lw. unfold eval. rewrite Sw. unfold g, grid_asg. destruct (Nat.ltb_spec (lvar w) n); [lia | reflexivity]. }
  assert (Fwd : forall z u v, In (z, u, v) cells -> eval g z = true -> eval g u = true /\ eval g v = true).
  { intros z u v Hcell Ez. destruct (G2 _ _ _ Hcell) as [Hz [Hu Hv]]. rewrite (Zg z Hz) in Ez.
    destruct (Fu u Hu) as [Su Lu]. destruct (Fv v Hv) as [Sv Lv].
    rewrite (Ug u Su), (Ug v Sv) by lia. split; apply cell_or_true; exists z, u, v; auto. }
  split; [exact Fwd|]. apply eq_iff_eq_true. rewrite andb_true_iff, !amo_sem_AMO.
  split; [intros [Au Av]; apply (grid_amo_sound g cells k us vs G Fwd Au Av) | apply (grid_amo_complete g cells k us vs G)].
  - intros u Hu Eu. destruct (Fu u Hu) as [Su Lu]. rewrite (Ug u Su) in Eu by lia.
    apply cell_or_true in Eu as [z [u' [v' [Hcell [Hw Ez]]]]]. destruct (G2 _ _ _ Hcell) as [Hz [Hu' Hv']].
    destruct (Fu u' Hu') as [Su' Lu']. destruct (Fv v' Hv') as [Sv' Lv'].
    destruct Hw as [Hw|Hw]; [|lia]. assert (u' = u) by (apply lit_pos_eq; auto). subst u'.
    exists z, v'. split; [exact Hcell|]. rewrite (Zg z Hz); exact Ez.
  - intros v Hv Ev. destruct (Fv v Hv) as [Sv Lv]. rewrite (Ug v Sv) in Ev by lia.
    apply cell_or_true in Ev as [z [u' [v' [Hcell [Hw Ez]]]]]. destruct (G2 _ _ _ Hcell) as [Hz [Hu' Hv']].
    destruct (Fu u' Hu') as [Su' Lu']. destruct (Fv v' Hv') as [Sv' Lv'].
    destruct Hw as [Hw|Hw]; [lia|]. assert (v' = v) by (apply lit_pos_eq; auto). subst v'.
    exists z, u'. split; [exact Hcell|]. rewrite (Zg z Hz); exact Ez.
Qed.

Lemma cell_clauses_sem : forall a ctr cells,
  (forall c, In c (flat_map (cell_clauses ctr) cells) -> sat_clause a c = true) <->
  (eval a ctr = true -> forall z u v, In (z, u, v) cells -> eval a z = true -> eval a u = true /\ eval a v = true).
Proof.
  intros a ctr cells. split.
  - intros H Ec z u v Hc Ez.
    assert (S1 : sat_clause a [lneg z; u; lneg ctr] = true) by (apply H, in_flat_map; exists (z, u, v); split; [exact Hc | left; reflexivity]).
    assert (S2 : sat_clause a [lneg z; v; lneg ctr] = true) by (apply H, in_flat_map; exists (z, u, v); split; [exact Hc | right; left; reflexivity]).
    unfold sat_clause in *; cbn in *. rewrite !eval_lneg, Ez, Ec in *. cbn in *. rewrite !orb_false_r in *. auto.
  - intros H c Hc. apply in_flat_map in Hc as [[[z u] v] [Hcell Hc]]. cbn in Hc.
    destruct Hc as [<-|[<-|[]]]; unfold sat_clause; cbn; rewrite !eval_lneg;
      destruct (eval a ctr) eqn:Ec; rewrite ?orb_true_r; try reflexivity; destruct (eval a z) eqn:Ez; try reflexivity;
      destruct (H eq_refl _ _ _ Hcell Ez) as [Eu Ev]; rewrite ?Eu, ?Ev; reflexivity.
Qed.

Lemma amo_small : forall a k, length k <= 1 -> amo_sem a k = true.
Proof.
  intros a k L. apply amo_sem_AMO. intros p q Hp Hq _ _.
  destruct k as [|x [|y k]]; cbn in *; [contradiction | | lia]. destruct Hp as [<-|[]], Hq as [<-|[]]; reflexivity.
Qed.

(* a clause without a true literal is equivalent to its unassigned part *)
Lemma clause_status_kept : forall s c, existsb (fun z => lbool_eqb (value s z) LTrue) c = false ->
  kept s LTrue c (filter (fun z => lbool_eqb (value s z) LUndef) c).
Proof.
  intros s c ET. split.
  - intros x. rewrite filter_In, lbool_eqb_eq. reflexivity.
  - intros x Hx V. assert (existsb (fun z => lbool_eqb (value s z) LTrue) c = true); [|congruence].
    apply existsb_exists. exists x. rewrite V. auto.
Qed.

Lemma clause_status_unit : forall s c p, clause_status s c = CUnit p ->
  In p c /\ value s p = LUndef /\ forall a, agrees a s -> sat_clause a c = eval a p.
Proof.
  intros s c p H. unfold clause_status in H.
  destruct (existsb (fun z => lbool_eqb (value s z) LTrue) c) eqn:ET; [discriminate|]. pose proof (clause_status_kept s c ET) as K.
  destruct (filter (fun z => lbool_eqb (value s z) LUndef) c) as [|p' [|? ?]]; try discriminate. injection H as ->.
  split; [apply K; left; reflexivity|]. split; [apply K; left; reflexivity|].
  intros a Ha. etransitivity; [exact (disj_sem_same a c [p] (kept_args s true _ _ a K Ha)) | apply orb_false_r].
Qed.

Lemma clause_status_confl : forall s c, clause_status s c = CConfl -> forall a, agrees a s -> sat_clause a c = false.
Proof.
  intros s c H a Ha. unfold clause_status in H.
  destruct (existsb (fun z => lbool_eqb (value s z) LTrue) c) eqn:ET; [discriminate|]. pose proof (clause_status_kept s c ET) as K.
  destruct (filter (fun z => lbool_eqb (value s z) LUndef) c) as [|p' [|? ?]]; try discriminate.
  apply (disj_sem_same a c [] (kept_args s true _ _ a K Ha)).
Qed.

Lemma first_action_in : forall s cs r, first_action s cs = r -> r <> COpen -> exists c, In c cs /\ clause_status s c = r.
Proof.
  intros s; induction cs as [|c cs IH]; intros r H N; cbn in H; [congruence|].
  destruct (clause_status s c) eqn:E; try (destruct (IH r H N) as [c' [Hc' E']]; exists c'; split; [right|]; assumption);
    exists c; (split; [left; reflexivity | congruence]).
Qed.

Theorem propagate_root_spec : forall fuel s s' b, wf s -> propagate_root fuel s = Ok (s', b) ->
  wf s' /\ nvars s' = nvars s /\ clauses s' = clauses s /\ exprs s' = exprs s /\
  (forall a, models a s' <-> models a s) /\ (b = false -> forall a, ~ models a s).
Proof.
  induction fuel as [|f IH]; intros s s' b W H; [discriminate|]. cbn [propagate_root] in H.
  destruct (first_action s (clauses s)) as [| |p|] eqn:FA.
  - injection H as <- <-. split; [exact W|]. do 3 (split; [reflexivity|]). split; [intros a; reflexivity | discriminate].
  - injection H as <- <-. split; [exact W|]. do 3 (split; [reflexivity|]). split; [tauto|].
    intros _ a [Ha Hc]. apply first_action_in in FA as [c [Hin E]]; [|discriminate].
    specialize (Hc c Hin). rewrite (clause_status_confl _ _ E a Ha) in Hc. discriminate.
  - apply first_action_in in FA as [c [Hin E]]; [|discriminate]. apply clause_status_unit in E as [Hp [Up Force]].
    destruct (set_root_spec s p W Up (wf_clauses _ W c p Hin Hp)) as [W1 M1].
    destruct (IH _ _ _ W1 H) as [W' [N' [C' [X' [M' Bf]]]]].
    assert (MM : forall a, models a (set_root s (lvar p) (lsign p)) <-> models a s).
    { intros a. rewrite M1. split; [tauto|]. intros M. split; [exact M|]. rewrite <- (Force a (proj1 M)). apply M, Hin. }
    split; [exact W'|]. split; [exact N'|]. split; [exact C'|]. split; [exact X'|]. split.
    + intros a. rewrite M'. apply MM.
    + intros Eb a M. apply (Bf Eb a), MM, M.
  - injection H as <- <-. split; [exact W|]. do 3 (split; [reflexivity|]). split; [intros a; reflexivity | discriminate].
Qed.

Lemma answer2 : forall s s' x F, ext s s' /\ res2 s' x F ->
  ext s s' /\ RLit x <> RFuel /\ (forall a, models a s' -> eval a x = F a) /\ (forall a, exact a s' -> eval a x = F a).
Proof. intros s s' x F [E [_ M]]. split; [exact E|]. split; [discriminate|]. split; [exact M | intros a [Ma _]; apply M, Ma]. Qed.

Lemma answer1 : forall s s' x F, ext s s' /\ res1 s' x F ->
  ext s s' /\ RLit x <> RFuel /\ (forall a, models a s' -> eval a x = true -> F a = true) /\ (forall a, exact a s' -> eval a x = F a).
Proof. intros s s' x F [E [_ [M Ex]]]. split; [exact E|]. split; [discriminate|]. split; assumption. Qed.

Section Enc.
  Variable sortv : list lit -> list lit.
  Variable sortl : list lit -> list lit.
  Variable csqrt : nat -> nat.
  Hypothesis X : externals sortv sortl csqrt.

  Notation sortv_perm := (x_sortv_perm _ _ _ X).
  Notation sortl_perm := (x_sortl_perm _ _ _ X).

  Lemma new_clause_spec : forall s lits s' b, wf s -> Forall (lit_below (nvars s)) lits -> new_clause sortv s lits = (s', b) ->
    wf s' /\ nvars s' = nvars s /\ exprs s' = exprs s /\
    (b = true -> forall a, models a s' <-> models a s /\ sat_clause a lits = true) /\
    (b = false -> s' = s /\ forall a, models a s -> sat_clause a lits = false).
  Proof.
    intros s lits s' b W B H. unfold new_clause in H.
    destruct (clause_filter s None (sortv lits)) as [k|] eqn:F.
    2:{ injection H as <- <-. do 3 (split; [auto|]). split; [|discriminate]. intros _ a.
        split; [|tauto]. intros M; split; [exact M|]. apply (clause_filter_taut _ _ _ (sortv_perm lits) F a (proj1 M)). }
    pose proof (clause_filter_kept _ _ _ _ (sortv_perm lits) F) as K.
    assert (EQ : forall a, models a s -> sat_clause a lits = sat_clause a k).
    { intros a [Ha _]. apply disj_sem_same, (kept_args s true _ _ a K Ha). }
    assert (Bk : Forall (lit_below (nvars s)) k) by (eapply incl_Forall; [apply (kept_incl _ _ _ _ K) | exact B]).
    pose proof (kept_undef _ _ _ _ K) as U.
    destruct k as [|x [|y k]].
    - injection H as <- <-. do 3 (split; [auto|]). split; [discriminate|]. intros _. split; [reflexivity|]. apply EQ.
    - unfold enqueue in H. inversion U as [|? ? Ux _]; subst. rewrite Ux in H. injection H as <- <-.
      inversion Bk as [|? ? Bx _]; subst. destruct (set_root_spec s x W Ux Bx) as [W1 M1].
      do 3 (split; [auto|]). split; [|discriminate]. intros _ a. rewrite M1.
      split; intros [M E]; (split; [exact M|]); rewrite (EQ a M) in *; cbn in *; rewrite orb_false_r in *; exact E.
    - injection H as <- <-. split; [|split; [reflexivity|split; [reflexivity|split; [intros _ a|discriminate]]]].
      + constructor; cbn; try apply W.
        * intros c p Hc Hp. apply in_app_or in Hc as [Hc|[<-|[]]]; [eapply wf_clauses; eauto|].
          rewrite Forall_forall in Bk; apply Bk, Hp.
        * intros a [Ha Hc]. apply (wf_sound _ W). split; [exact Ha|]. intros c Hin; apply Hc; cbn. apply in_or_app; left; exact Hin.
      + unfold models at 1. cbn [clauses]. split.
        * intros [Ha Hc]. assert (M : models a s) by (split; [exact Ha|]; intros c Hin; apply Hc, in_or_app; left; exact Hin).
          split; [exact M|]. rewrite (EQ a M). apply Hc, in_or_app; right; left; reflexivity.
        * intros [M Sc]. split; [apply M|]. intros c Hin. apply in_app_or in Hin as [Hin|[<-|[]]]; [apply M, Hin|].
          rewrite <- (EQ a M). exact Sc.
  Qed.

  Lemma new_clause_mono : forall s lits s' b, wf s -> Forall (lit_below (nvars s)) lits -> new_clause sortv s lits = (s', b) ->
    forall a, models a s' -> models a s.
  Proof.
    intros s lits s' b W B H a M. destruct (new_clause_spec _ _ _ _ W B H) as [_ [_ [_ [T F]]]].
    destruct b; [apply (T eq_refl a), M | destruct (F eq_refl) as [-> _]; exact M].
  Qed.

  Lemma new_clause_two_undef : forall s c s' b, two_undef s c -> new_clause sortv s c = (s', b) -> b = true /\ root s' = root s.
  Proof.
    intros s c s' b [x [y [Hx [Hy [Ne [Ux Uy]]]]]] H. unfold new_clause in H.
    destruct (clause_filter s None (sortv c)) as [k|] eqn:F; [|inversion H; subst; auto].
    destruct (clause_filter_kept _ _ _ _ (sortv_perm c) F) as [K _].
    assert (Kx : In x k) by (apply K; auto). assert (Ky : In y k) by (apply K; auto).
    destruct k as [|z [|z' k]].
    - destruct Kx.
    - destruct Kx as [<-|[]], Ky as [<-|[]]. congruence.
    - inversion H; subst; auto.
  Qed.

  Lemma add_clauses_spec : forall cs s s' b, wf s ->
    (forall c, In c cs -> Forall (lit_below (nvars s)) c /\ two_undef s c) ->
    add_clauses sortv s cs = (s', b) ->
    b = true /\ grows s s' /\ nvars s' = nvars s /\ exprs s' = exprs s /\
    (forall a, models a s' <-> models a s /\ forall c, In c cs -> sat_clause a c = true).
  Proof.
    induction cs as [|c cs IH]; intros s s' b W Hcs H; cbn in H.
    - injection H as <- <-. split; [reflexivity|]. split; [apply ext_grows, ext_refl, W|]. do 2 (split; [reflexivity|]).
      intros a; split; [intros M; split; [exact M | intros c []] | tauto].
    - destruct (new_clause sortv s c) as [s1 b1] eqn:E.
      destruct (Hcs c (or_introl eq_refl)) as [Bc Tc].
      destruct (new_clause_two_undef _ _ _ _ Tc E) as [-> R1].
      destruct (new_clause_spec _ _ _ _ W Bc E) as [W1 [N1 [X1 [M1 _]]]]. specialize (M1 eq_refl).
      assert (Hcs1 : forall c0, In c0 cs -> Forall (lit_below (nvars s1)) c0 /\ two_undef s1 c0).
      { intros c0 Hc0. destruct (Hcs c0 (or_intror Hc0)) as [B0 T0]. rewrite N1; split; [exact B0 | eapply two_undef_root; eauto]. }
      destruct (IH _ _ _ W1 Hcs1 H) as [-> [G' [N' [X' M']]]].
      split; [reflexivity|]. split; [|split; [congruence|split; [congruence|]]].
      + eapply grows_trans; [|exact G']. constructor; auto; [lia | intros a M; apply M1, M | rewrite X1; apply incl_refl].
      + intros a. rewrite M', M1. split.
        * intros [[M Hc] Hs]. split; [exact M|]. intros c0 [<-|Hc0]; auto.
        * intros [M Hs]. split; [split; [exact M | apply Hs; left; reflexivity]|]. intros c0 Hc0; apply Hs; right; exact Hc0.
  Qed.

  Lemma define_spec : forall s k mk s' x, wf s -> key_below (nvars s) k ->
    let ctr := L (nvars s) true in
    (forall c, In c (mk ctr) -> fresh_clause s c) ->
    (forall a, models a s -> (forall c, In c (mk ctr) -> sat_clause a c = true) -> key_sound a k ctr) ->
    (forall a, exact a s -> exists b, (forall c, In c (mk ctr) -> sat_clause (upd a (nvars s) b) c = true) /\ key_exact (upd a (nvars s) b) k ctr) ->
    define sortv s k mk = (s', x) ->
    x = ctr /\ ext s s' /\ In (k, ctr) (exprs s').
  Proof.
    intros s k mk s' x W Kb ctr Hcs Hsound Hexact H. unfold define in H. rewrite new_var_eq in H. fold ctr in H.
    destruct (add_clauses sortv (fst (new_var s)) (mk ctr)) as [s2 b] eqn:AC.
    destruct (add_clauses_spec _ _ _ _ (new_var_wf s W) (fun c Hc => fresh_clause_two_undef s c W (Hcs c Hc)) AC) as [-> [G [N2 [X2 M2]]]].
    injection H as <- <-. split; [reflexivity|]. split; [|left; reflexivity].
    assert (MM : forall a, models a s2 <-> models a s /\ forall c, In c (mk ctr) -> sat_clause a c = true).
    { intros a. rewrite M2, new_var_models. reflexivity. }
    apply ext_emplace.
    - eapply grows_trans; [apply ext_grows, new_var_ext, W | exact G].
    - rewrite N2. eapply key_below_le; [|exact Kb]. cbn; lia.
    - rewrite N2. unfold lit_below; cbn; lia.
    - intros a M. apply MM in M as [M Hc]. apply Hsound; assumption.
    - intros a E. destruct (Hexact a E) as [b [Hc He]]. exists (upd a (nvars s) b).
      split; [apply agree_upd; lia|]. split; [apply (exact_upd s s2 (mk ctr)); assumption | exact He].
  Qed.

  (* the two-sided constructs: look the key up; if absent, define a control variable by clauses equivalent to ctr = F *)
  Lemma cache_or_define : forall s k mk F s' x, wf s -> key_below (nvars s) k -> reifies k F ->
    let ctr := L (nvars s) true in
    (forall c, In c (mk ctr) -> fresh_clause s c) ->
    (forall a, (forall c, In c (mk ctr) -> sat_clause a c = true) <-> eval a ctr = F a) ->
    (forall a a', agree_below (nvars s) a a' -> F a = F a') ->
    match lookup k (exprs s) with Some c => (s, c) | None => define sortv s k mk end = (s', x) ->
    ext s s' /\ res2 s' x F.
  Proof.
    intros s k mk F s' x W Kb R ctr Hcs Sem Inv H. destruct (lookup k (exprs s)) as [c|] eqn:Lk.
    - injection H as <- <-. split; [apply ext_refl, W | apply (cached_res2 _ _ _ _ W R), lookup_in, Lk].
    - destruct (define_spec s k mk s' x W Kb Hcs) as [-> [E Hin]]; [| |exact H|].
      + intros a _ Hc. apply R, Sem, Hc.
      + intros a _. exists (F a).
        assert (Q : eval (upd a (nvars s) (F a)) ctr = F (upd a (nvars s) (F a))) by (unfold ctr; rewrite eval_upd_ctr; apply Inv, agree_upd; lia).
        split; [apply Sem, Q | apply R, Q].
      + split; [exact E | apply (cached_res2 _ _ _ _ (ext_wf _ _ E) R Hin)].
  Qed.

  Lemma new_eq_spec : forall s l r s' x, wf s -> lit_below (nvars s) l -> lit_below (nvars s) r ->
    new_eq sortv s l r = (s', x) -> ext s s' /\ res2 s' x (fun a => eq_sem a l r).
  Proof.
    intros s l r s' x W Bl Br H. unfold new_eq in H.
    (* a side is decided at root: the answer is a constant or the other side *)
    destruct (value s l) eqn:Vl, (value s r) eqn:Vr;
      try (injection H as <- <-; split; [apply ext_refl, W|]; split; [first [apply (wf_nv _ W) | exact Bl | exact Br]|];
           intros a [Ha _]; unfold eq_sem; rewrite ?eval_lneg, ?(eval_TRUE _ _ W Ha), ?(eval_FALSE _ _ W Ha);
           try rewrite (value_true_eval _ _ _ Ha Vl); try rewrite (value_false_eval _ _ _ Ha Vl);
           try rewrite (value_true_eval _ _ _ Ha Vr); try rewrite (value_false_eval _ _ _ Ha Vr);
           try destruct (eval a l); try destruct (eval a r); reflexivity).
    cbv zeta in H. eapply cache_or_define; [exact W | | | | | | exact H]; [| exact (reifies_eq l r) | | intros a; apply eq_clauses_sem |].
    - destruct (lit_ltb l r); cbn; auto.
    - intros c [<-|[<-|[<-|[<-|[]]]]]; [apply (fresh_clause_intro s _ (lneg (L (nvars s) true)) (lneg l)) |
        apply (fresh_clause_intro s _ (lneg (L (nvars s) true)) l) | apply (fresh_clause_intro s _ (L (nvars s) true) (lneg l)) |
        apply (fresh_clause_intro s _ (L (nvars s) true) l)]; cbn; auto; try (apply value_lneg_undef, Vl);
        repeat constructor; unfold lit_below in *; cbn; lia.
    - intros a a' A. unfold eq_sem. rewrite (eval_agree _ _ _ l A Bl), (eval_agree _ _ _ r A Br). reflexivity.
  Qed.

  Lemma new_conj_spec : forall s ls s' x, wf s -> Forall (lit_below (nvars s)) ls ->
    new_conj sortv s ls = (s', x) -> ext s s' /\ res2 s' x (fun a => conj_sem a ls).
  Proof.
    intros s ls s' x W B H. unfold new_conj in H.
    destruct (conj_filter s None (sortv ls)) as [k|] eqn:F.
    2:{ injection H as <- <-. split; [apply ext_refl, W|]. eapply res2_eq; [|apply res2_FALSE, W].
        intros a [Ha _]. symmetry. apply (conj_filter_contra _ _ _ (sortv_perm ls) F a Ha). }
    pose proof (conj_filter_kept _ _ _ _ (sortv_perm ls) F) as K.
    assert (Bk : Forall (lit_below (nvars s)) k) by (eapply incl_Forall; [apply (kept_incl _ _ _ _ K) | exact B]).
    pose proof (kept_undef _ _ _ _ K) as U.
    (* enough: the answer is the conjunction of the kept literals *)
    cut (ext s s' /\ res2 s' x (fun a => conj_sem a k)).
    { intros [E R]. split; [exact E|]. eapply res2_eq; [|exact R]. intros a M. symmetry.
      apply conj_sem_same, (kept_args s false _ _ a K), (ext_mono _ _ E a M). }
    destruct k as [|y1 [|y2 k]].
    - injection H as <- <-. split; [apply ext_refl, W | apply res2_TRUE, W].
    - injection H as <- <-. split; [apply ext_refl, W|]. eapply res2_eq; [|apply res2_lit; inversion Bk; assumption].
      intros a _. cbn. rewrite andb_true_r; reflexivity.
    - eapply cache_or_define; [exact W | | | | | | exact H]; [exact Bk | intros a c; split; reflexivity | | intros a; apply conj_clauses_sem |].
      + inversion U as [|? ? U1 _]; inversion Bk as [|? ? B1 _]; subst. intros c Hc. apply in_app_or in Hc as [Hc|[<-|[]]].
        * apply in_map_iff in Hc as [l [<- Hl]]. rewrite Forall_forall in Bk, U.
          apply (fresh_clause_intro s _ (lneg (L (nvars s) true)) l); cbn; auto.
          constructor; [cbn; lia|]. constructor; [apply Nat.lt_le_incl, Bk, Hl | constructor].
        * apply (fresh_clause_intro s _ (L (nvars s) true) (lneg y1));
            [left; reflexivity | right; left; reflexivity | reflexivity | exact B1 | apply value_lneg_undef, U1 |].
          constructor; [cbn; lia|]. apply Forall_map. eapply Forall_impl; [|exact Bk]. intros p; apply Nat.lt_le_incl.
      + intros a a' A. apply (forallb_agree _ _ _ _ A Bk).
  Qed.

  Lemma new_disj_spec : forall s ls s' x, wf s -> Forall (lit_below (nvars s)) ls ->
    new_disj sortv s ls = (s', x) -> ext s s' /\ res2 s' x (fun a => disj_sem a ls).
  Proof.
    intros s ls s' x W B H. unfold new_disj in H.
    destruct (clause_filter s None (sortv ls)) as [k|] eqn:F.
    2:{ injection H as <- <-. split; [apply ext_refl, W|]. eapply res2_eq; [|apply res2_TRUE, W].
        intros a [Ha _]. symmetry. apply (clause_filter_taut _ _ _ (sortv_perm ls) F a Ha). }
    pose proof (clause_filter_kept _ _ _ _ (sortv_perm ls) F) as K.
    assert (Bk : Forall (lit_below (nvars s)) k) by (eapply incl_Forall; [apply (kept_incl _ _ _ _ K) | exact B]).
    pose proof (kept_undef _ _ _ _ K) as U.
    cut (ext s s' /\ res2 s' x (fun a => disj_sem a k)).
    { intros [E R]. split; [exact E|]. eapply res2_eq; [|exact R]. intros a M. symmetry.
      apply disj_sem_same, (kept_args s true _ _ a K), (ext_mono _ _ E a M). }
    destruct k as [|y1 [|y2 k]].
    - injection H as <- <-. split; [apply ext_refl, W | apply res2_FALSE, W].
    - injection H as <- <-. split; [apply ext_refl, W|]. eapply res2_eq; [|apply res2_lit; inversion Bk; assumption].
      intros a _. cbn. rewrite orb_false_r; reflexivity.
    - eapply cache_or_define; [exact W | | | | | | exact H]; [exact Bk | intros a c; split; reflexivity | | intros a; apply disj_clauses_sem |].
      + inversion U as [|? ? U1 _]; inversion Bk as [|? ? B1 _]; subst. intros c Hc. apply in_app_or in Hc as [Hc|[<-|[]]].
        * apply in_map_iff in Hc as [l [<- Hl]]. rewrite Forall_forall in Bk, U.
          apply (fresh_clause_intro s _ (L (nvars s) true) (lneg l)); cbn; auto; [exact (Bk l Hl) | apply value_lneg_undef, U, Hl|].
          constructor; [exact (Nat.lt_le_incl _ _ (Bk l Hl))|]. constructor; [cbn; lia | constructor].
        * apply (fresh_clause_intro s _ (lneg (L (nvars s) true)) y1);
            [left; reflexivity | right; left; reflexivity | reflexivity | exact B1 | exact U1 |].
          constructor; [cbn; lia|]. eapply Forall_impl; [|exact Bk]. intros p; apply Nat.lt_le_incl.
      + intros a a' A. apply (existsb_agree _ _ _ _ A Bk).
  Qed.

  (* the product encoding: p = ceil(sqrt n) rows, q = ceil(n / p) columns *)
  Lemma grid_dims : forall n, 4 <= n ->
    2 <= csqrt n < n /\ ceil_div n (csqrt n) < n /\ n <= csqrt n * ceil_div n (csqrt n).
  Proof.
    intros n Hn. pose proof (x_csqrt _ _ _ X n Hn) as [P1 P2]. set (p := csqrt n) in *. unfold ceil_div.
    assert (P0 : p <> 0) by lia.
    pose proof (Nat.div_mod (n + p - 1) p P0) as DM. pose proof (Nat.mod_upper_bound (n + p - 1) p P0) as MU.
    split; [lia|]. split; [apply Nat.div_lt_upper_bound; [exact P0 | nia] | nia].
  Qed.

  (* the rows us and columns vs are fresh, x1 / y1 reify "at most one row / column", ctr is their conjunction *)
  Lemma grid_case : forall s k p q s1 us s2 vs s3 x1 s4 y1 s5 ctr s6 b,
    wf s -> Forall (lit_below (nvars s)) k -> Forall (fun x => value s x = LUndef) k -> NoDup k ->
    length k <= p * q ->
    fresh_vars p s = (s1, us) -> fresh_vars q s1 = (s2, vs) ->
    ext s2 s3 -> res1 s3 x1 (fun a => amo_sem a us) ->
    ext s3 s4 -> res1 s4 y1 (fun a => amo_sem a vs) ->
    new_conj sortv s4 [x1; y1] = (s5, ctr) ->
    add_clauses sortv s5 (flat_map (cell_clauses ctr) (grid_cells q k us vs)) = (s6, b) ->
    b = true /\ ext s (emplace s6 (KAmo k) ctr) /\ In (KAmo k, ctr) (exprs (emplace s6 (KAmo k) ctr)).
  Proof.
    intros s k p q s1 us s2 vs s3 x1 s4 y1 s5 ctr s6 b W Bk Uk NDk Lk F1 F2 E23 R3 E34 R4 NC AC.
    destruct (fresh_vars_spec p s s1 us W F1) as [E01 [N1 [NDu [Fu X1]]]].
    destruct (fresh_vars_spec q s1 s2 vs (ext_wf _ _ E01) F2) as [E12 [N2 [NDv [Fv X2]]]]. rewrite N1 in Fv.
    pose proof (fresh_vars_length p s) as L1. rewrite F1 in L1. pose proof (fresh_vars_length q s1) as L2. rewrite F2 in L2. cbn [snd] in L1, L2.
    assert (B12 : Forall (lit_below (nvars s4)) [x1; y1]).
    { constructor; [eapply lit_below_le; [apply (ext_nv _ _ E34) | apply R3]|]. constructor; [apply R4 | constructor]. }
    destruct (new_conj_spec s4 [x1; y1] s5 ctr (ext_wf _ _ E34) B12 NC) as [E45 R5].
    pose proof (ext_trans _ _ _ E23 (ext_trans _ _ _ E34 E45)) as E25.
    pose proof (ext_trans _ _ _ (ext_trans _ _ _ E01 E12) E25) as E05.
    pose proof (ext_nv _ _ E25) as NV25. pose proof (ext_root _ _ E05) as R05.
    set (cells := grid_cells q k us vs) in *.
    assert (G : is_grid cells k us vs) by (apply grid_cells_grid; auto; rewrite L1; exact Lk).
    (* the clauses of the cells are stored *)
    assert (Hcs : forall c, In c (flat_map (cell_clauses ctr) cells) -> Forall (lit_below (nvars s5)) c /\ two_undef s5 c).
    { intros c Hc. apply in_flat_map in Hc as [[[z u] v] [Hcell Hc]]. destruct (gr_in _ _ _ _ G _ _ _ Hcell) as [Hz [Hu Hv]].
      rewrite Forall_forall in Bk, Uk, Fu, Fv.
      destruct (Fu u Hu) as [_ Lu]. destruct (Fv v Hv) as [_ Lv]. pose proof (Bk z Hz) as Bz. unfold lit_below in Bz.
      (* an unassigned argument, a fresh row or column variable w, the control literal *)
      assert (Hw : forall w, nvars s <= lvar w < nvars s2 -> Forall (lit_below (nvars s5)) [lneg z; w; lneg ctr] /\ two_undef s5 [lneg z; w; lneg ctr]).
      { intros w Lw. split.
        - constructor; [unfold lit_below; cbn; lia|]. constructor; [unfold lit_below; lia|]. constructor; [apply R5 | constructor].
        - exists (lneg z), w. split; [left; reflexivity|]. split; [right; left; reflexivity|]. split; [cbn; lia|].
          split; apply value_undef_root; rewrite R05; [exact (proj1 (value_undef_root s z) (Uk z Hz)) | apply (wf_root _ W); lia]. }
      cbn in Hc. destruct Hc as [<-|[<-|[]]]; apply Hw; lia. }
    destruct (add_clauses_spec _ _ _ _ (ext_wf _ _ E05) Hcs AC) as [-> [G56 [N6 [X6 M6]]]].
    split; [reflexivity|]. split; [|left; reflexivity].
    assert (Bk2 : Forall (lit_below (nvars s2)) k) by (eapply Forall_below_le; [|exact Bk]; lia).
    assert (Bu2 : Forall (lit_below (nvars s2)) us) by (eapply Forall_impl; [|exact Fu]; cbn; intros u [_ Hu]; unfold lit_below; lia).
    assert (Bv2 : Forall (lit_below (nvars s2)) vs) by (eapply Forall_impl; [|exact Fv]; cbn; intros v [_ Hv]; unfold lit_below; lia).
    apply ext_emplace.
    - eapply grows_trans; [apply ext_grows, E05 | exact G56].
    - cbn. rewrite N6. eapply Forall_below_le; [|exact Bk2]. exact NV25.
    - rewrite N6. apply R5.
    - (* ctr true -> each true argument makes its row and its column true -> at most one argument *)
      intros a M Ec. apply M6 in M as [M5 Hc].
      pose proof (proj2 R5 a M5) as E5. rewrite Ec in E5. unfold conj_sem in E5. cbn in E5. symmetry in E5.
      apply andb_true_iff in E5 as [Ex1 E5]. apply andb_true_iff in E5 as [Ey1 _].
      pose proof (ext_mono _ _ E45 a M5) as M4.
      pose proof (proj1 (proj2 R3) a (ext_mono _ _ E34 a M4) Ex1) as Au. pose proof (proj1 (proj2 R4) a M4 Ey1) as Av.
      apply amo_sem_AMO in Au, Av. apply amo_sem_AMO.
      apply (grid_amo_sound a cells k us vs G (proj1 (cell_clauses_sem a ctr cells) Hc Ec) Au Av).
    - (* rows and columns := the ORs of their cells; the nested constraints and the conjunction extend conservatively *)
      intros a Ea. destruct (grid_asg_amo a (nvars s) (nvars s + p) cells k us vs G (Nat.le_add_r _ _) Bk Fu
                 (Forall_impl _ (fun v H => conj (proj1 H) (proj1 (proj2 H))) Fv)) as [Fwd Eq].
      set (g := grid_asg a (nvars s) cells) in *.
      assert (Eg2 : exact g s2) by (apply X2, X1; eapply exact_agree; [exact W | apply grid_asg_agree | exact Ea]).
      destruct (ext_cons _ _ E25 g Eg2) as [g5 [A25 Eg5]].
      exists g5. split; [eapply agree_below_trans; [apply (ext_nv _ _ (ext_trans _ _ _ E01 E12)) | apply grid_asg_agree | exact A25]|].
      assert (Mg6 : models g5 s6).
      { apply M6. split; [apply Eg5|]. apply cell_clauses_sem. intros _ z u v Hcell.
        destruct (gr_in _ _ _ _ G _ _ _ Hcell) as [Hz [Hu Hv]]. rewrite Forall_forall in Bk2, Bu2, Bv2.
        rewrite <- (eval_agree _ _ _ z A25), <- (eval_agree _ _ _ u A25), <- (eval_agree _ _ _ v A25) by auto. apply Fwd, Hcell. }
      split; [split; [exact Mg6 | rewrite X6; apply Eg5]|]. cbn.
      (* ctr = x1 /\ y1 = amo(us) /\ amo(vs) = amo(k) *)
      rewrite (proj2 R5 g5 (proj1 Eg5)). unfold conj_sem. cbn [forallb]. rewrite andb_true_r.
      rewrite (proj2 (proj2 R3) g5 (exact_restrict _ _ _ (ext_trans _ _ _ E34 E45) Eg5)).
      rewrite (proj2 (proj2 R4) g5 (exact_restrict _ _ _ E45 Eg5)).
      rewrite <- (amo_sem_agree _ _ _ us A25 Bu2), <- (amo_sem_agree _ _ _ vs A25 Bv2), <- (amo_sem_agree _ _ _ k A25 Bk2). exact Eq.
  Qed.

  (* an argument is true at root: the conjunction of the negated other arguments is both constraints *)
  Lemma scan_conj_res : forall s ls o s' x, wf s -> Forall (lit_below (nvars s)) ls ->
    amo_scan s None [] (sortl ls) = ScanConj o -> new_conj sortv s o = (s', x) ->
    ext s s' /\ res2 s' x (fun a => amo_sem a ls) /\ res2 s' x (fun a => exct_sem a ls).
  Proof.
    intros s ls o s' x W B SC H. destruct (scan_conj_sem _ _ _ _ (sortl_perm ls) SC) as [Oz Sem].
    assert (Bo : Forall (lit_below (nvars s)) o).
    { apply Forall_forall. intros z Hz. destruct (Oz z Hz) as [y [Hy ->]]. rewrite Forall_forall in B. apply (B y Hy). }
    destruct (new_conj_spec s o s' x W Bo H) as [E R].
    split; [exact E|]. split; (eapply res2_eq; [|exact R]); intros a M; symmetry; apply Sem, (ext_mono _ _ E a M).
  Qed.

  Theorem new_amo_spec : forall fuel s ls s' x, wf s -> Forall (lit_below (nvars s)) ls ->
    new_amo sortv sortl csqrt fuel s ls = Ok (s', x) -> ext s s' /\ res1 s' x (fun a => amo_sem a ls).
  Proof.
    induction fuel as [|f IH]; intros s ls s' x W B H; [discriminate|]. cbn [new_amo] in H.
    destruct (amo_scan s None [] (sortl ls)) as [o|k] eqn:SC.
    - injection H as H. destruct (scan_conj_res _ _ _ _ _ W B SC H) as [E [R _]]. split; [exact E | apply res2_res1, R].
    - destruct (scan_list_kept _ _ _ _ (sortl_perm ls) (x_sortl_sorted _ _ _ X ls) SC) as [K [NDk _]].
      pose proof (kept_undef _ _ _ _ K) as Uk.
      assert (Bk : Forall (lit_below (nvars s)) k) by (eapply incl_Forall; [apply (kept_incl _ _ _ _ K) | exact B]).
      (* enough: the answer is the constraint over the kept literals *)
      cut (ext s s' /\ res1 s' x (fun a => amo_sem a k)).
      { intros [E R]. split; [exact E|]. eapply res1_eq; [|exact R]. intros a M. symmetry.
        apply amo_sem_same, (kept_args s true _ _ a K), (ext_mono _ _ E a M). }
      destruct (length k <=? 1) eqn:L1.
      + apply Nat.leb_le in L1. injection H as <- <-. split; [apply ext_refl, W|]. apply res2_res1.
        eapply res2_eq; [|apply res2_TRUE, W]. intros a _. symmetry; apply amo_small, L1.
      + destruct (lookup (KAmo k) (exprs s)) as [c|] eqn:Lk.
        * injection H as <- <-. split; [apply ext_refl, W | exact (cached s (KAmo k) c W (lookup_in _ _ _ Lk))].
        * destruct (length k <? 4) eqn:L4.
          -- (* standard encoding *)
             injection H as H. destruct k as [|y1 k1]; [discriminate L1|].
             inversion Uk as [|? ? U1 _]; inversion Bk as [|? ? B1 _]; subst. set (k := y1 :: k1) in *.
             destruct (define_spec s (KAmo k) (fun ctr => pair_clauses ctr k) s' x W Bk) as [-> [E Hin]]; [| | |exact H|].
             ++ intros c Hc. apply pair_clauses_in in Hc as [y [z [-> [Hy Hz]]]]. rewrite Forall_forall in Bk, Uk.
                apply (fresh_clause_intro s _ (lneg (L (nvars s) true)) (lneg y)); cbn; auto; [exact (Bk y Hy) | apply value_lneg_undef, Uk, Hy|].
                repeat constructor; cbn; [apply Nat.lt_le_incl, (Bk y Hy) | apply Nat.lt_le_incl, (Bk z Hz)].
             ++ intros a M Hc Ec. apply amo_sem_AMO, (proj1 (pair_clauses_sem a _ k NDk) Hc Ec).
             ++ intros a _. set (a' := upd a (nvars s) (amo_sem a k)).
                assert (Q : eval a' (L (nvars s) true) = amo_sem a' k).
                { unfold a' at 1. rewrite eval_upd_ctr. apply (amo_sem_agree (nvars s)); [apply agree_upd; lia | exact Bk]. }
                exists (amo_sem a k). split; [|exact Q]. apply (pair_clauses_sem a' _ k NDk). intros Ec. apply amo_sem_AMO. rewrite <- Q; exact Ec.
             ++ split; [exact E | exact (cached _ (KAmo k) _ (ext_wf _ _ E) Hin)].
          -- (* product encoding *)
             apply Nat.ltb_ge in L4. destruct (grid_dims (length k) L4) as [_ [_ PQ]].
             set (p := csqrt (length k)) in *. set (q := ceil_div (length k) p) in *.
             destruct (fresh_vars p s) as [s1 us] eqn:F1. destruct (fresh_vars q s1) as [s2 vs] eqn:F2.
             destruct (fresh_vars_spec p s s1 us W F1) as [E01 [N1 [_ [Fu _]]]].
             destruct (fresh_vars_spec q s1 s2 vs (ext_wf _ _ E01) F2) as [E12 [N2 [_ [Fv _]]]].
             assert (Bu : Forall (lit_below (nvars s2)) us) by (eapply Forall_impl; [|exact Fu]; cbn; intros u [_ Hu]; unfold lit_below; lia).
             assert (Bv : Forall (lit_below (nvars s2)) vs) by (eapply Forall_impl; [|exact Fv]; cbn; intros v [_ Hv]; unfold lit_below; lia).
             destruct (new_amo sortv sortl csqrt f s2 us) as [[s3 x1]|] eqn:A1; [|discriminate].
             destruct (IH _ _ _ _ (ext_wf _ _ E12) Bu A1) as [E23 R3].
             destruct (new_amo sortv sortl csqrt f s3 vs) as [[s4 y1]|] eqn:A2; [|discriminate].
             destruct (IH _ _ _ _ (ext_wf _ _ E23) (Forall_below_le _ _ _ (ext_nv _ _ E23) Bv) A2) as [E34 R4].
             destruct (new_conj sortv s4 [x1; y1]) as [s5 ctr] eqn:NC.
             destruct (add_clauses sortv s5 (flat_map (cell_clauses ctr) (grid_cells q k us vs))) as [s6 b] eqn:AC.
             destruct (grid_case s k p q s1 us s2 vs s3 x1 s4 y1 s5 ctr s6 b W Bk Uk NDk PQ F1 F2 E23 R3 E34 R4 NC AC) as [-> [E Hin]].
             injection H as <- <-. split; [exact E | exact (cached _ (KAmo k) _ (ext_wf _ _ E) Hin)].
  Qed.

  (* enough fuel: one unit per level of the recursion on the (strictly shorter) row / column lists *)
  Theorem new_amo_fuel : forall fuel s ls, length ls < fuel -> new_amo sortv sortl csqrt fuel s ls <> OutOfFuel.
  Proof.
    induction fuel as [|f IH]; intros s ls L; [lia|]. cbn [new_amo].
    destruct (amo_scan s None [] (sortl ls)) as [o|k] eqn:SC; [discriminate|].
    destruct (scan_list_kept _ _ _ _ (sortl_perm ls) (x_sortl_sorted _ _ _ X ls) SC) as [_ [_ Lk]].
    destruct (length k <=? 1); [discriminate|]. destruct (lookup (KAmo k) (exprs s)); [discriminate|].
    destruct (length k <? 4) eqn:L4; [discriminate|]. apply Nat.ltb_ge in L4.
    destruct (grid_dims (length k) L4) as [[_ P2] [Q2 _]].
    pose proof (fresh_vars_length (csqrt (length k)) s) as Lu.
    destruct (fresh_vars (csqrt (length k)) s) as [s1 us].
    pose proof (fresh_vars_length (ceil_div (length k) (csqrt (length k))) s1) as Lv.
    destruct (fresh_vars (ceil_div (length k) (csqrt (length k))) s1) as [s2 vs]. cbn [snd] in Lu, Lv.
    destruct (new_amo sortv sortl csqrt f s2 us) as [[s3 x1]|] eqn:A1; [|exfalso; apply (IH s2 us); [lia | exact A1]].
    destruct (new_amo sortv sortl csqrt f s3 vs) as [[s4 y1]|] eqn:A2; [|exfalso; apply (IH s3 vs); [lia | exact A2]].
    destruct (new_conj sortv s4 [x1; y1]) as [s5 ctr].
    destruct (add_clauses sortv s5 _) as [s6 b]. destruct b; discriminate.
  Qed.

  Theorem new_exct_spec : forall fuel s ls s' x, wf s -> Forall (lit_below (nvars s)) ls ->
    new_exct sortv sortl csqrt fuel s ls = Ok (s', x) -> ext s s' /\ res1 s' x (fun a => exct_sem a ls).
  Proof.
    intros fuel s ls s' x W B H. unfold new_exct in H.
    destruct (amo_scan s None [] (sortl ls)) as [o|k] eqn:SC.
    - injection H as H. destruct (scan_conj_res _ _ _ _ _ W B SC H) as [E [_ R]]. split; [exact E | apply res2_res1, R].
    - destruct (scan_list_kept _ _ _ _ (sortl_perm ls) (x_sortl_sorted _ _ _ X ls) SC) as [K _].
      assert (Bk : Forall (lit_below (nvars s)) k) by (eapply incl_Forall; [apply (kept_incl _ _ _ _ K) | exact B]).
      cut (ext s s' /\ res1 s' x (fun a => exct_sem a k)).
      { intros [E R]. split; [exact E|]. eapply res1_eq; [|exact R]. intros a M. symmetry.
        apply exct_sem_same, (kept_args s true _ _ a K), (ext_mono _ _ E a M). }
      destruct k as [|y1 [|y2 k2]].
      + injection H as <- <-. split; [apply ext_refl, W | apply res2_res1, res2_FALSE, W].
      + injection H as <- <-. split; [apply ext_refl, W|]. apply res2_res1.
        eapply res2_eq; [|apply res2_lit; inversion Bk; assumption].
        intros a _. unfold exct_sem, count_true. cbn. destruct (eval a y1); reflexivity.
      + set (k := y1 :: y2 :: k2) in *.
        destruct (lookup (KExct k) (exprs s)) as [c|] eqn:Lk.
        * injection H as <- <-. split; [apply ext_refl, W | exact (cached s (KExct k) c W (lookup_in _ _ _ Lk))].
        * (* exactly one = at most one /\ at least one *)
          destruct (new_amo sortv sortl csqrt fuel s k) as [[s1 c1]|] eqn:A1; [|discriminate].
          destruct (new_amo_spec _ _ _ _ _ W Bk A1) as [E01 R1].
          destruct (new_disj sortv s1 k) as [s2 d] eqn:D.
          destruct (new_disj_spec s1 k s2 d (ext_wf _ _ E01) (Forall_below_le _ _ _ (ext_nv _ _ E01) Bk) D) as [E12 R2].
          destruct (new_conj sortv s2 [c1; d]) as [s3 c] eqn:NC.
          assert (B12 : Forall (lit_below (nvars s2)) [c1; d]).
          { constructor; [eapply lit_below_le; [apply (ext_nv _ _ E12) | apply R1]|]. constructor; [apply R2 | constructor]. }
          destruct (new_conj_spec s2 [c1; d] s3 c (ext_wf _ _ E12) B12 NC) as [E23 R3].
          pose proof (ext_trans _ _ _ E01 (ext_trans _ _ _ E12 E23)) as E03.
          destruct (res1_ext _ _ _ _ (ext_trans _ _ _ E12 E23) R1) as [_ [S1 X1]].
          destruct (res2_ext _ _ _ _ E23 R2) as [_ M2]. destruct R3 as [B3 M3].
          injection H as <- <-.
          assert (E04 : ext s (emplace s3 (KExct k) c)).
          { apply ext_emplace; [apply ext_grows, E03 | | exact B3 | |].
            - eapply Forall_below_le; [apply (ext_nv _ _ E03) | exact Bk].
            - intros a M Ec. rewrite (M3 a M) in Ec. unfold conj_sem in Ec. cbn [forallb] in Ec.
              apply andb_true_iff in Ec as [Ec1 Ec]. apply andb_true_iff in Ec as [Ed _].
              rewrite exct_sem_split, (S1 a M Ec1), <- (M2 a M). exact Ed.
            - intros a Ea. destruct (ext_cons _ _ E03 a Ea) as [a' [A E']]. exists a'. split; [exact A|]. split; [exact E'|].
              cbn [key_exact]. rewrite (M3 a' (proj1 E')). unfold conj_sem. cbn [forallb]. rewrite andb_true_r.
              rewrite (X1 a' E'), (M2 a' (proj1 E')). symmetry. apply exct_sem_split. }
          split; [exact E04 | exact (cached _ (KExct k) c (ext_wf _ _ E04) (or_introl eq_refl))].
  Qed.

  Theorem new_exct_fuel : forall fuel s ls, length ls < fuel -> new_exct sortv sortl csqrt fuel s ls <> OutOfFuel.
  Proof.
    intros fuel s ls L. unfold new_exct.
    destruct (amo_scan s None [] (sortl ls)) as [o|k] eqn:SC; [discriminate|].
    destruct (scan_list_kept _ _ _ _ (sortl_perm ls) (x_sortl_sorted _ _ _ X ls) SC) as [_ [_ Lk]].
    destruct k as [|y1 [|y2 k2]]; try discriminate.
    destruct (lookup _ (exprs s)); [discriminate|].
    destruct (new_amo sortv sortl csqrt fuel s (y1 :: y2 :: k2)) as [[s1 c1]|] eqn:A1.
    - destruct (new_disj sortv s1 _) as [s2 d]. destruct (new_conj sortv s2 _) as [s3 c]. discriminate.
    - exfalso. apply (new_amo_fuel fuel s (y1 :: y2 :: k2)); [lia | exact A1].
  Qed.

  (* "excludes no assignment that satisfies it" *)
  Lemma P_amo : forall fuel s ls s' x, wf s -> Forall (lit_below (nvars s)) ls -> new_amo sortv sortl csqrt fuel s ls = Ok (s', x) ->
    lit_below (nvars s') x /\
    (forall a, models a s' -> eval a x = true -> amo_sem a ls = true) /\
    (forall a, exact a s -> amo_sem a ls = true -> exists a', agree_below (nvars s) a a' /\ exact a' s' /\ eval a' x = true).
  Proof.
    intros fuel s ls s' x W B H. destruct (new_amo_spec _ _ _ _ _ W B H) as [E R].
    apply (res1_not_excluded _ _ _ _ E R). intros a a' A. apply (amo_sem_agree _ _ _ _ A B).
  Qed.

  Lemma P_exct : forall fuel s ls s' x, wf s -> Forall (lit_below (nvars s)) ls -> new_exct sortv sortl csqrt fuel s ls = Ok (s', x) ->
    lit_below (nvars s') x /\
    (forall a, models a s' -> eval a x = true -> exct_sem a ls = true) /\
    (forall a, exact a s -> exct_sem a ls = true -> exists a', agree_below (nvars s) a a' /\ exact a' s' /\ eval a' x = true).
  Proof.
    intros fuel s ls s' x W B H. destruct (new_exct_spec _ _ _ _ _ W B H) as [E R].
    apply (res1_not_excluded _ _ _ _ E R). intros a a' A. apply (exct_sem_agree _ _ _ _ A B).
  Qed.

  Notation step := (step sortv sortl csqrt).

  Definition op_below (n : nat) (o : op) : Prop :=
    match o with
    | OVar | OProp => True
    | OClause ls | OConj ls | ODisj ls | OAmo ls | OExct ls => Forall (lit_below n) ls
    | OEq l r => lit_below n l /\ lit_below n r
    end.

  Definition is_request (o : op) : Prop := match o with OClause _ | OProp => False | _ => True end.

  (* what the answer of an operation means in every model / in every exact model of any later state *)
  Definition op_meaning (o : op) (r : res) (a : asg) : Prop :=
    match o, r with
    | OEq l r', RLit x => eval a x = eq_sem a l r'
    | OConj ls, RLit x => eval a x = conj_sem a ls
    | ODisj ls, RLit x => eval a x = disj_sem a ls
    | OAmo ls, RLit x => eval a x = true -> amo_sem a ls = true
    | OExct ls, RLit x => eval a x = true -> exct_sem a ls = true
    | _, _ => True
    end.

  Definition op_exact (o : op) (r : res) (a : asg) : Prop :=
    match o, r with
    | OAmo ls, RLit x => eval a x = amo_sem a ls
    | OExct ls, RLit x => eval a x = exct_sem a ls
    | _, _ => op_meaning o r a
    end.

  Theorem step_request : forall s o s' r, wf s -> op_below (nvars s) o -> is_request o -> step s o = (s', r) ->
    ext s s' /\ r <> RFuel /\ (forall a, models a s' -> op_meaning o r a) /\ (forall a, exact a s' -> op_exact o r a).
  Proof.
    intros s o s' r W B Q H. destruct o as [|ls|l r0|ls|ls|ls|ls|]; cbn in B, Q; unfold SatEnc.step in H; try contradiction.
    - cbn in H. injection H as <- <-. split; [apply new_var_ext, W|]. split; [discriminate|]. split; intros; exact I.
    - destruct B as [Bl Br]. destruct (new_eq sortv s l r0) as [s1 x] eqn:E. injection H as <- <-.
      exact (answer2 _ _ _ (fun a => eq_sem a l r0) (new_eq_spec _ _ _ _ _ W Bl Br E)).
    - destruct (new_conj sortv s ls) as [s1 x] eqn:E. injection H as <- <-.
      exact (answer2 _ _ _ (fun a => conj_sem a ls) (new_conj_spec _ _ _ _ W B E)).
    - destruct (new_disj sortv s ls) as [s1 x] eqn:E. injection H as <- <-.
      exact (answer2 _ _ _ (fun a => disj_sem a ls) (new_disj_spec _ _ _ _ W B E)).
    - destruct (new_amo sortv sortl csqrt (S (length ls)) s ls) as [[s1 x]|] eqn:E.
      + injection H as <- <-. exact (answer1 _ _ _ (fun a => amo_sem a ls) (new_amo_spec _ _ _ _ _ W B E)).
      + exfalso. apply (new_amo_fuel (S (length ls)) s ls); [lia | exact E].
    - destruct (new_exct sortv sortl csqrt (S (length ls)) s ls) as [[s1 x]|] eqn:E.
      + injection H as <- <-. exact (answer1 _ _ _ (fun a => exct_sem a ls) (new_exct_spec _ _ _ _ _ W B E)).
      + exfalso. apply (new_exct_fuel (S (length ls)) s ls); [lia | exact E].
  Qed.

  (* every operation keeps well-formedness and never adds a model *)
  Theorem step_any : forall s o s' r, wf s -> op_below (nvars s) o -> step s o = (s', r) ->
    wf s' /\ nvars s <= nvars s' /\ (forall a, models a s' -> models a s).
  Proof.
    intros s o s' r W B H. destruct o;
      try (destruct (step_request s _ s' r W B I H) as [E _]; split; [apply E|]; split; [apply E | apply (ext_mono _ _ E)]).
    - unfold SatEnc.step in H. cbn in B. destruct (new_clause sortv s ls) as [s1 b] eqn:E. injection H as <- <-.
      destruct (new_clause_spec _ _ _ _ W B E) as [W1 [N1 _]]. split; [exact W1|]. split; [lia|].
      apply (new_clause_mono _ _ _ _ W B E).
    - unfold SatEnc.step in H. destruct (propagate_root (S (nvars s)) s) as [[s1 b]|] eqn:E.
      + injection H as <- <-. destruct (propagate_root_spec _ _ _ _ W E) as [W1 [N1 [C1 [X1 [M1 _]]]]].
        split; [exact W1|]. split; [lia|]. intros a; apply M1.
      + injection H as <- <-. split; [exact W|]. split; [lia | auto].
  Qed.

  Fixpoint run (s : state) (ops : list op) : state :=
    match ops with [] => s | o :: r => run (fst (step s o)) r end.

  Fixpoint scoped (s : state) (ops : list op) : Prop :=
    match ops with [] => True | o :: r => op_below (nvars s) o /\ scoped (fst (step s o)) r end.

  Theorem run_any : forall ops s, wf s -> scoped s ops ->
    wf (run s ops) /\ nvars s <= nvars (run s ops) /\ forall a, models a (run s ops) -> models a s.
  Proof.
    induction ops as [|o ops IH]; intros s W Sc; cbn in *; [split; [exact W|]; split; [lia | auto]|].
    destruct Sc as [B Sc]. destruct (step s o) as [s1 r] eqn:E. cbn in *.
    destruct (step_any _ _ _ _ W B E) as [W1 [N1 M1]]. destruct (IH _ W1 Sc) as [W2 [N2 M2]].
    split; [exact W2|]. split; [lia|]. intros a M; apply M1, M2, M.
  Qed.

  Theorem run_requests : forall ops s, wf s -> scoped s ops -> Forall is_request ops -> ext s (run s ops).
  Proof.
    induction ops as [|o ops IH]; intros s W Sc Q; cbn in *; [apply ext_refl, W|].
    destruct Sc as [B Sc]. inversion Q as [|? ? Qo Qr]; subst. destruct (step s o) as [s1 r] eqn:E. cbn in *.
    destruct (step_request _ _ _ _ W B Qo E) as [E1 _]. eapply ext_trans; [exact E1|]. apply IH; [apply E1 | exact Sc | exact Qr].
  Qed.

  (* the meaning of an answer survives every later operation; its exactness survives every later request *)
  Theorem history_meaning : forall s o s' r post, wf s -> op_below (nvars s) o -> is_request o -> step s o = (s', r) ->
    scoped s' post -> forall a, models a (run s' post) -> op_meaning o r a.
  Proof.
    intros s o s' r post W B Q E Sc a M. destruct (step_request _ _ _ _ W B Q E) as [E1 [_ [Mn _]]].
    apply Mn. apply (run_any post s' (ext_wf _ _ E1) Sc), M.
  Qed.

  Theorem history_conservative : forall s o s' r post, wf s -> op_below (nvars s) o -> is_request o -> step s o = (s', r) ->
    scoped s' post -> Forall is_request post ->
    forall a, exact a s -> exists a', agree_below (nvars s) a a' /\ exact a' (run s' post) /\ op_exact o r a'.
  Proof.
    intros s o s' r post W B Q E Sc Qp a Ea. destruct (step_request _ _ _ _ W B Q E) as [E1 [_ [_ Ex]]].
    pose proof (run_requests post s' (ext_wf _ _ E1) Sc Qp) as E2.
    destruct (ext_cons _ _ (ext_trans _ _ _ E1 E2) a Ea) as [a' [A E']].
    exists a'. split; [exact A|]. split; [exact E'|]. apply Ex. eapply exact_restrict; eauto.
  Qed.

  (* strong form: a request (new_var, eq, conj, disj, at-most-one, exactly-one) is a conservative extension *)
  Lemma P_request : forall s o s' r, wf s -> op_below (nvars s) o -> is_request o -> step s o = (s', r) ->
    wf s' /\ nvars s <= nvars s' /\ root s' = root s /\ r <> RFuel /\
    (forall a, models a s' -> models a s) /\
    (forall a, models a s' -> op_meaning o r a) /\
    (forall a, exact a s' -> exact a s /\ op_exact o r a) /\
    (forall a, exact a s -> exists a', agree_below (nvars s) a a' /\ exact a' s').
  Proof.
    intros s o s' r W B Q H. destruct (step_request _ _ _ _ W B Q H) as [E [F [M Ex]]].
    split; [apply E|]. split; [apply E|]. split; [apply E|]. split; [exact F|]. split; [apply (ext_mono _ _ E)|]. split; [exact M|].
    split; [intros a Ea; split; [eapply exact_restrict; eauto | apply Ex, Ea] | apply (ext_cons _ _ E)].
  Qed.
  Lemma P_reachable : forall ops, scoped init_state ops ->
    wf (run init_state ops) /\ (Forall is_request ops -> exists a, exact a (run init_state ops)).
  Proof.
    intros ops Sc. split; [apply (run_any ops _ init_wf Sc)|].
    intros Q. destruct (ext_cons _ _ (run_requests ops _ init_wf Sc Q) _ init_exact) as [a' [_ Ea]]. exists a'; exact Ea.
  Qed.

  Lemma P_history_meaning : forall pre o post, let s := run init_state pre in
    scoped init_state pre -> op_below (nvars s) o -> is_request o ->
    let s' := fst (step s o) in let r := snd (step s o) in
    scoped s' post ->
    forall a, models a (run s' post) -> op_meaning o r a.
  Proof.
    intros pre o post s Sc B Q s' r. destruct (run_any pre _ init_wf Sc) as [W _].
    apply (history_meaning s o s' r post W B Q), surjective_pairing.
  Qed.

  Lemma P_history_conservative : forall pre o post, let s := run init_state pre in
    scoped init_state pre -> op_below (nvars s) o -> is_request o ->
    let s' := fst (step s o) in let r := snd (step s o) in
    scoped s' post -> Forall is_request post ->
    forall a, exact a s -> exists a', agree_below (nvars s) a a' /\ exact a' (run s' post) /\ op_exact o r a'.
  Proof.
    intros pre o post s Sc B Q s' r. destruct (run_any pre _ init_wf Sc) as [W _].
    apply (history_conservative s o s' r post W B Q), surjective_pairing.
  Qed.
End Enc.

Lemma insert_by_perm : forall le x l, Permutation (insert_by le x l) (x :: l).
Proof.
  intros le x; induction l as [|y r IH]; cbn; [apply Permutation_refl|].
  destruct (le x y); [apply Permutation_refl|]. eapply perm_trans; [apply perm_skip, IH | apply perm_swap].
Qed.

Lemma isort_by_perm : forall le l, Permutation (isort_by le l) l.
Proof.
  intros le; induction l as [|x r IH]; cbn; [constructor|].
  eapply perm_trans; [apply insert_by_perm | apply perm_skip, IH].
Qed.

Lemma insert_lit_sorted : forall x l, lsorted l -> lsorted (insert_by lit_leb x l).
Proof.
  intros x; induction l as [|y r IH]; intros S; cbn [insert_by]; [repeat constructor|].
  inversion S as [|? ? Sr Fy]; subst. destruct (lit_leb x y) eqn:L; unfold lit_leb in L; [apply Nat.leb_le in L | apply Nat.leb_gt in L].
  - constructor; [exact S|]. constructor; [exact L|]. eapply Forall_impl; [|exact Fy]. intros z Hz; cbv beta in *; lia.
  - constructor; [apply IH, Sr|]. eapply Permutation_Forall; [apply Permutation_sym, insert_by_perm|]. constructor; [lia | exact Fy].
Qed.

Lemma isort_lit_sorted : forall l, lsorted (isort_lit l).
Proof. induction l as [|x r IH]; cbn; [constructor | apply insert_lit_sorted, IH]. Qed.

(* ceil_sqrt is the integer ceiling root *)
Lemma ceil_sqrt_spec : forall n, 0 < n -> (ceil_sqrt n - 1) * (ceil_sqrt n - 1) < n <= ceil_sqrt n * ceil_sqrt n.
Proof.
  intros n Hn. unfold ceil_sqrt. pose proof (Nat.sqrt_spec n (Nat.le_0_l n)) as [L U]. set (r := Nat.sqrt n) in *.
  destruct (Nat.eqb_spec (r * r) n) as [E|E].
  - split; [|lia]. assert (0 < r) by (destruct r; [cbn in E; lia | lia]). nia.
  - split; [|nia]. replace (S r - 1) with r by lia. lia.
Qed.

Lemma ceil_sqrt_bounds : forall n, 4 <= n -> 2 <= ceil_sqrt n < n.
Proof.
  intros n Hn. pose proof (ceil_sqrt_spec n ltac:(lia)) as [L U]. set (c := ceil_sqrt n) in *. split.
  - destruct c as [|[|c]]; cbn in U; lia.
  - destruct (le_lt_dec n c) as [G|G]; [|exact G]. exfalso.
    assert (c - 1 >= 3 \/ c - 1 < 3) as [H|H] by lia; nia.
Qed.

Lemma externals_instance : externals isort_var isort_lit ceil_sqrt.
Proof. constructor; [apply isort_by_perm | apply isort_by_perm | apply isort_lit_sorted | apply ceil_sqrt_bounds]. Qed.

(* non-vacuity of the hypotheses of the property theorems (concrete, non-trivial instances) *)
Definition ex_vars5 : list op := [OVar; OVar; OVar; OVar; OVar].
Definition ex_state5 : state := run isort_var isort_lit ceil_sqrt init_state ex_vars5.
Definition ex_lits5 : list lit := [L 1 true; L 2 true; L 3 false; L 4 true; L 5 true].

Example ex_state5_wf : wf ex_state5 /\ Forall (lit_below (nvars ex_state5)) ex_lits5.
Proof.
  split; [apply (P_reachable _ _ _ externals_instance ex_vars5); cbn; tauto|].
  repeat constructor; unfold lit_below; cbn; lia.
Qed.

(* the product encoding on 5 arguments: 3 + 2 row/column variables, two nested at-most-one, one conjunction *)
Example ex_amo5 : exists s' x, x_new_amo 6 ex_state5 ex_lits5 = Ok (s', x) /\ nvars s' = 14 /\ length (clauses s') = 17 /\ x = L 13 true.
Proof. vm_compute. eexists; eexists; split; [reflexivity|]. repeat split. Qed.

Example ex_exct5_history : exists a, exact a (run isort_var isort_lit ceil_sqrt init_state (ex_vars5 ++ [OAmo ex_lits5; OExct ex_lits5; OConj [L 1 true; L 13 true]])).
Proof.
  apply (P_reachable _ _ _ externals_instance).
  - vm_compute. repeat split; repeat constructor.
  - repeat constructor.
Qed.

(* an argument already true at root, a repeated argument: at-most-one {b1, b1, b2} with b1 true is "not b2" *)
Example ex_root_true : exists s', x_new_amo 4 (fst (x_new_clause ex_state5 [L 1 true])) [L 1 true; L 2 true; L 1 true] = Ok (s', L 2 false).
Proof. vm_compute. eexists; reflexivity. Qed.
