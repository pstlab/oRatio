(* The writes of theory::propagate, as in-place reads and writes; the meaning of the values is added in DlUpdate_Proofs.v.
   Three parts:
   - `wr` (one cell: set_dist then set_pred) and section Closed: a predicate kept by wr, set_constr, set_fault, enqueue and
     the updates of queue / conflict flag is kept by propagate(p) and by one round of sat_core::propagate;
   - `over s0 V Q W s`: s is s0 with the cells of W overwritten by V / Q; a conditional write extends W by one cell;
   - propagate(from, to, dist): after k rounds of the O(n) loop (step1) the written cells are W1 k, after the set_i x set_j
     loop (step2) over the pairs `done` they are W2 done.
   s0 is the state after `set_dist(from,to,dist); set_pred(from,to,from)`; a = from, b = to.
     t1 u  <->  the test `_dists[u][from] != inf && _dists[u][from] < _dists[u][to] - dist` evaluated on s0
     t2 u  <->  the test `_dists[to][u] != inf && _dists[to][u] < _dists[from][u] - dist` evaluated on s0
   The four tests t1 a, t1 b, t2 a, t2 b are false (no conflict, the edge was an improvement): this is what makes every
   read of the loops see an unwritten cell. *)
From Coq Require Import List Arith Bool Lia.
From ORatio Require Import smt.DlDom smt.Dl proofs.DlNet_Proofs.
Import ListNotations.

Section Phase.
Variable D : Type.
Variable dm : dom D.
Notation state := (state D).
Notation dget := (dget D dm).
Notation cap := (cap D).
Notation sq := (sq D).
Notation same_rest := (same_rest D).

Definition wr (s : state) (i j : nat) (v : D) (p : option nat) : state := set_pred D (set_dist D dm s i j v) i j p.

Lemma wr_spec s i j v p : sq s -> i < cap s -> j < cap s ->
  sq (wr s i j v p) /\ cap (wr s i j v p) = cap s /\ same_rest s (wr s i j v p) /\
  dist_constr (wr s i j v p) = dist_constr s /\
  (forall i' j', dget (wr s i j v p) i' j' = if Nat.eqb i i' && Nat.eqb j j' then v else dget s i' j') /\
  (forall i' j', pget (wr s i j v p) i' j' = if Nat.eqb i i' && Nat.eqb j j' then p else pget s i' j') /\
  (fault (wr s i j v p) = 0 -> fault s = 0 /\ dok dm v = true).
Proof.
  intros Hs Hi Hj. unfold wr.
  destruct (set_dist_sq D dm s i j v Hs) as [Hs1 Hc1].
  destruct (set_pred_sq D (set_dist D dm s i j v) i j p Hs1) as [Hs2 Hc2].
  split; [exact Hs2 |]. split; [congruence |].
  split; [eapply same_rest_trans; [apply set_dist_rest | apply set_pred_rest] |].
  split; [rewrite set_pred_dc, set_dist_dc; reflexivity |].
  split; [intros i' j'; rewrite dget_set_pred; apply dget_set_dist; assumption |].
  split.
  - intros i' j'. rewrite pget_set_pred; [| exact Hs1 | rewrite Hc1; exact Hi | rewrite Hc1; exact Hj].
    rewrite pget_set_dist. reflexivity.
  - intro H. rewrite set_pred_fault in H. apply (set_dist_fault D dm s i j v H).
Qed.

Lemma n_vars_wr s i j v p : n_vars (wr s i j v p) = n_vars s.
Proof. unfold wr. destruct (set_pred_rest D (set_dist D dm s i j v) i j p) as [-> _]. apply set_dist_rest. Qed.

(* the common shape of the two branches of propagate(p): the edge a -dw-> b closes a negative cycle (ct), improves the
   distance (it), or changes nothing *)
Definition assert_edge (s1 : state) (p : lit) (a b : nat) (dw : D) (ct it : bool) : state * res D * list event :=
  if ct then
    let (s2, cl) := walk_or_fault D s1 b a b [] in (s2, RProp false (cl ++ [lnot p]), [Ev 3 (cl ++ [lnot p])])
  else if it then
    let s1' := set_constr D s1 (a, b) (fst p) in
    let (s2, evs) := propagate_edge D dm s1' a b dw in (s2, RProp true [], evs)
  else (s1, RProp true [], []).

Lemma propagate_lit_eq s p :
  propagate_lit D dm s p =
  match vd_find (fst p) (var_dists s) with
  | None => (s, RSkip, [])
  | Some c =>
      match value s (fst p, true) with
      | LT => assert_edge s p (c_from c) (c_to c) (c_dist c)
                (dltb dm (dget s (c_to c) (c_from c)) (dneg dm (c_dist c))) (dltb dm (c_dist c) (dget s (c_from c) (c_to c)))
      | LF => assert_edge s p (c_to c) (c_from c) (dpred dm (c_dist c))
                (dleb dm (dget s (c_from c) (c_to c)) (c_dist c)) (dleb dm (dneg dm (c_dist c)) (dget s (c_to c) (c_from c)))
      | LU => (s, RProp true [], [])
      end
  end.
Proof. reflexivity. Qed.

(* the index sets built by the first loop only contain indices of the list it ran over *)
Lemma step1_sets a b d (L : list nat) : forall ac,
  (forall x, In x (a_i D (fold_left (step1 D dm a b d) L ac)) -> In x (a_i D ac) \/ In x L) /\
  (forall x, In x (a_j D (fold_left (step1 D dm a b d) L ac)) -> In x (a_j D ac) \/ In x L).
Proof.
  induction L as [| u L IH]; intros ac; [split; intros; left; assumption |]. cbn [fold_left].
  destruct (IH (step1 D dm a b d ac u)) as [I1 I2].
  assert (S : (forall x, In x (a_i D (step1 D dm a b d ac u)) -> In x (a_i D ac) \/ x = u) /\
              (forall x, In x (a_j D (step1 D dm a b d ac u)) -> In x (a_j D ac) \/ x = u)).
  { unfold step1. destruct (dfin dm _ && dltb dm _ _); cbn [a_st a_i a_j]; (destruct (dfin dm _ && dltb dm _ _); cbn [a_i a_j]);
      split; intros x Hx; try (left; exact Hx); apply in_app_or in Hx; destruct Hx as [Hx | [<- | []]]; auto. }
  destruct S as [S1 S2]. split; intros x Hx.
  - destruct (I1 x Hx) as [H | H]; [destruct (S1 x H) as [H' | ->]; [left; exact H' | right; left; reflexivity] | right; right; exact H].
  - destruct (I2 x Hx) as [H | H]; [destruct (S2 x H) as [H' | ->]; [left; exact H' | right; left; reflexivity] | right; right; exact H].
Qed.

(* All that propagate(p) and one round of sat_core::propagate do to a state is a sequence of cell writes `wr`, set_constr,
   set_fault, enqueue and replacements of the queue and of the conflict flag: a predicate P closed under these is kept.
   The written cells have their indices in B (`fun _ => True`, or `fun i => i < c0` for predicates that speak of the
   capacity); Pb says why every index a run meets is in B. *)
Section Closed.
Variable B : nat -> Prop.
Variable P : state -> Prop.
Hypothesis Pwr : forall s i j v p, P s -> B i -> B j -> P (wr s i j v p).

Lemma step1_P a b d ac u : P (a_st D ac) -> B u -> B a -> B b -> P (a_st D (step1 D dm a b d ac u)).
Proof.
  intros H Hu Ha Hb. unfold step1.
  set (ac1 := if dfin dm (dget (a_st D ac) u a) && dltb dm (dget (a_st D ac) u a) (dsub dm (dget (a_st D ac) u b) d)
              then _ else ac).
  assert (P1 : P (a_st D ac1)).
  { unfold ac1. destruct (dfin dm _ && dltb dm _ _); [| exact H]. cbn [a_st]. apply (Pwr (a_st D ac) u b); assumption. }
  destruct (dfin dm (dget (a_st D ac1) b u) && dltb dm (dget (a_st D ac1) b u) (dsub dm (dget (a_st D ac1) a u) d)); [| exact P1].
  cbn [a_st]. apply (Pwr (a_st D ac1) a u); assumption.
Qed.

Lemma step1_fold_P a b d (L : list nat) : forall ac, P (a_st D ac) -> (forall u, In u L -> B u) -> B a -> B b ->
  P (a_st D (fold_left (step1 D dm a b d) L ac)).
Proof.
  induction L as [| u L IH]; intros ac H HL Ha Hb; [exact H |]. cbn [fold_left].
  apply IH; [apply step1_P; [exact H | apply HL; left; reflexivity | exact Ha | exact Hb] | intros; apply HL; right; assumption | exact Ha | exact Hb].
Qed.

Lemma step2_P b i (sc : state * list key) j : P (fst sc) -> B i -> B j -> P (fst (step2 D dm b i sc j)).
Proof.
  intros H Hi Hj. destruct sc as [s cu]. unfold step2. cbn [fst] in *.
  destruct (negb (Nat.eqb i j) && dltb dm (dadd dm (dget s i b) (dget s b j)) (dget s i j)); [| exact H].
  cbn [fst]. apply (Pwr s i j); assumption.
Qed.

Lemma step2_fold_P b (Li Lj : list nat) : forall sc, P (fst sc) -> (forall i, In i Li -> B i) -> (forall j, In j Lj -> B j) ->
  P (fst (fold_left (fun sc i => fold_left (step2 D dm b i) Lj sc) Li sc)).
Proof.
  induction Li as [| i Li IH]; intros sc H HLi HLj; [exact H |]. cbn [fold_left]. apply IH; [| intros; apply HLi; right; assumption | exact HLj].
  assert (Hi : B i) by (apply HLi; left; reflexivity).
  clear IH HLi. revert sc H. induction Lj as [| j Lj IHj]; intros sc H; [exact H |]. cbn [fold_left].
  apply IHj; [intros; apply HLj; right; assumption |]. apply step2_P; [exact H | exact Hi | apply HLj; left; reflexivity].
Qed.

Hypothesis Pconstr : forall s k c, P s -> P (set_constr D s k c).
Hypothesis Pfault : forall s f, P s -> P (set_fault D s f).
Hypothesis Penq : forall s p, P s -> P (fst (enqueue D s p)).
Hypothesis Pb : forall s, P s -> (forall u, u < n_vars s -> B u) /\
                               (forall v c, vd_find v (var_dists s) = Some c -> B (c_from c) /\ B (c_to c)).

Lemma P_walk_or_fault s r c st acc : P s -> P (fst (walk_or_fault D s r c st acc)).
Proof. intro H. unfold walk_or_fault. destruct (Dl.walk D s (n_vars s) r c st acc); cbn [fst]; [exact H | apply Pfault; exact H]. Qed.

Lemma P_record s cl : P s -> P (fst (record D s cl)).
Proof. intro H. unfold record. destruct cl; cbn [fst]; [exact H | apply Penq; exact H]. Qed.

Lemma P_step3c se cv : P (fst se) -> P (fst (step3c D dm se cv)).
Proof.
  destruct se as [s evs]. cbn [fst]. intro H.
  assert (L : forall r c st acc, P (fst (let (s1, cl) := walk_or_fault D s r c st acc in let (s2, ev) := record D s1 cl in (s2, evs ++ ev)))).
  { intros r c st acc. pose proof (P_walk_or_fault s r c st acc H) as H1. destruct (walk_or_fault D s r c st acc) as [s1 cl].
    pose proof (P_record s1 cl H1) as H2. destruct (record D s1 cl) as [s2 ev]. exact H2. }
  unfold step3c. destruct (vd_find cv (var_dists s)) as [c |]; [| exact H].
  destruct (value s (cv, true)); try exact H.
  destruct (dltb dm _ _); [apply L |]. destruct (dleb dm _ _); [apply L | exact H].
Qed.

Lemma P_step3c_fold cs : forall se, P (fst se) -> P (fst (fold_left (step3c D dm) cs se)).
Proof. induction cs as [| cv cs IH]; intros se H; [exact H |]. cbn [fold_left]. apply IH. apply P_step3c. exact H. Qed.

Lemma P_step3 ks : forall se, P (fst se) -> P (fst (fold_left (step3 D dm) ks se)).
Proof.
  induction ks as [| k ks IH]; intros se H; [exact H |]. cbn [fold_left]. apply IH. unfold step3.
  destruct (pm_find k (dist_constrs (fst se))) as [cs |]; [apply P_step3c_fold |]; exact H.
Qed.

Lemma P_propagate_edge s a b d : P s -> B a -> B b -> P (fst (propagate_edge D dm s a b d)).
Proof.
  intros H Ha Hb. unfold propagate_edge. fold (wr s a b d (Some a)). rewrite n_vars_wr.
  pose proof (Pwr s a b d (Some a) H Ha Hb) as H1. set (s1 := wr s a b d (Some a)) in *.
  assert (Hn : forall u, In u (seq 0 (n_vars s)) -> B u) by (intros u Hu; apply in_seq in Hu; apply (Pb s H); lia).
  destruct (step1_sets a b d (seq 0 (n_vars s)) (mkacc1 D s1 [] [] [(a, b); (b, a)])) as [SI SJ].
  apply P_step3. cbn [fst]. apply step2_fold_P.
  - apply step1_fold_P; assumption.
  - intros i Hi. destruct (SI i Hi) as [[] | Hin]. apply Hn. exact Hin.
  - intros j Hj. destruct (SJ j Hj) as [[] | Hin]. apply Hn. exact Hin.
Qed.

Lemma P_assert_edge s p a b dw ct it : P s -> B a -> B b -> P (fst (fst (assert_edge s p a b dw ct it))).
Proof.
  intros H Ha Hb. unfold assert_edge. destruct ct; [| destruct it; [| exact H]].
  - pose proof (P_walk_or_fault s b a b [] H) as H1. destruct (walk_or_fault D s b a b []) as [s1 cl]. exact H1.
  - pose proof (P_propagate_edge (set_constr D s (a, b) (fst p)) a b dw (Pconstr s _ _ H) Ha Hb) as H1.
    destruct (propagate_edge D dm (set_constr D s (a, b) (fst p)) a b dw) as [s2 evs]. exact H1.
Qed.

Lemma P_propagate_lit s p : P s -> P (fst (fst (propagate_lit D dm s p))).
Proof.
  intro H. rewrite propagate_lit_eq. destruct (vd_find (fst p) (var_dists s)) as [c |] eqn:Hc; [| exact H].
  destruct (proj2 (Pb s H) _ _ Hc) as [Hf Ht].
  destruct (value s (fst p, true)); [apply P_assert_edge | apply P_assert_edge | exact H]; assumption.
Qed.

Hypothesis Pqueue : forall s q, P s -> P (set_sat D s (assigns s) q (trail s)).
Hypothesis Pconfl : forall s b, P s -> P (set_confl D s b).

Lemma P_prop_one s : P s -> P (fst (fst (prop_one D dm s))).
Proof.
  intro H. unfold prop_one. destruct (prop_q s) as [| p q]; [exact H |].
  pose proof (P_propagate_lit _ p (Pqueue s q H)) as H1.
  destruct (propagate_lit D dm (set_sat D s (assigns s) q (trail s)) p) as [[s2 r] evs]. cbn [fst] in H1.
  destruct r as [| | | | | | ok cl |]; try exact H1. destruct ok; [exact H1 |]. cbn [fst].
  apply Pconfl. apply (Pqueue s2 [] H1).
Qed.
End Closed.

(* the hypothesis Pb for predicates that do not speak of the capacity (B := fun _ => True) *)
Lemma no_bound (s : state) : (forall u, u < n_vars s -> True) /\ (forall v c, vd_find v (var_dists s) = Some c -> True /\ True).
Proof. split; [intros; exact I | intros; split; exact I]. Qed.

Lemma propagate_lit_vd s p : var_dists (fst (fst (propagate_lit D dm s p))) = var_dists s.
Proof.
  apply (P_propagate_lit (fun _ => True) (fun u => var_dists u = var_dists s)); try reflexivity.
  - intros u i j v q E _ _. unfold wr. destruct (set_dist_rest D dm u i j v) as (_ & E1 & _).
    destruct (set_pred_rest D (set_dist D dm u i j v) i j q) as (_ & E2 & _). congruence.
  - intros u k c E. destruct (set_constr_rest D u k c) as (_ & E1 & _). congruence.
  - intros u f E. exact E.
  - intros u l E. unfold enqueue. destruct (value u l); exact E.
  - intros u _. apply no_bound.
Qed.

(* no step of the propagation clears the fault flag: a fault-free result has a fault-free start *)
Lemma enqueue_fault (u : state) l : fault (fst (enqueue D u l)) = fault u.
Proof. unfold enqueue. destruct (value u l); reflexivity. Qed.

(* `after s u`: u comes after s as far as the fault flag is concerned *)
Definition after (s u : state) : Prop := fault u = 0 -> fault s = 0.

Lemma after_refl s : after s s.
Proof. intro F. exact F. Qed.
Lemma after_same s u u' : fault u' = fault u -> after s u -> after s u'.
Proof. intros E H F. apply H. congruence. Qed.
Lemma after_wr s u i j v p : after s u -> after s (wr u i j v p).
Proof. intros H F. apply H. unfold wr in F. rewrite set_pred_fault in F. apply (set_dist_fault D dm u i j v F). Qed.
Lemma after_set_fault s u f : after s u -> after s (set_fault D u f).
Proof. intros H F. apply H. exact (proj1 (set_fault_zero D u f F)). Qed.
Lemma after_enqueue s u l : after s u -> after s (fst (enqueue D u l)).
Proof. apply after_same. apply enqueue_fault. Qed.

Lemma step3c_fold_fault cs se : fault (fst (fold_left (step3c D dm) cs se)) = 0 -> fault (fst se) = 0.
Proof. exact (P_step3c_fold (after (fst se)) (after_set_fault _) (after_enqueue _) cs se (after_refl _)). Qed.

Lemma step3_fold_fault ks se : fault (fst (fold_left (step3 D dm) ks se)) = 0 -> fault (fst se) = 0.
Proof. exact (P_step3 (after (fst se)) (after_set_fault _) (after_enqueue _) ks se (after_refl _)). Qed.

Lemma prop_one_fault s : fault (fst (fst (prop_one D dm s))) = 0 -> fault s = 0.
Proof.
  exact (P_prop_one (fun _ => True) (after s) (fun u i j v p H _ _ => after_wr s u i j v p H) (fun u k c => after_same s u _ eq_refl) (after_set_fault s)
           (after_enqueue s) (fun u _ => no_bound u) (fun u q => after_same s u _ eq_refl) (fun u b => after_same s u _ eq_refl) s (after_refl s)).
Qed.

(* `over s0 V Q W s`: s is s0 with the cells of W overwritten, cell (i, j) by the distance V i j and the predecessor Q i j *)
Section Over.
Variable s0 : state.
Variable V : nat -> nat -> D.
Variable Q : nat -> nat -> option nat.

Record over (W : nat -> nat -> bool) (s : state) : Prop := mkover {
  ov_sq : sq s;
  ov_cap : cap s = cap s0;
  ov_rest : same_rest s0 s;
  ov_dc : dist_constr s = dist_constr s0;
  ov_d : forall i j, dget s i j = if W i j then V i j else dget s0 i j;
  ov_p : forall i j, pget s i j = if W i j then Q i j else pget s0 i j;
  ov_fault : fault s = 0 -> fault s0 = 0 /\ forall i j, W i j = true -> dok dm (V i j) = true
}.

Lemma over_frame W s i j : over W s -> W i j = false -> dget s i j = dget s0 i j /\ pget s i j = pget s0 i j.
Proof. intros O E. rewrite (ov_d _ _ O), (ov_p _ _ O), E. split; reflexivity. Qed.

Lemma over_init : sq s0 -> over (fun _ _ => false) s0.
Proof. intro H. constructor; auto using same_rest_refl. intro F. split; [exact F | discriminate]. Qed.

Lemma over_ext W W' s : (forall i j, W i j = W' i j) -> over W s -> over W' s.
Proof.
  intros E [A1 A2 A3 A4 A5 A6 A7]. constructor; try assumption; try (intros; rewrite <- E; auto).
  intro F. destruct (A7 F) as [F0 Ok]. split; [exact F0 |]. intros i j H. rewrite <- E in H. auto.
Qed.

Lemma if_or (T : Type) (c w : bool) (x y z : T) :
  (c = true -> x = y) -> (if c then x else if w then y else z) = (if w || c then y else z).
Proof. destruct c; [rewrite orb_true_r; intro H; apply H; reflexivity | rewrite orb_false_r; reflexivity]. Qed.

(* a conditional write of cell (i, j) *)
Lemma over_wr W s i j (c : bool) : over W s -> i < cap s0 -> j < cap s0 ->
  over (fun i' j' => W i' j' || c && (Nat.eqb i i' && Nat.eqb j j')) (if c then wr s i j (V i j) (Q i j) else s).
Proof.
  intros O Hi Hj. destruct c; [| apply (over_ext W); [intros; rewrite orb_false_r; reflexivity | exact O]].
  destruct O as [A1 A2 A3 A4 A5 A6 A7].
  destruct (wr_spec s i j (V i j) (Q i j) A1) as (Wsq & Wcap & Wrest & Wdc & Wd & Wp & Wf); [lia | lia |].
  constructor.
  - exact Wsq.
  - congruence.
  - eapply same_rest_trans; eassumption.
  - congruence.
  - intros i' j'. rewrite Wd, A5. cbn [andb]. apply if_or. intro H. apply andb_true_iff in H. destruct H as [H1 H2].
    apply Nat.eqb_eq in H1, H2. subst. reflexivity.
  - intros i' j'. rewrite Wp, A6. cbn [andb]. apply if_or. intro H. apply andb_true_iff in H. destruct H as [H1 H2].
    apply Nat.eqb_eq in H1, H2. subst. reflexivity.
  - intro F. destruct (Wf F) as [F0 Ok]. destruct (A7 F0) as [F00 Oks]. split; [exact F00 |].
    intros i' j' H. apply orb_true_iff in H. destruct H as [H | H]; [apply Oks; exact H |].
    cbn [andb] in H. apply andb_true_iff in H. destruct H as [H1 H2]. apply Nat.eqb_eq in H1, H2. subst. exact Ok.
Qed.
End Over.

Variable s0 : state.
Variables a b : nat.
Variable d : D.

Definition t1 (u : nat) : bool := dfin dm (dget s0 u a) && dltb dm (dget s0 u a) (dsub dm (dget s0 u b) d).
Definition t2 (u : nat) : bool := dfin dm (dget s0 b u) && dltb dm (dget s0 b u) (dsub dm (dget s0 a u) d).

(* the cells written by the first k rounds, and what is written there: column b and row a *)
Fixpoint W1 (k i j : nat) : bool :=
  match k with
  | O => false
  | S k' => W1 k' i j || t1 k' && (Nat.eqb k' i && Nat.eqb b j) || t2 k' && (Nat.eqb a i && Nat.eqb k' j)
  end.
Definition V1 (i j : nat) : D := if Nat.eqb j b then dadd dm (dget s0 i a) d else dadd dm (dget s0 b j) d.
Definition Q1 (i j : nat) : option nat := if Nat.eqb j b then Some a else pget s0 b j.

Lemma W1_iff k i j : W1 k i j = true <-> (j = b /\ i < k /\ t1 i = true) \/ (i = a /\ j < k /\ t2 j = true).
Proof.
  induction k as [| k IH]; cbn [W1].
  - split; [discriminate | intros [(_ & H & _) | (_ & H & _)]; lia].
  - rewrite !orb_true_iff, !andb_true_iff, !Nat.eqb_eq, IH. split.
    + intros [[[(? & ? & ?) | (? & ? & ?)] | (T & <- & <-)] | (T & <- & <-)]; [left | right | left | right]; repeat split; auto; lia.
    + intros [(-> & H & T) | (-> & H & T)].
      * destruct (Nat.eq_dec i k) as [-> | ?]; [left; right; auto | left; left; left; repeat split; auto; lia].
      * destruct (Nat.eq_dec j k) as [-> | ?]; [right; auto | left; left; right; repeat split; auto; lia].
Qed.

Lemma W1_false k i j : ~ (j = b /\ i < k /\ t1 i = true) -> ~ (i = a /\ j < k /\ t2 j = true) -> W1 k i j = false.
Proof. intros N1 N2. destruct (W1 k i j) eqn:E; [| reflexivity]. apply W1_iff in E. tauto. Qed.

Hypothesis Hsq : sq s0.
Hypothesis Ha : a < n_vars s0.
Hypothesis Hb : b < n_vars s0.
Hypothesis Hn : n_vars s0 <= cap s0.
Hypothesis Hab : a <> b.

Hypothesis T1a : t1 a = false.
Hypothesis T1b : t1 b = false.
Hypothesis T2a : t2 a = false.
Hypothesis T2b : t2 b = false.

Definition cu1 (k : nat) : list key :=
  [(a, b); (b, a)] ++ flat_map (fun u => (if t1 u then [(u, b); (b, u)] else []) ++ (if t2 u then [(a, u); (u, a)] else [])) (seq 0 k).

Record inv1 (k : nat) (ac : acc1 D) : Prop := mkinv1 {
  i1_over : over s0 V1 Q1 (W1 k) (a_st D ac);
  i1_i : a_i D ac = filter t1 (seq 0 k);
  i1_j : a_j D ac = filter t2 (seq 0 k);
  i1_cu : a_cu D ac = cu1 k
}.

Lemma inv1_init : inv1 0 (mkacc1 D s0 [] [] [(a, b); (b, a)]).
Proof. constructor; [apply over_init; exact Hsq | reflexivity | reflexivity | reflexivity]. Qed.

Lemma filter_snoc (f : nat -> bool) k : filter f (seq 0 (S k)) = filter f (seq 0 k) ++ (if f k then [k] else []).
Proof. rewrite seq_S, filter_app. reflexivity. Qed.

Lemma cu1_S k : cu1 (S k) = (cu1 k ++ (if t1 k then [(k, b); (b, k)] else [])) ++ (if t2 k then [(a, k); (k, a)] else []).
Proof. unfold cu1. rewrite seq_S, flat_map_app. cbn [flat_map plus]. rewrite app_nil_r, <- !app_assoc. reflexivity. Qed.

Lemma inv1_step k ac : k < n_vars s0 -> inv1 k ac -> inv1 (S k) (step1 D dm a b d ac k).
Proof.
  intros Hk [O Ii Ij Icu]. assert (Hkc : k < cap s0) by lia. assert (Hac : a < cap s0) by lia. assert (Hbc : b < cap s0) by lia.
  unfold step1. set (s := a_st D ac) in *.
  (* the first test reads unwritten cells *)
  destruct (over_frame _ _ _ _ s k a O) as [R1 _]; [apply W1_false; [intros [? _]; congruence | intros (? & ? & _); lia] |].
  destruct (over_frame _ _ _ _ s k b O) as [R2 _]; [apply W1_false; [intros (_ & ? & _); lia | intros (_ & _ & ?); congruence] |].
  rewrite R1, R2. fold (t1 k).
  set (ac1 := if t1 k then _ else ac).
  assert (E1 : a_st D ac1 = if t1 k then wr s k b (V1 k b) (Q1 k b) else s).
  { unfold ac1, V1, Q1. rewrite Nat.eqb_refl. destruct (t1 k); reflexivity. }
  pose proof (over_wr s0 V1 Q1 (W1 k) s k b (t1 k) O Hkc Hbc) as O1. rewrite <- E1 in O1.
  (* so does the second *)
  assert (Nb : forall x, t1 k && (Nat.eqb k b && Nat.eqb b x) = false).
  { intro x. destruct (Nat.eqb_spec k b) as [-> | _]; [rewrite T1b | rewrite andb_false_r]; reflexivity. }
  assert (Na : t1 k && (Nat.eqb k a && Nat.eqb b k) = false).
  { destruct (Nat.eqb_spec k a) as [-> | _]; [destruct (Nat.eqb_spec b a); [congruence |] |]; rewrite ?andb_false_r; reflexivity. }
  destruct (over_frame _ _ _ _ (a_st D ac1) b k O1) as [R3 R5].
  { rewrite Nb, orb_false_r. apply W1_false; [intros (? & ? & _); lia | intros (? & _); congruence]. }
  destruct (over_frame _ _ _ _ (a_st D ac1) a k O1) as [R4 _].
  { rewrite Na, orb_false_r. apply W1_false; [intros (_ & _ & ?); congruence | intros (_ & ? & _); lia]. }
  rewrite R3, R4, pget_set_dist, R5. fold (t2 k).
  set (ac2 := if t2 k then _ else ac1).
  assert (E2 : a_st D ac2 = if t2 k then wr (a_st D ac1) a k (V1 a k) (Q1 a k) else a_st D ac1).
  { unfold ac2, V1, Q1. destruct (t2 k) eqn:T; [| reflexivity].
    destruct (Nat.eqb_spec k b) as [-> | _]; [congruence | reflexivity]. }
  pose proof (over_wr s0 V1 Q1 _ (a_st D ac1) a k (t2 k) O1 Hac Hkc) as O2. rewrite <- E2 in O2.
  constructor.
  - exact O2.
  - rewrite filter_snoc, <- Ii. unfold ac2, ac1. destruct (t1 k), (t2 k); cbn [a_i]; rewrite ?app_nil_r; reflexivity.
  - rewrite filter_snoc, <- Ij. unfold ac2, ac1. destruct (t1 k), (t2 k); cbn [a_j]; rewrite ?app_nil_r; reflexivity.
  - rewrite cu1_S, <- Icu. unfold ac2, ac1. destruct (t1 k), (t2 k); cbn [a_cu]; rewrite ?app_nil_r; reflexivity.
Qed.

Lemma inv1_fold k : k <= n_vars s0 ->
  inv1 k (fold_left (step1 D dm a b d) (seq 0 k) (mkacc1 D s0 [] [] [(a, b); (b, a)])).
Proof.
  induction k as [| k IH]; intro Hk.
  - apply inv1_init.
  - rewrite seq_S, fold_left_app. cbn [fold_left plus]. apply inv1_step; [lia | apply IH; lia].
Qed.

Section Inv1.
Variable k : nat.
Variable ac : acc1 D.
Hypothesis I : inv1 k ac.

Lemma i1_col u : u < k -> t1 u = true -> dget (a_st D ac) u b = dadd dm (dget s0 u a) d /\ pget (a_st D ac) u b = Some a.
Proof.
  intros Hu Ht. assert (E : W1 k u b = true) by (apply W1_iff; left; auto).
  rewrite (ov_d _ _ _ _ _ (i1_over _ _ I)), (ov_p _ _ _ _ _ (i1_over _ _ I)), E. unfold V1, Q1. rewrite Nat.eqb_refl. split; reflexivity.
Qed.
Lemma i1_row u : u < k -> t2 u = true -> dget (a_st D ac) a u = dadd dm (dget s0 b u) d /\ pget (a_st D ac) a u = pget s0 b u.
Proof.
  intros Hu Ht. assert (E : W1 k a u = true) by (apply W1_iff; right; auto).
  rewrite (ov_d _ _ _ _ _ (i1_over _ _ I)), (ov_p _ _ _ _ _ (i1_over _ _ I)), E. unfold V1, Q1.
  destruct (Nat.eqb_spec u b) as [Eu | _]; [rewrite Eu in Ht; congruence | split; reflexivity].
Qed.
Lemma i1_frame i j : ~ (j = b /\ i < k /\ t1 i = true) -> ~ (i = a /\ j < k /\ t2 j = true) ->
  dget (a_st D ac) i j = dget s0 i j /\ pget (a_st D ac) i j = pget s0 i j.
Proof. intros N1 N2. apply (over_frame _ _ _ _ _ _ _ (i1_over _ _ I)). apply W1_false; assumption. Qed.
Lemma i1_fault : fault (a_st D ac) = 0 ->
  fault s0 = 0 /\ (forall u, u < k -> t1 u = true -> dok dm (dadd dm (dget s0 u a) d) = true) /\
  (forall u, u < k -> t2 u = true -> dok dm (dadd dm (dget s0 b u) d) = true).
Proof.
  intro F. destruct (ov_fault _ _ _ _ _ (i1_over _ _ I) F) as [F0 Ok]. split; [exact F0 |]. split; intros u Hu Ht.
  - assert (E : W1 k u b = true) by (apply W1_iff; left; auto). specialize (Ok u b E). unfold V1 in Ok. rewrite Nat.eqb_refl in Ok. exact Ok.
  - assert (E : W1 k a u = true) by (apply W1_iff; right; auto). specialize (Ok a u E). unfold V1 in Ok.
    destruct (Nat.eqb_spec u b) as [Eu | _]; [rewrite Eu in Ht; congruence | exact Ok].
Qed.
End Inv1.

(* phase 2, started from any state s1 whose row b and column b it never writes *)
Variable s1 : state.
Hypothesis Hsq1 : sq s1.
Hypothesis Hcap1 : cap s1 = cap s0.

Definition t3 (i j : nat) : bool := dltb dm (dadd dm (dget s1 i b) (dget s1 b j)) (dget s1 i j).
Definition hit (ij : nat * nat) : bool := negb (Nat.eqb (fst ij) (snd ij)) && t3 (fst ij) (snd ij).
Definition cu2 (done : list (nat * nat)) : list key :=
  flat_map (fun ij => if hit ij then [(fst ij, snd ij); (snd ij, fst ij)] else []) done.

(* the cells written after the pairs of `done` have been visited, and what is written there *)
Definition W2 (done : list (nat * nat)) (i j : nat) : bool :=
  existsb (fun xy => Nat.eqb (fst xy) i && Nat.eqb (snd xy) j) done && hit (i, j).
Definition V2 (i j : nat) : D := dadd dm (dget s1 i b) (dget s1 b j).
Definition Q2 (i j : nat) : option nat := pget s1 b j.

Lemma W2_iff done i j : W2 done i j = true <-> In (i, j) done /\ hit (i, j) = true.
Proof.
  unfold W2. rewrite andb_true_iff, existsb_exists. split; intros [H1 H2]; (split; [| exact H2]).
  - destruct H1 as ([x y] & Hin & E). apply andb_true_iff in E. cbn [fst snd] in E. destruct E as [E1 E2].
    apply Nat.eqb_eq in E1, E2. subst. exact Hin.
  - exists (i, j). cbn [fst snd]. rewrite !Nat.eqb_refl. auto.
Qed.
Lemma W2_false done i j : ~ (In (i, j) done /\ hit (i, j) = true) -> W2 done i j = false.
Proof. intro N. destruct (W2 done i j) eqn:E; [| reflexivity]. apply W2_iff in E. contradiction. Qed.

Record inv2 (done : list (nat * nat)) (cu0 : list key) (sc : state * list key) : Prop := mkinv2 {
  i2_over : over s1 V2 Q2 (W2 done) (fst sc);
  i2_cu : snd sc = cu0 ++ cu2 done
}.

Lemma inv2_step done cu0 sc i j :
  inv2 done cu0 sc -> ~ In (i, j) done -> i < n_vars s0 -> j < n_vars s0 -> i <> b -> j <> b ->
  (forall x y, In (x, y) done -> x <> b /\ y <> b) ->
  inv2 (done ++ [(i, j)]) cu0 (step2 D dm b i sc j).
Proof.
  intros [O Icu] Hnd Hi Hj Hib Hjb Hdone. destruct sc as [s cu]. cbn [fst snd] in *. unfold step2.
  assert (Nd : forall x y, x = b \/ y = b \/ (x, y) = (i, j) -> W2 done x y = false).
  { intros x y H. apply W2_false. intros [Hin _]. destruct (Hdone _ _ Hin). destruct H as [-> | [-> | [= -> ->]]]; contradiction. }
  destruct (over_frame _ _ _ _ s i b O (Nd i b (or_intror (or_introl eq_refl)))) as [R1 _].
  destruct (over_frame _ _ _ _ s b j O (Nd b j (or_introl eq_refl))) as [R2 R4].
  destruct (over_frame _ _ _ _ s i j O (Nd i j (or_intror (or_intror eq_refl)))) as [R3 _].
  rewrite R1, R2, R3, pget_set_dist, R4. fold (t3 i j). change (negb (Nat.eqb i j) && t3 i j) with (hit (i, j)).
  pose proof (over_wr s1 V2 Q2 (W2 done) s i j (hit (i, j)) O) as O'. rewrite Hcap1 in O'. specialize (O' ltac:(lia) ltac:(lia)).
  assert (E : forall i' j', W2 done i' j' || hit (i, j) && (Nat.eqb i i' && Nat.eqb j j') = W2 (done ++ [(i, j)]) i' j').
  { intros i' j'. unfold W2. rewrite existsb_app. cbn [existsb fst snd]. rewrite orb_false_r.
    destruct (Nat.eqb_spec i i') as [<- | _]; [destruct (Nat.eqb_spec j j') as [<- | _] |]; cbn [andb];
      rewrite ?andb_false_r, ?orb_false_r; [| reflexivity | reflexivity].
    destruct (existsb _ done), (hit (i, j)); reflexivity. }
  apply (over_ext _ _ _ _ _ _ E) in O'.
  destruct (hit (i, j)) eqn:Eh; constructor; cbn [fst snd]; try exact O';
    rewrite Icu; unfold cu2; rewrite flat_map_app; cbn [flat_map fst snd]; rewrite Eh, ?app_nil_r, ?app_assoc; reflexivity.
Qed.

Lemma inv2_inner done cu0 sc i (L : list nat) :
  inv2 done cu0 sc -> i < n_vars s0 -> i <> b -> NoDup L ->
  (forall j, In j L -> j < n_vars s0 /\ j <> b /\ ~ In (i, j) done) ->
  (forall x y, In (x, y) done -> x <> b /\ y <> b) ->
  inv2 (done ++ map (pair i) L) cu0 (fold_left (step2 D dm b i) L sc).
Proof.
  intros I Hi Hib. revert done sc I. induction L as [| j L IH]; intros done sc I Hnd HL Hdone.
  - cbn. rewrite app_nil_r. exact I.
  - cbn [fold_left map]. inversion Hnd as [| ? ? Hnj HndL]; subst.
    destruct (HL j (or_introl eq_refl)) as (Hj & Hjb & Hnin).
    replace (done ++ (i, j) :: map (pair i) L) with ((done ++ [(i, j)]) ++ map (pair i) L) by (rewrite <- app_assoc; reflexivity).
    apply IH.
    + apply inv2_step; assumption.
    + exact HndL.
    + intros j' Hj'. destruct (HL j' (or_intror Hj')) as (? & ? & Hn'). repeat split; try assumption.
      intro Hin. apply in_app_or in Hin. destruct Hin as [Hin | [[= E] | []]]; [contradiction | subst; contradiction].
    + intros x y Hin. apply in_app_or in Hin. destruct Hin as [Hin | [[= <- <-] | []]]; [apply Hdone; exact Hin | split; assumption].
Qed.

Lemma inv2_outer cu0 (Li Lj : list nat) : forall done sc,
  inv2 done cu0 sc -> NoDup Li -> NoDup Lj ->
  (forall i, In i Li -> i < n_vars s0 /\ i <> b /\ forall j, ~ In (i, j) done) ->
  (forall j, In j Lj -> j < n_vars s0 /\ j <> b) ->
  (forall x y, In (x, y) done -> x <> b /\ y <> b) ->
  inv2 (done ++ flat_map (fun i => map (pair i) Lj) Li) cu0 (fold_left (fun sc i => fold_left (step2 D dm b i) Lj sc) Li sc).
Proof.
  induction Li as [| i Li IH]; intros done sc I Hndi Hndj HLi HLj Hdone.
  - cbn. rewrite app_nil_r. exact I.
  - cbn [fold_left flat_map]. inversion Hndi as [| ? ? Hni HndLi]; subst.
    destruct (HLi i (or_introl eq_refl)) as (Hi & Hib & Hnin).
    rewrite app_assoc. apply IH.
    + apply inv2_inner; try assumption. intros j Hj. destruct (HLj j Hj). repeat split; auto.
    + exact HndLi.
    + exact Hndj.
    + intros i' Hi'. destruct (HLi i' (or_intror Hi')) as (? & ? & Hn'). repeat split; try assumption.
      intros j Hin. apply in_app_or in Hin. destruct Hin as [Hin | Hin]; [exact (Hn' j Hin) |].
      apply in_map_iff in Hin. destruct Hin as [j' [[= E1 E2] _]]. subst. contradiction.
    + exact HLj.
    + intros x y Hin. apply in_app_or in Hin. destruct Hin as [Hin | Hin]; [apply Hdone; exact Hin |].
      apply in_map_iff in Hin. destruct Hin as [j' [[= <- <-] Hj']]. split; [exact Hib | apply (HLj j' Hj')].
Qed.

Lemma inv2_init cu0 : inv2 [] cu0 (s1, cu0).
Proof. constructor; cbn [fst snd]; [apply over_init; exact Hsq1 | rewrite app_nil_r; reflexivity]. Qed.

Section Inv2.
Variable done : list (nat * nat).
Variable cu0 : list key.
Variable sc : state * list key.
Hypothesis I : inv2 done cu0 sc.

Lemma i2_hit i j : In (i, j) done -> hit (i, j) = true ->
  dget (fst sc) i j = dadd dm (dget s1 i b) (dget s1 b j) /\ pget (fst sc) i j = pget s1 b j.
Proof.
  intros Hin Hh. assert (E : W2 done i j = true) by (apply W2_iff; auto).
  rewrite (ov_d _ _ _ _ _ (i2_over _ _ _ I)), (ov_p _ _ _ _ _ (i2_over _ _ _ I)), E. split; reflexivity.
Qed.
Lemma i2_frame i j : ~ (In (i, j) done /\ hit (i, j) = true) -> dget (fst sc) i j = dget s1 i j /\ pget (fst sc) i j = pget s1 i j.
Proof. intro N. apply (over_frame _ _ _ _ _ _ _ (i2_over _ _ _ I)). apply W2_false. exact N. Qed.
Lemma i2_fault : fault (fst sc) = 0 ->
  fault s1 = 0 /\ forall i j, In (i, j) done -> hit (i, j) = true -> dok dm (dadd dm (dget s1 i b) (dget s1 b j)) = true.
Proof.
  intro F. destruct (ov_fault _ _ _ _ _ (i2_over _ _ _ I) F) as [F0 Ok]. split; [exact F0 |].
  intros i j Hin Hh. apply (Ok i j). apply W2_iff. auto.
Qed.
End Inv2.

End Phase.
